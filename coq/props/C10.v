(* C10 — Every storage backend behaves as the same keyed map. *)
From Vise Require Import Bytes Errors Consts DbKey DbModel DbProofs.
Local Open Scope N_scope.

(* The reference map (DbModel.spec): (type, session-or-none, language-or-default, key) -> value,
   newest entry first; Get looks up the translation, then the default-language entry, and answers
   ENotFound when neither was ever written; Put is refused while the type is locked.  "X refines
   the reference" = for EVERY history of Put/Get/SetPrefix/SetSession/SetLanguage/SetLock the
   backend returns, operation by operation, exactly what the reference map returns.

   FULL STATEMENT (false for the code as it is; refuted below): the refinement holds on every
   backend for all histories over well-formed keys (wf_key: symbol grammar, no language suffix),
   dot-free session ids (wf_sid or empty) and the documented types, and Dump lists exactly the
   reference map's keys with the prefix.  mem and pg satisfy it, even under the weaker guards of
   hist_ok; fs satisfies it only under fs_hist_ok (plain names, no_legacy_clash, b64_slash_free),
   and Dump only under dump_ok. *)

Theorem C10_reference_read_your_write : forall sp k v,
  snd (spec_put sp k v) = DOk -> spec_get (fst (spec_put sp k v)) k = DVal v.
Proof.
  intros sp k v. unfold spec_put. destruct (negb (check_put (sp_base sp))); [discriminate|].
  destruct (b_pfx (sp_base sp) =? DATATYPE_UNKNOWN) eqn:Ep; [discriminate|]. intros _. cbn [fst].
  unfold spec_get. cbn [sp_base sp_map]. rewrite Ep.
  destruct (eff_lang (sp_base sp)) as [c|]; cbn [slookup]; rewrite akey_eqb_refl; reflexivity.
Qed.
Theorem C10_reference_fallback_default : forall sp k c v,
  b_pfx (sp_base sp) <> DATATYPE_UNKNOWN -> eff_lang (sp_base sp) = Some c ->
  slookup (ctx_akey (sp_base sp) (Some c) k) (sp_map sp) = None ->
  slookup (ctx_akey (sp_base sp) None k) (sp_map sp) = Some v ->
  spec_get sp k = DVal v.
Proof.
  intros sp k c v Hp El Ht Hd. unfold spec_get. rewrite (eqb_unknown _ Hp), El, Ht, Hd. reflexivity.
Qed.
Theorem C10_reference_never_written : forall sp k,
  b_pfx (sp_base sp) <> DATATYPE_UNKNOWN ->
  (forall l, slookup (ctx_akey (sp_base sp) l k) (sp_map sp) = None) ->
  spec_get sp k = DErr ENotFound.
Proof.
  intros sp k Hp H. unfold spec_get. rewrite (eqb_unknown _ Hp), (H None).
  destruct (eff_lang (sp_base sp)) as [c|]; [rewrite (H (Some c))|]; reflexivity.
Qed.

(* mem and pg refine the reference under hist_ok: session ids dot-free, language codes of three bytes, keys
   without language suffix (and dot-free under the empty session id); wf_key implies this key guard
   (C10_wf_key_meets_guard, below the two theorems) *)
Theorem C10_mem_refines_spec : forall dir ops,
  hist_ok spec_init ops = true -> db_results BMem dir ops = spec_results ops.
Proof. exact (fun dir ops => kv_refines_spec BMem dir ops eq_refl). Qed.

Theorem C10_pg_refines_spec : forall dir ops,
  hist_ok spec_init ops = true -> db_results BPg dir ops = spec_results ops.
Proof. exact (fun dir ops => kv_refines_spec BPg dir ops eq_refl). Qed.

Theorem C10_wf_key_meets_guard : forall b k,
  wf_key k = true -> documented_type (b_pfx b) = true -> key_ok b k = true.
Proof.
  unfold wf_key, key_ok. intros b k H Hd. apply andb_true_iff in H as [Hg Hn].
  rewrite (sym_grammar_dot_free _ Hg). unfold to_session_key. apply andb_true_iff. split.
  - destruct (sessioned (b_pfx b) && is_nil (b_sid b)); reflexivity.
  - destruct (sessioned (b_pfx b)) eqn:Hs; [rewrite (documented_sessioned_not_lang _ Hd Hs); reflexivity|].
    destruct (lang_type (b_pfx b)); [exact Hn|reflexivity].
Qed.

Theorem C10_locked_put_is_noop : forall be st k v,
  check_put (d_base st) = false -> db_step be st (OPut k v) = (st, DRefused).
Proof.
  intros be st k v H. destruct be as [| |bin]; cbn [db_step]; unfold kv_put, fs_put; rewrite H; reflexivity.
Qed.
Theorem C10_fresh_store_locks_readonly_types : forall t,
  In t [DATATYPE_BIN; DATATYPE_MENU; DATATYPE_TEMPLATE; DATATYPE_STATICLOAD] ->
  check_put (set_prefix new_base t) = false.
Proof. intros t [<-|[<-|[<-|[<-|[]]]]]; reflexivity. Qed.

(* sealing locks the read-only types (Safe() holds) and can never be undone: after it, over every
   continuation, the seal and the lock mask stay as they are and SetLock fails *)
Theorem C10_seal_establishes_safe : forall b lk,
  b_seal b = false -> snd (set_lock b 0 lk) = true
  /\ b_seal (fst (set_lock b 0 lk)) = true /\ safe (fst (set_lock b 0 lk)) = true.
Proof.
  intros b lk H. unfold set_lock. rewrite H. cbn [N.eqb fst snd b_seal]. repeat split.
  unfold safe. cbn [b_lock]. rewrite land_lor_safe. apply N.eqb_refl.
Qed.
Theorem C10_seal_is_final : forall be ops st,
  b_seal (d_base st) = true ->
  b_seal (d_base (fst (db_run be st ops))) = true
  /\ b_lock (d_base (fst (db_run be st ops))) = b_lock (d_base st).
Proof.
  intros be ops st H.
  apply (db_run_inv be (fun s => b_seal (d_base s) = true /\ b_lock (d_base s) = b_lock (d_base st))); [|auto].
  intros s o. apply sealed_step.
Qed.
Theorem C10_sealed_setlock_fails : forall be st p lk,
  b_seal (d_base st) = true -> snd (db_step be st (OSetLock p lk)) = DErr EGen.
Proof. intros be st p lk H. cbn [db_step]. unfold set_lock. rewrite H. reflexivity. Qed.

(* fs, text and binary-key mode: the refinement holds under fs_hist_ok = documented types, plain
   file names (no '/', NUL, "." / "..", at most 255 bytes; in binary mode this contains
   b64_slash_free), and no_legacy_clash (no legacy fallback name beginning with a type character) *)
Theorem C10_fs_refines_spec_partial : forall bin dir ops,
  dir_ok dir = true -> fs_hist_ok bin spec_init ops = true ->
  db_results (BFs bin) dir ops = spec_results ops.
Proof. intros bin dir ops Hd H. apply fs_run_refines; assumption. Qed.

(* fs, text mode, default language: Dump(p) lists exactly the keys of the current (type, session)
   that have the prefix p, once each, with the values a Get returns, and answers ENotFound when
   there is none.  Guards: the history satisfies fs_hist_ok and never stores under an empty key;
   dump_ok = documented type, no language set and no translation stored for the type, and a session
   id set exactly when the type is sessioned (the complements are the refutations below). *)
Theorem C10_fs_dump_lists_prefix_partial : forall dir ops p,
  dir_ok dir = true -> dir <> [] ->
  fs_hist_ok false spec_init ops = true -> forallb put_key_nonempty ops = true ->
  let st := fst (db_run (BFs false) (db_init dir) ops) in
  let sp := fst (spec_run spec_init ops) in
  dump_ok sp = true ->
  match fs_dump false st p with
  | DDump l =>
    (forall k v, In (k, v) l <-> is_prefix p k = true /\ slookup (ctx_akey (sp_base sp) None k) (sp_map sp) = Some v)
    /\ NoDup (map fst l) /\ l <> []
  | DErr ENotFound =>
    forall k, is_prefix p k = true -> slookup (ctx_akey (sp_base sp) None k) (sp_map sp) = None
  | _ => False
  end.
Proof. exact fs_dump_after_run. Qed.

(* non-vacuity of the listing theorem: two sessions and another type in one directory *)
Example C10_dump_nonvacuous :
  let h := [OSetLock DATATYPE_MENU false; OSetPrefix DATATYPE_MENU; OPut (s2b "pin_menu") (s2b "Pin");
            OSetPrefix DATATYPE_USERDATA; OSetSession (s2b "alice"); OPut (s2b "pin") (s2b "1");
            OSetSession (s2b "bob"); OPut (s2b "pine") (s2b "3"); OPut (s2b "pin") (s2b "2"); OPut (s2b "q") (s2b "4")] in
  fs_hist_ok false spec_init h = true /\ forallb put_key_nonempty h = true /\ dump_ok (ref_state h) = true
  /\ fs_dump false (fs_state false h) (s2b "pi") = DDump [(s2b "pin", s2b "2"); (s2b "pine", s2b "3")]
  /\ spec_dump (ref_state h) (s2b "pi") = DDump [(s2b "pin", s2b "2"); (s2b "pine", s2b "3")]
  /\ fs_dump false (fs_state false h) (s2b "x") = DErr ENotFound.
Proof. vm_compute. repeat split. Qed.

(* refutations: concrete histories on which the faithful model leaves the reference map, each
   reproduced on the real fs backend by the harness corpus *)
Definition unlock_all : list dbop :=
  [OSetLock DATATYPE_BIN false; OSetLock DATATYPE_MENU false; OSetLock DATATYPE_TEMPLATE false; OSetLock DATATYPE_STATICLOAD false].

(* K-C10-1: legacy fallback name: BIN "Ps" returns the USERDATA of session "s", key "bin" *)
Theorem C10_fs_refuted_legacy_name :
  exists ops, hist_ok spec_init ops = true /\ wf_key (s2b "Ps") = true /\ wf_key (s2b "bin") = true
    /\ fs_hist_ok false spec_init ops = false
    /\ last (db_results (BFs false) wdir ops) DOk = DVal (s2b "secret")
    /\ last (spec_results ops) DOk = DErr ENotFound.
Proof.
  exists (unlock_all ++ [OSetPrefix DATATYPE_USERDATA; OSetSession (s2b "s"); OPut (s2b "bin") (s2b "secret");
                         OSetPrefix DATATYPE_BIN; OGet (s2b "Ps")]).
  vm_compute. repeat split.
Qed.
(* K-C10-2: std-alphabet base64 puts '/' into file names: the Put fails *)
Theorem C10_fs_refuted_base64_slash :
  exists ops, hist_ok spec_init ops = true /\ b64_slash_free [99; 240] = false
    /\ fs_hist_ok true spec_init ops = false
    /\ db_results (BFs true) wdir ops <> spec_results ops
    /\ db_results BMem wdir ops = spec_results ops.
Proof.
  exists (unlock_all ++ [OSetPrefix DATATYPE_USERDATA; OPut [99; 240] (s2b "v1"); OGet [99; 240]]).
  vm_compute. repeat split. intros H. discriminate H.
Qed.
(* K-C10-3: binary Dump stops at the first non-matching file; base64 order is not prefix order *)
Theorem C10_fs_refuted_binary_dump_stops_early :
  exists ops p, fs_hist_ok true spec_init ops = true
    /\ fs_dump true (fs_state true ops) p = DDump [(s2b "ca", s2b "v1")]
    /\ spec_dump (ref_state ops) p = DDump [(s2b "c", s2b "v3"); ([99; 0], s2b "v4"); (s2b "ca", s2b "v1")].
Proof.
  exists (unlock_all ++ [OSetPrefix DATATYPE_USERDATA; OPut (s2b "ca") (s2b "v1"); OPut [98; 160] (s2b "v2");
                         OPut (s2b "c") (s2b "v3"); OPut [99; 0] (s2b "v4")]), (s2b "c").
  vm_compute. repeat split.
Qed.
(* K-C10-4: Dump over a store that holds translations lists a key twice ... *)
Theorem C10_fs_refuted_dump_lists_translation_twice :
  exists ops p, fs_hist_ok false spec_init ops = true
    /\ fs_dump false (fs_state false ops) p = DDump [(s2b "foo", s2b "norsk"); (s2b "foo", s2b "norsk")]
    /\ spec_dump (ref_state ops) p = DDump [(s2b "foo", s2b "norsk")].
Proof.
  exists (unlock_all ++ [OSetPrefix DATATYPE_MENU; OPut (s2b "foo") (s2b "default"); OSetLanguage (Some (s2b "nor"));
                         OPut (s2b "foo") (s2b "norsk")]), [].
  vm_compute. repeat split.
Qed.
(* ... or fails outright when an entry exists only as a translation *)
Theorem C10_fs_refuted_dump_fails_on_translation_only :
  exists ops p, fs_hist_ok false spec_init ops = true
    /\ fs_dump false (fs_state false ops) p = DErr ENotFound
    /\ spec_dump (ref_state ops) p = DDump [(s2b "foo", s2b "default")].
Proof.
  exists (unlock_all ++ [OSetPrefix DATATYPE_MENU; OPut (s2b "foo") (s2b "default"); OSetLanguage (Some (s2b "nor"));
                         OPut (s2b "bar") (s2b "kun norsk"); OSetLanguage None]), [].
  vm_compute. repeat split.
Qed.
(* K-C10-5: Dump of an unsessioned type finds nothing while a session id is set: DecodeKey strips the
   session prefix from every key, whatever its type *)
Theorem C10_fs_refuted_dump_with_session_set :
  exists ops p, fs_hist_ok false spec_init ops = true
    /\ fs_dump false (fs_state false ops) p = DErr ENotFound
    /\ spec_dump (ref_state ops) p = DDump [(s2b "foo", s2b "code")].
Proof.
  exists (unlock_all ++ [OSetPrefix DATATYPE_BIN; OPut (s2b "foo") (s2b "code"); OSetSession (s2b "s")]), [].
  vm_compute. repeat split.
Qed.
(* K-C10-8: Dump of a sessioned type while no session id is set lists every session's entries, under
   keys that carry the session prefix (FromSessionKey returns the key unchanged for an empty id) *)
Theorem C10_fs_refuted_dump_without_session :
  exists ops p, fs_hist_ok false spec_init ops = true /\ forallb put_key_nonempty ops = true
    /\ dump_ok (ref_state ops) = false
    /\ fs_dump false (fs_state false ops) p = DDump [(s2b "b1", s2b "v1"); (s2b "x.a1", s2b "v2")]
    /\ spec_dump (ref_state ops) p = DDump [(s2b "b1", s2b "v1")].
Proof.
  exists [OSetPrefix DATATYPE_STATE; OPut (s2b "b1") (s2b "v1"); OSetSession (s2b "x"); OPut (s2b "a1") (s2b "v2");
          OSetSession []], [].
  vm_compute. repeat split.
Qed.
(* K-C10-6: a name longer than NAME_MAX cannot be stored: 255-byte key + type byte *)
Theorem C10_fs_refuted_name_too_long :
  exists ops, hist_ok spec_init ops = true /\ wf_key (rep 120 255) = true
    /\ fs_hist_ok false spec_init ops = false
    /\ last (db_results (BFs false) wdir ops) DOk = DErr EGen
    /\ last (spec_results ops) DOk = DOk.
Proof. exists (unlock_all ++ [OSetPrefix DATATYPE_BIN; OPut (rep 120 255) (s2b "v")]). vm_compute. repeat split. Qed.

(* non-vacuity: one history with locked and unlocked writes, a session switch, a translation with
   fallback to the default entry, a never-written key and a seal satisfies every guard above and
   produces the same non-trivial results on all four backends *)
Example C10_nonvacuous :
  let h := [OSetPrefix DATATYPE_MENU; OPut (s2b "foo_menu") (s2b "x"); OSetLock DATATYPE_MENU false;
            OPut (s2b "foo_menu") (s2b "Foo"); OSetLanguage (Some (s2b "nor")); OPut (s2b "foo_menu") (s2b "Fu");
            OPut (s2b "bar_menu") (s2b "Baa"); OSetLanguage (Some (s2b "swa")); OGet (s2b "foo_menu");
            OSetLanguage (Some (s2b "nor")); OGet (s2b "foo_menu"); OSetLock 0 true; OSetLock DATATYPE_MENU false;
            OPut (s2b "foo_menu") (s2b "y");
            OSetPrefix DATATYPE_USERDATA; OSetSession (s2b "alice"); OPut (s2b "pin") (s2b "1234");
            OSetSession (s2b "bob"); OGet (s2b "pin"); OSetSession (s2b "alice"); OGet (s2b "pin")] in
  let expect := [DOk; DRefused; DOk; DOk; DOk; DOk; DOk; DOk; DVal (s2b "Foo"); DOk; DVal (s2b "Fu"); DOk;
                 DErr EGen; DRefused; DOk; DOk; DOk; DOk; DErr ENotFound; DOk; DVal (s2b "1234")] in
  forallb wf_key [s2b "foo_menu"; s2b "bar_menu"; s2b "pin"] = true
  /\ hist_ok spec_init h = true /\ fs_hist_ok false spec_init h = true /\ fs_hist_ok true spec_init h = true
  /\ dir_ok wdir = true
  /\ spec_results h = expect
  /\ db_results BMem wdir h = expect /\ db_results BPg wdir h = expect
  /\ db_results (BFs false) wdir h = expect /\ db_results (BFs true) wdir h = expect.
Proof. vm_compute. repeat split. Qed.

Print Assumptions C10_reference_read_your_write.
Print Assumptions C10_reference_fallback_default.
Print Assumptions C10_reference_never_written.
Print Assumptions C10_mem_refines_spec.
Print Assumptions C10_pg_refines_spec.
Print Assumptions C10_wf_key_meets_guard.
Print Assumptions C10_locked_put_is_noop.
Print Assumptions C10_fresh_store_locks_readonly_types.
Print Assumptions C10_seal_establishes_safe.
Print Assumptions C10_seal_is_final.
Print Assumptions C10_sealed_setlock_fails.
Print Assumptions C10_fs_refines_spec_partial.
Print Assumptions C10_fs_dump_lists_prefix_partial.
Print Assumptions C10_fs_refuted_legacy_name.
Print Assumptions C10_fs_refuted_base64_slash.
Print Assumptions C10_fs_refuted_binary_dump_stops_early.
Print Assumptions C10_fs_refuted_dump_lists_translation_twice.
Print Assumptions C10_fs_refuted_dump_fails_on_translation_only.
Print Assumptions C10_fs_refuted_dump_with_session_set.
Print Assumptions C10_fs_refuted_dump_without_session.
Print Assumptions C10_fs_refuted_name_too_long.
