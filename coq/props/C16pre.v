(* C16 (second part) — the assembler command with its flag preprocessor (`asm -f table.csv file`,
   dev/asm/main.go + asm/flag.go) emits exactly the instructions that were written, a flag name
   standing for the number its table gives.  Property theorems only; each is closed by a lemma
   from proofs/AsmPreProofs.v, the example by evaluation.

   resolve look src is the independent reading: the source with the flag argument of every
   `CATCH node flag mode` and `CROAK flag mode` line replaced by the number the table gives for
   it (numerals stay; None if a name is not defined).  spec_lookup rows reads the table
   (`flag,<name>,<number>[,description]`, the last definition of a name counts); valid_rows says
   every row has that form, the name a symbol, the number a numeral in FLAG_USERSTART..2^32-1.

   Full statement (refuted like C16 itself, through the same four classes — the preprocessor
   adds none: its own lexer hands every argument of a documented line on unchanged, see
   C16_pp_run_fidelity; a table number such as 010 lands in K-C16-octal):

     valid_rows rows -> resolve (spec_lookup rows) src = Some src1 -> valid_src src1 ->
     cmd_pre rows src = (out, 0) -> parse_all out = Ok (expand src1) *)
From Vise Require Import Bytes Errors Consts Codec AsmModel AsmProofs AsmPreModel AsmPreProofs.
Local Open Scope N_scope.

(* the preprocessor on its own: a source that has the documented form once its names are replaced
   is either refused or handed to the assembler as exactly that source — for every table whose
   names are symbols, every source; no guard *)
Theorem C16_pp_run_fidelity : forall tbl src src1 src2,
  names_are_symbols tbl ->
  resolve (fun k => alookup k tbl) src = Some src1 -> valid_src src1 ->
  pp_run tbl src = Ok src2 -> src2 = src1.
Proof. exact pp_run_fidelity_lemma. Qed.

(* a name the table does not define: the preprocessor returns an error (no panic, no source) *)
Theorem C16_pp_unknown_name_refused : forall tbl src srcd,
  names_are_symbols tbl ->
  resolve (fun k => alookup k tbl) src = None ->
  resolve (with_default (fun k => alookup k tbl)) src = Some srcd -> valid_src srcd ->
  exists e, pp_run tbl src = Err e.
Proof. exact pp_unknown_refused_lemma. Qed.

(* the command, composed with C16_asm_fidelity_partial: exit status 0 means standard output
   decodes to the instructions of the name-substituted source *)
Theorem C16_cmd_pre_fidelity_partial : forall rows src src1 out,
  valid_rows rows = true ->
  resolve (spec_lookup rows) src = Some src1 -> valid_src src1 ->
  lossless_selectors src1 = true -> short_syms src1 = true -> decimal_sizes src1 = true ->
  cmd_pre rows src = (out, 0) ->
  parse_all out = Ok (expand src1).
Proof. exact cmd_pre_fidelity_lemma. Qed.

(* ... and an undefined name means exit status 1 and nothing on standard output *)
Theorem C16_cmd_pre_unknown_name : forall rows src srcd,
  valid_rows rows = true ->
  resolve (spec_lookup rows) src = None ->
  resolve (with_default (spec_lookup rows)) src = Some srcd -> valid_src srcd ->
  cmd_pre rows src = ([], 1).
Proof. exact cmd_pre_unknown_refused_lemma. Qed.

(* a documented table is loaded, and the loaded map is the documented reading of the file *)
Theorem C16_table_loaded : forall rows,
  valid_rows rows = true ->
  exists tbl, load_table rows = Ok tbl /\ names_are_symbols tbl
    /\ forall k, alookup k tbl = spec_lookup rows k.
Proof. exact load_table_valid. Qed.

(* non-vacuity: the repository's example (examples/preprocessor/pp.csv, root.vis): the table is
   valid, the names resolve to 12, 10, 8, the command exits 0 and its output decodes to the five
   instructions with those numbers; an undefined name gives ([], 1); without -f the same source
   is refused by the assembler proper *)
Example C16pre_nonvacuous :
  valid_rows pp_csv = true
  /\ resolve (spec_lookup pp_csv) root_vis
     = Some [LS "CROAK" ["12"; "1"]; LS "CATCH" ["last"; "10"; "1"]; LS "CATCH" ["first"; "8"; "0"];
             LS "LOAD" ["flag_schmag"; "0"]; LS "MOVE" ["mid"]]%string
  /\ (exists out, cmd_pre pp_csv root_vis = (out, 0)
        /\ parse_all out = Ok [ICroak 12 true; ICatch (s2b "last") 10 true; ICatch (s2b "first") 8 false;
                                ILoad (s2b "flag_schmag") 0; IMove (s2b "mid")])
  /\ cmd_pre pp_csv [LS "CATCH" ["last"; "nope"; "1"]%string] = ([], 1)
  /\ cmd_plain root_vis = ([], 1).
Proof. repeat split. eexists. split; reflexivity. Qed.

Print Assumptions C16_pp_run_fidelity.
Print Assumptions C16_pp_unknown_name_refused.
Print Assumptions C16_cmd_pre_fidelity_partial.
Print Assumptions C16_cmd_pre_unknown_name.
Print Assumptions C16_table_loaded.
