(* C16 — The assembler emits exactly the instructions that were written.
   Property theorems only; the general ones are closed by lemmas from proofs/AsmProofs.v, the
   counterexamples are checked by evaluation here.

   Full statement (refuted on the code as it is, see the four C16_refuted_* theorems):

     forall src bs, valid_src src -> asm src = Ok bs -> parse_all bs = Ok (expand src)

   where src is a token-level source (opcode word + argument texts per line), valid_src says every
   line follows the documented form of instructions.texi (batch lines DOWN/UP/NEXT/PREVIOUS only
   as the final block), asm is the model of asm.Parse, parse_all the model of the VM's decoder
   (C14/C15) and expand the independent reading: one instruction per line with the arguments as
   written (numbers in decimal), the batch block expanded to MOUT/MNEXT/MPREV ... HALT ... INCMP.

   What is proved is the statement outside four decidable classes of sources, each of which
   contains a reproduced counterexample:
     in_K_numnorm      a selector of several digits with a leading zero      (00 -> 0, 010 -> 8)
     in_K_digitprefix  a selector that starts with digits and contains a letter (1a -> 1 or a)
     in_K_longsym      MOVE/MAP/RELOAD or a batch line with an argument > 255 bytes
     in_K_octal        a size or signal with a leading zero and value >= 8     (010 -> 8)
   lossless_selectors = not numnorm and not digitprefix; short_syms = not longsym;
   decimal_sizes = not octal. *)
From Vise Require Import Bytes Errors Consts Codec AsmModel AsmProofs.
Local Open Scope N_scope.
(* LS op args (AsmProofs) is the line L of the strings' bytes *)

(* for ALL sources (induction over the lines, batcher state as invariant), composed with the C14
   round trip: what the assembler emits decodes to exactly what was written *)
Theorem C16_asm_fidelity_partial : forall src bs,
  valid_src src ->
  lossless_selectors src = true -> short_syms src = true -> decimal_sizes src = true ->
  asm src = Ok bs ->
  parse_all bs = Ok (expand src).
Proof. exact asm_fidelity_partial_lemma. Qed.

(* the same on the byte level: the output is the concatenation of the encodings of the written
   instructions, all of them encodable, at least one *)
Theorem C16_emits_expansion : forall src bs,
  valid_src src ->
  lossless_selectors src = true -> short_syms src = true -> decimal_sizes src = true ->
  asm src = Ok bs ->
  bs = encode_prog (expand src) /\ Forall wf_instr (expand src) /\ expand src <> [].
Proof. exact asm_emits_expansion_lemma. Qed.

(* every combination of batch lines: the MOUT/MNEXT/MPREV lines in order, one HALT, the INCMP
   lines in order (batch_all gives the two lists line by line as in the table of instructions.texi) *)
Theorem C16_batch_expansion : forall ls pre post bs,
  ls <> [] -> batch_all ls = Some (pre, post) ->
  lossless_selectors ls = true -> short_syms ls = true ->
  asm ls = Ok bs ->
  bs = encode_prog (pre ++ IHalt :: post) /\ parse_all bs = Ok (pre ++ IHalt :: post)%list.
Proof. exact batch_expansion_lemma. Qed.

(* K-C16-numnorm: INCMP foo 00 is emitted as INCMP foo 0 *)
Theorem C16_refuted_numnorm :
  exists src bs, valid_src src /\ in_K_numnorm src = true
    /\ in_K_digitprefix src = false /\ short_syms src = true /\ decimal_sizes src = true
    /\ asm src = Ok bs
    /\ parse_all bs = Ok [IInCmp (s2b "foo") (s2b "0")]
    /\ expand src = [IInCmp (s2b "foo") (s2b "00")].
Proof. exists [LS "INCMP" ["foo"; "00"]]%string. eexists. repeat split. Qed.

(* K-C16-digitprefix: INCMP foo 1a is emitted as INCMP foo 1 (letters dropped);
   DOWN foo 1a to_foo as MOUT to_foo a / HALT / INCMP foo a (digits dropped) *)
Theorem C16_refuted_digitprefix :
  (exists src bs, valid_src src /\ in_K_digitprefix src = true
    /\ in_K_numnorm src = false /\ short_syms src = true /\ decimal_sizes src = true
    /\ asm src = Ok bs
    /\ parse_all bs = Ok [IInCmp (s2b "foo") (s2b "1")]
    /\ expand src = [IInCmp (s2b "foo") (s2b "1a")])
  /\ (exists src bs, valid_src src /\ in_K_digitprefix src = true
    /\ in_K_numnorm src = false /\ short_syms src = true /\ decimal_sizes src = true
    /\ asm src = Ok bs
    /\ parse_all bs = Ok [IMOut (s2b "to_foo") (s2b "a"); IHalt; IInCmp (s2b "foo") (s2b "a")]
    /\ expand src = [IMOut (s2b "to_foo") (s2b "1a"); IHalt; IInCmp (s2b "foo") (s2b "1a")]).
Proof.
  split.
  - exists [LS "INCMP" ["foo"; "1a"]]%string. eexists. repeat split.
  - exists [LS "DOWN" ["foo"; "1a"; "to_foo"]]%string. eexists. repeat split.
Qed.

(* K-C16-longsym: MOVE <256 bytes> / HALT is emitted as 00 06 00 07, which does not decode *)
Theorem C16_refuted_longsym :
  exists src, valid_src src /\ in_K_longsym src = true
    /\ lossless_selectors src = true /\ decimal_sizes src = true
    /\ asm src = Ok [0; 6; 0; 7]
    /\ parse_all [0; 6; 0; 7] = Err EGen
    /\ expand src = [IMove (rep 97 256); IHalt].
Proof. exists [L (s2b "MOVE") [rep 97 256]; LS "HALT" []]%string. repeat split. Qed.

(* K-C16-octal: LOAD foo 010 is emitted as LOAD foo 8 *)
Theorem C16_refuted_octal :
  exists src bs, valid_src src /\ in_K_octal src = true
    /\ lossless_selectors src = true /\ short_syms src = true
    /\ asm src = Ok bs
    /\ parse_all bs = Ok [ILoad (s2b "foo") 8]
    /\ expand src = [ILoad (s2b "foo") 10].
Proof. exists [LS "LOAD" ["foo"; "010"]]%string. eexists. repeat split. Qed.

(* non-vacuity: a source with every documented opcode word, digit / letter / mixed / wildcard
   selectors, a 255-byte symbol, sizes 0 and 2^32-1 and all four batch words meets every
   hypothesis, is assembled, and decodes to the 23 instructions its 18 lines denote *)
Local Open Scope string_scope.
Example C16_nonvacuous :
  let src := [LS "LOAD" ["foo"; "0"]; L (s2b "LOAD") [rep 97 255; s2b "4294967295"]; LS "RELOAD" ["foo"];
              LS "MAP" ["foo"]; LS "CATCH" ["_"; "65536"; "1"]; LS "CROAK" ["256"; "0"]; LS "MSINK" [];
              LS "MOUT" ["to_bar"; "10"]; LS "MNEXT" ["fwd"; "a1B"]; LS "MPREV" ["back"; "x"]; LS "HALT" [];
              LS "INCMP" ["bar"; "10"]; LS "INCMP" ["^"; "*"]; LS "MOVE" ["."];
              LS "DOWN" ["foo"; "0"; "to_foo"]; LS "UP" ["b2"; "back"]; LS "NEXT" ["11"; "fwd"];
              LS "PREVIOUS" ["22"; "back"]] in
  valid_srcb src = true /\ lossless_selectors src = true /\ short_syms src = true /\ decimal_sizes src = true
  /\ (exists bs, asm src = Ok bs /\ parse_all bs = Ok (expand src))
  /\ List.length (expand src) = 23%nat.
Proof.
  intros src.
  assert (G : valid_srcb src = true /\ lossless_selectors src = true /\ short_syms src = true /\ decimal_sizes src = true)
    by (vm_compute; auto).
  destruct G as (G1 & G2 & G3 & G4). refine (conj G1 (conj G2 (conj G3 (conj G4 (conj _ _))))); [|vm_compute; reflexivity].
  (* the source is assembled; that the output decodes to what was written is the theorem *)
  assert (E : exists bs, asm src = Ok bs) by (vm_compute; eexists; reflexivity).
  destruct E as [bs E]. exists bs. split; [exact E|exact (C16_asm_fidelity_partial src bs G1 G2 G3 G4 E)].
Qed.

Print Assumptions C16_asm_fidelity_partial.
Print Assumptions C16_emits_expansion.
Print Assumptions C16_batch_expansion.
Print Assumptions C16_refuted_numnorm.
Print Assumptions C16_refuted_digitprefix.
Print Assumptions C16_refuted_longsym.
Print Assumptions C16_refuted_octal.
