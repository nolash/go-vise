(* C02, engine level — walking the pages of a sink node with the "next" and "previous" selectors.

   Level: EngineModel.request_long (long-lived engine: Exec then Flush), through VmModel.run,
   VmModel.vm_render and RenderModel.page_render.  The node's code has the shape
       LOAD k 0; MAP k; MNEXT nt ns; MPREV pt ps; HALT; INCMP > ns; INCMP < ps; further INCMP lines
   (`node_code`), k being the one zero-size symbol.  `steady c nd k val code ca j e` is the engine
   between two requests of the walk: initialised, flushed, not exiting, the routes pending, the
   machine waiting (WAIT set) at node nd, page index j, the value val of k visible in the cache ca.
   `walk_app` collects the guards: well-formed symbols, default separator, the node's code is what
   the resource serves, ns <> ps, ns is not the wildcard, no other route repeats ns or ps, both
   selectors are valid input, and — for every context language — the guards of the page-level lift
   (`page_ok`: template of the fragment mentioning k once, rows_ok, budget_ok computed from the
   pre-render, labels resolving to themselves, 0 < OutputSize < 2^32).
   Every request re-fetches and re-runs the node's code (LOAD/MAP/MNEXT/MPREV run again): the
   theorems go through that re-run; LOAD is skipped because k is visible (the world of function
   calls v_w is unchanged), the page is rebuilt from the same cache value.
   `run` is fuelled: every conclusion has the alternative "the request ran out of fuel".

   FULL STATEMENT of the property at this level = C02_engine_walk_partial + C02_engine_prev_step_partial
   + the two end theorems, without the guards; it is false without them for the reasons recorded at
   page level (K-C02-emptyrow, K-C02-nul, K-C02-budget, K-C02-labelsize). *)
From Coq Require Import Lia.
From Vise Require Import Bytes Errors Consts EngConsts Codec CacheModel StateModel NavModel NavSpec RenderModel
  VmModel EngineModel RenderProofs RoutingProofs WalkProofs.
Local Open Scope N_scope.

(* one "next" below the last page: the answer is exactly page j+1 (same static parts, block j+1 of
   the rows, the browse lines of that index), the index is j+1, position and cache are unchanged, the
   function of k is not called again *)
Theorem C02_engine_next_step_partial : forall fuel rs c e nd k nt ns pt ps l2 val ca src a b xa xb r n cs pages j p,
  walk_app rs c nd k nt ns pt ps l2 val ca src a b xa xb ->
  pages_of_node val (c_out c) (walk_browse nt ns pt ps) xa xb r n cs pages ->
  steady c nd k val (routes ns ps l2) ca j e ->
  nth_error pages (N.to_nat (j + 1)) = Some p ->
  r_exec (snd (request_long fuel rs c e ns)) = SFuel \/
  (snd (request_long fuel rs c e ns)
     = mkResp true SOk (page_text xa xb (walk_browse nt ns pt ps) n (j + 1) p) FOk
   /\ steady c nd k val (routes ns ps l2) ca (j + 1) (fst (request_long fuel rs c e ns))
   /\ s_path (v_st (e_v (fst (request_long fuel rs c e ns)))) = s_path (v_st (e_v e))
   /\ v_w (e_v (fst (request_long fuel rs c e ns))) = v_w (e_v e)).
Proof.
  intros fuel rs c e nd k nt ns pt ps l2 val ca src a b xa xb r n cs pages j p Happ Hpn Hst Enth.
  destruct (pages_of_node_count Hpn) as [Hlp Hn16].
  pose proof (nth_error_lt_len _ _ _ Enth) as Hlt. rewrite Hlp in Hlt.
  apply (engine_lateral_step (Ok _) Happ Hst); try discriminate.
  - apply lat_next_small. lia.
  - intros gt gm pg Hok Hnp. apply (node_render Hok Hnp Hpn), Enth.
Qed.

Theorem C02_engine_prev_step_partial : forall fuel rs c e nd k nt ns pt ps l2 val ca src a b xa xb r n cs pages j p,
  walk_app rs c nd k nt ns pt ps l2 val ca src a b xa xb ->
  pages_of_node val (c_out c) (walk_browse nt ns pt ps) xa xb r n cs pages ->
  steady c nd k val (routes ns ps l2) ca j e -> j <> 0 ->
  nth_error pages (N.to_nat (j - 1)) = Some p ->
  r_exec (snd (request_long fuel rs c e ps)) = SFuel \/
  (snd (request_long fuel rs c e ps)
     = mkResp true SOk (page_text xa xb (walk_browse nt ns pt ps) n (j - 1) p) FOk
   /\ steady c nd k val (routes ns ps l2) ca (j - 1) (fst (request_long fuel rs c e ps))
   /\ s_path (v_st (e_v (fst (request_long fuel rs c e ps)))) = s_path (v_st (e_v e))
   /\ v_w (e_v (fst (request_long fuel rs c e ps))) = v_w (e_v e)).
Proof.
  intros fuel rs c e nd k nt ns pt ps l2 val ca src a b xa xb r n cs pages j p Happ Hpn Hst Hj Enth.
  apply (engine_lateral_step (Ok _) Happ Hst); try discriminate.
  - apply lat_prev. exact Hj.
  - intros gt gm pg Hok Hnp. apply (node_render Hok Hnp Hpn), Enth.
Qed.

(* the walk: from page j, m successive "next" requests (j + m < n) answer with pages j+1 .. j+m, in
   order — with `pages` a partition of the rows (pages_of_node) every row is shown exactly once over
   pages 0 .. n-1 — and leave the engine waiting at page j+m, position and function calls unchanged *)
Theorem C02_engine_walk_partial : forall fuel rs c nd k nt ns pt ps l2 val ca src a b xa xb r n cs pages,
  walk_app rs c nd k nt ns pt ps l2 val ca src a b xa xb ->
  pages_of_node val (c_out c) (walk_browse nt ns pt ps) xa xb r n cs pages ->
  forall m j e,
  steady c nd k val (routes ns ps l2) ca j e -> j + N.of_nat m < n ->
  (exists resp, In resp (snd (nexts m fuel rs c e ns)) /\ r_exec resp = SFuel) \/
  (snd (nexts m fuel rs c e ns)
     = map (fun i => page_resp xa xb (walk_browse nt ns pt ps) n pages (j + N.of_nat i)) (seq 1 m)
   /\ steady c nd k val (routes ns ps l2) ca (j + N.of_nat m) (fst (nexts m fuel rs c e ns))
   /\ s_path (v_st (e_v (fst (nexts m fuel rs c e ns)))) = s_path (v_st (e_v e))
   /\ v_w (e_v (fst (nexts m fuel rs c e ns))) = v_w (e_v e)).
Proof.
  intros fuel rs c nd k nt ns pt ps l2 val ca src a b xa xb r n cs pages Happ Hpn.
  destruct (pages_of_node_count Hpn) as [Hlp _].
  induction m as [|m IH]; intros j e Hst Hlt.
  - right. cbn [nexts fst snd seq map N.of_nat]. rewrite N.add_0_r. split; [reflexivity|]. split; [exact Hst|]. split; reflexivity.
  - rewrite nexts_S. cbn [fst snd].
    assert (Enth : nth_error pages (N.to_nat (j + 1)) = Some (nth (N.to_nat (j + 1)) pages [])).
    { apply nth_error_nth'. unfold len in Hlp. lia. }
    destruct (C02_engine_next_step_partial fuel rs c e nd k nt ns pt ps l2 val ca src a b xa xb r n cs pages j _ Happ Hpn Hst Enth)
      as [Hfu|(Hresp & Hst1 & Hp1 & Hw1)].
    + left. eexists. split; [left; reflexivity|exact Hfu].
    + destruct (IH (j + 1) _ Hst1 ltac:(lia)) as [(resp & Hin & Hf)|(Hrl & Hst2 & Hp2 & Hw2)].
      * left. exists resp. split; [right; exact Hin|exact Hf].
      * right. rewrite Hresp, Hrl, Hp2, Hw2. split; [|split; [|split; assumption]].
        -- cbn [seq map]. rewrite <- (seq_shift m 1), map_map.
           replace (j + N.of_nat 1) with (j + 1) by lia. unfold page_resp at 2. f_equal.
           apply map_ext. intros i.
           replace (j + 1 + N.of_nat i) with (j + N.of_nat (S i)) by lia. reflexivity.
        -- replace (j + N.of_nat (S m)) with (j + 1 + N.of_nat m) by lia. exact Hst2.
Qed.

(* the end of the walk: "next" on the last page advances the index to n and Flush reports an error
   (the plain error of GetAt, not a BrowseError: the catch node is not involved) with no content *)
Theorem C02_engine_next_on_last_page : forall fuel rs c e nd k nt ns pt ps l2 val ca src a b xa xb r n cs pages j,
  walk_app rs c nd k nt ns pt ps l2 val ca src a b xa xb ->
  pages_of_node val (c_out c) (walk_browse nt ns pt ps) xa xb r n cs pages ->
  steady c nd k val (routes ns ps l2) ca j e -> j + 1 = n ->
  r_exec (snd (request_long fuel rs c e ns)) = SFuel \/
  (snd (request_long fuel rs c e ns) = mkResp true SOk [] (FErr EGen)
   /\ steady c nd k val (routes ns ps l2) ca n (fst (request_long fuel rs c e ns))
   /\ s_path (v_st (e_v (fst (request_long fuel rs c e ns)))) = s_path (v_st (e_v e))
   /\ v_w (e_v (fst (request_long fuel rs c e ns))) = v_w (e_v e)).
Proof.
  intros fuel rs c e nd k nt ns pt ps l2 val ca src a b xa xb r n cs pages j Happ Hpn Hst Hjn.
  destruct (pages_of_node_count Hpn) as [_ Hn16].
  apply (engine_lateral_step (Err EGen) Happ Hst); try discriminate.
  - rewrite <- Hjn. apply lat_next_small. lia.
  - intros gt gm pg Hok Hnp. apply (node_render Hok Hnp Hpn), N.le_refl.
Qed.

(* the start of the walk (VM level): "previous" on page 0 is no move (IndexError); every remaining
   route is passed over and the run continues as for an input that matched nothing: MOVE _catch on a
   page that carries the error "invalid input: '<ps>'" *)
Theorem C02_prev_on_first_page : forall fuel rs sep lang nd k nt ns pt ps l2 val out v,
  node_wf k nt ns pt ps l2 -> sel_ok ns ps l2 -> nd <> [] -> nd <> catch_sym ->
  at_page nd k val out 0 v -> s_input (v_st v) = Some ps ->
  let vI := snd (at_match lang v [(t_next, ns)]) in
  let vN := noprev_vm vI t_prev ps (match_st (v_st vI)) (v_ca vI) in
  let lv := scan_skip (fst (at_match lang v [(t_next, ns)]), vN) l2 in
  out_of_fuel (run fuel rs sep lang (routes ns ps l2) v) \/
  exists f, (f < fuel)%nat /\
    run fuel rs sep lang (routes ns ps l2) v =
    run f rs sep (fst lv) move_catch_code
        (vset_pg (snd lv) (page_with_error (v_pg (snd lv)) (Some (msg_invalid_input (Some ps))))).
Proof.
  intros fuel rs sep lang nd k nt ns pt ps l2 val out v Hwf Hsel Hnd Hnc (_ & Hwhere & Hidx & Hf & Ht & Hw & _) Hin.
  destruct (prev_is_second Hwf Hsel) as [Wn Hnm].
  apply (prev_on_first_page_catch_lemma fuel rs sep lang ps [(t_next, ns)] ps l2 v); try assumption; try apply Hwf.
  - apply resume_is_start; assumption.
  - apply sel_match_self.
  - rewrite Hwhere. exact Hnd.
  - rewrite Hwhere. exact Hnc.
Qed.

(* the run behind one step (VM level), showing the re-fetch: the pending routes are run, ">" fires,
   the node's code is fetched and run again up to HALT; the page is the node's page again, the
   cache and the world of function calls are what they were *)
Theorem C02_vm_next_run_partial : forall rs sep nd k nt ns pt ps l2 val out j fuel lang v,
  node_wf k nt ns pt ps l2 -> m_sep (vm_new_menu sep) = default_sep ->
  rs_code rs nd = Ok (node_code k nt ns pt ps l2) -> sel_ok ns ps l2 ->
  at_page nd k val out j v -> s_input (v_st v) = Some ns ->
  out_of_fuel (run fuel rs sep lang (routes ns ps l2) v) \/
  exists vH, run fuel rs sep lang (routes ns ps l2) v = (vH, routes ns ps l2, SOk)
    /\ at_page nd k val out (w16 (j + 1)) vH
    /\ node_page (v_pg vH) k val out (walk_browse nt ns pt ps)
    /\ getf (v_st vH) FLAG_DIRTY = true
    /\ s_path (v_st vH) = s_path (v_st v) /\ s_input (v_st vH) = Some ns /\ s_lang (v_st vH) = s_lang (v_st v)
    /\ s_code (v_st vH) = s_code (v_st v) /\ s_bitsize (v_st vH) = s_bitsize (v_st v)
    /\ v_ca vH = v_ca v /\ v_w vH = v_w v /\ v_taint vH = v_taint v.
Proof.
  intros rs sep nd k nt ns pt ps l2 val out j fuel lang v Hwf Hsep Hcode Hsel.
  exact (walk_lateral_run fuel lang v Hwf Hsep Hcode Hsel (lat_next ns ps j)).
Qed.

(* non-vacuity: an application (node root: LOAD foo 0; MAP foo; MNEXT next 11; MPREV back 22; HALT;
   INCMP > 11; INCMP < 22, template "T\n{{.foo}}", six rows, OutputSize 26) meets every hypothesis
   after its first request, has 4 pages, and the requests "11", "11", "22", then "11", "11", "11"
   answer as the theorems say: the function foo was called once *)
Example C02walk_nonvacuous :
  walk_app ex_rs ex_cfg (s2b "root") (s2b "foo") (s2b "next") (s2b "11") (s2b "back") (s2b "22") []
           ex_val ex_ca ex_src [TLit (s2b "T" ++ [nl])] [] (s2b "T" ++ [nl]) []
  /\ steady ex_cfg (s2b "root") (s2b "foo") ex_val (routes (s2b "11") (s2b "22") []) ex_ca 0 ex_e0
  /\ (exists r cs pages, pages_of_node ex_val 26 ex_br (s2b "T" ++ [nl]) [] r 4 cs pages)
  /\ (let e1 := fst (request_long 100 ex_rs ex_cfg ex_e0 (s2b "11")) in
      let e2 := fst (request_long 100 ex_rs ex_cfg e1 (s2b "11")) in
      let e3 := fst (request_long 100 ex_rs ex_cfg e2 (s2b "22")) in
      let e6 := fst (nexts 3 100 ex_rs ex_cfg e3 (s2b "11")) in
      map r_out (snd (nexts 2 100 ex_rs ex_cfg ex_e0 (s2b "11")))
        = [s2b "T" ++ [nl] ++ s2b "dddd" ++ [nl] ++ s2b "11:next" ++ [nl] ++ s2b "22:back";
           s2b "T" ++ [nl] ++ s2b "eeee" ++ [nl] ++ s2b "11:next" ++ [nl] ++ s2b "22:back"]
      /\ r_out (snd (request_long 100 ex_rs ex_cfg e2 (s2b "22")))
           = s2b "T" ++ [nl] ++ s2b "dddd" ++ [nl] ++ s2b "11:next" ++ [nl] ++ s2b "22:back"
      /\ map (fun x => (r_out x, r_flush x)) (snd (nexts 3 100 ex_rs ex_cfg e3 (s2b "11")))
           = [(s2b "T" ++ [nl] ++ s2b "eeee" ++ [nl] ++ s2b "11:next" ++ [nl] ++ s2b "22:back", FOk);
              (s2b "T" ++ [nl] ++ s2b "ffff" ++ [nl] ++ s2b "22:back", FOk);
              ([], FErr EGen)]
      /\ s_idx (v_st (e_v e6)) = 4 /\ v_w (e_v e6) = [(s2b "foo", 1)]).
Proof.
  split; [exact ex_walk_app|]. split; [|split].
  - unfold steady, at_page. vm_compute. repeat split; try discriminate; [apply le_n|eexists; split; reflexivity].
  - pose proof ex_walk_app as (_ & _ & _ & _ & _ & _ & _ & Hpo).
    destruct (node_pages_exist (Hpo None)) as (r & n & cs & pages & Hpn).
    pose proof Hpn as (Hj & _). vm_compute in Hj. injection Hj as _ Hn _. subst n.
    exists r, cs, pages. exact Hpn.
  - vm_compute. repeat split.
Qed.

Print Assumptions C02_engine_next_step_partial.
Print Assumptions C02_engine_prev_step_partial.
Print Assumptions C02_engine_walk_partial.
Print Assumptions C02_engine_next_on_last_page.
Print Assumptions C02_prev_on_first_page.
Print Assumptions C02_vm_next_run_partial.
