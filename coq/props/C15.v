(* C15 — Malformed bytecode is rejected with an error, never a crash or a silent accept. *)
From Vise Require Import Bytes Errors Consts Codec CodecProofs.
Local Open Scope N_scope.

(* for every byte string: the VM's instruction decoding, the disassembler's parse and its
   listing never hit a Go run-time panic site (index or slice out of range) *)
Theorem C15_decode_never_panics : forall b, is_panic (decode_one b) = false.
Proof. exact decode_one_no_panic. Qed.

Theorem C15_parse_all_never_panics : forall b, is_panic (parse_all b) = false.
Proof. intros b. rewrite parse_all_exact. destruct (strict_all b); reflexivity. Qed.

Theorem C15_to_string_never_panics : forall b, is_panic (to_string b) = false.
Proof. intros b. unfold to_string. rewrite parse_all_exact. destruct (strict_all b); reflexivity. Qed.

(* success is reported only for input that the strict reference grammar accepts (complete
   instructions, defined opcodes, integer width <= 4, nothing left over), with the same
   instructions *)
Theorem C15_accept_only_wellformed : forall b p, parse_all b = Ok p -> strict_all b = Some p.
Proof. intros b p. rewrite parse_all_exact. apply of_opt_ok. Qed.

Theorem C15_decode_one_strict : forall b i r, decode_one b = Ok (i, r) -> strict_one b = Some (i, r).
Proof. exact decode_one_strict. Qed.

(* non-vacuity: three inputs one byte from valid are errors, neither accepted nor a panic (the bounds and width
   checks of instructionSplit and intSplit, go-vise 30c862f and cdab134: the "fixed" entries of KNOWN_FINDINGS.json),
   an undefined opcode is one, and a valid program decodes *)
Example C15_examples :
  parse_all [0;3;3;102;111;111] = Err EGen            (* LOAD foo, size missing *)
  /\ parse_all [0;6;3;102;111] = Err EGen             (* MOVE, symbol one byte short *)
  /\ parse_all [0;3;3;102;111;111;5;0;0;0;0;0] = Err EGen  (* integer width 5 *)
  /\ parse_all [0;13] = Err EGen                      (* undefined opcode *)
  /\ parse_all [0;3;3;102;111;111;1;42;0;7] = Ok [ILoad (s2b "foo") 42; IHalt].
Proof. vm_compute. auto 6. Qed.

Print Assumptions C15_decode_never_panics.
Print Assumptions C15_parse_all_never_panics.
Print Assumptions C15_to_string_never_panics.
Print Assumptions C15_accept_only_wellformed.
Print Assumptions C15_decode_one_strict.
