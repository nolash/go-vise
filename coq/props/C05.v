(* C05 — Loaded symbols live exactly as long as their stack level.

   Statement (properties.jsonl): "A LOAD runs the external function at most once while its symbol
   is visible and stores the result at the current stack level under the declared size limit; the
   value stays readable from that level and every deeper level and is gone as soon as execution
   ascends above the level where it was loaded, so returning to the node loads it afresh.  RELOAD
   re-runs the function and replaces the value (also with an empty result) under the same limit,
   MAP exposes a value to the template only until the next move, and a result larger than its
   limit is never stored or shown."  For all programs, all external function results (any length,
   empty, multi-line), all histories that move up and down the stack.

   Vocabulary.  `lives c k = Some (n, v)`: the first scope (frame index, outermost = 0) of cache c
   that defines k is n and holds v; by C05_lives_meaning this is `frame_of c k = Some n` together
   with `cache_get c k = Ok v`, and `lives c k = None` is `cache_get c k = Err EGen`.  Under the
   session invariant `nav_inv st ca` (scopes = stack depth + 1) the top scope has index
   `len (s_path st)`: "the current stack level" (C05_current_level).  `has_func rs k`: the
   resource has a function for k.  `calls k v`: how often the world has seen k called.
   `run_prelude`, `run_step`: the prelude of the run loop and one iteration of it
   (`run (S fuel) = match run_step with Done r => r | Next l b v => run fuel l b v`, lemma SymbolProofs.run_S).

   Everything below is for ALL resources, machines, symbols, sizes, result lengths (N, no 16-bit
   truncation), cache histories and move sequences.  One clause of the statement is false of the
   code and is stated as _partial + _refuted: CATCH is a move that does not reset the page, so what
   was mapped before it is still exposed after it (C05_map_until_next_move_refuted_catch, finding
   candidate K-C05-catchmap). *)
From Vise Require Import Bytes Errors Consts EngConsts Codec CacheModel StateModel NavModel NavSpec
  RenderModel VmModel EngineModel CacheProofs SymbolProofs.
Local Open Scope N_scope.

Theorem C05_lives_meaning : forall c k n v,
  lives c k = Some (n, v) <-> (frame_of c k = Some n /\ cache_get c k = Ok v).
Proof.
  intros c k n v. rewrite frame_of_lives, cache_get_lives.
  destruct (lives c k) as [[j w]|]; cbn [option_map fst]; split; intros H; try discriminate; try (destruct H; congruence).
  injection H as -> ->. auto.
Qed.
Theorem C05_lives_none_meaning : forall c k, lives c k = None <-> cache_get c k = Err EGen.
Proof. intros c k. rewrite cache_get_lives. destruct (lives c k) as [[? ?]|]; split; intro H; congruence. Qed.
Theorem C05_current_level : forall st ca, nav_inv st ca -> top_index ca = len (s_path st).
Proof. unfold nav_inv, top_index, cache_levels. Lia.lia. Qed.

(* visible: no call (the log, the world counters, the cache, the state, the page: the machine
   itself is returned), the rest of the code untouched *)
Theorem C05_load_once_while_visible : forall rs lang sym sz b v val,
  cache_get (v_ca v) sym = Ok val ->
  run_load rs lang sym sz b v = (v, b, SOk).
Proof. exact VmProofs.run_load_visible. Qed.

(* not visible: exactly one call (one EvFunc event, the counter of sym incremented by one); on
   success the result sits in the TOP scope with the declared limit w16 sz, respects it, and is
   what Get returns; no other symbol moves; on failure the cache is what it was *)
Theorem C05_load_stores_at_current_level : forall rs lang sym sz b v e v' b' s,
  cache_get (v_ca v) sym = Err e -> has_func rs sym = true ->
  run_load rs lang sym sz b v = (v', b', s) ->
  b' = b
  /\ v_log v' = EvFunc sym lang (s_input (v_st v)) :: v_log v
  /\ v_w v' = aset sym (calls sym v + 1) (v_w v)
  /\ v_pg v' = v_pg v
  /\ (s = SOk ->
      exists v1 content, refresh rs lang sym v = (v1, content, SOk)
        /\ lives (v_ca v') sym = Some (top_index (v_ca v), content)
        /\ cache_reserved (v_ca v') sym = Ok (w16 sz)
        /\ (0 < w16 sz -> len content <= w16 sz)
        /\ cache_levels (v_ca v') = cache_levels (v_ca v)
        /\ forall k2, k2 <> sym -> lives (v_ca v') k2 = lives (v_ca v) k2)
  /\ (s <> SOk -> v_ca v' = v_ca v).
Proof.
  intros rs lang sym sz b v e v' b' s Hg Hf H. unfold run_load in H. rewrite Hg in H.
  destruct (refresh rs lang sym v) as [[v1 content] s1] eqn:Hr.
  destruct (refresh_calls_once _ _ _ _ _ _ _ Hf Hr) as [Hlog Hw].
  destruct (refresh_frame _ _ _ _ _ _ _ Hr) as [Hca Hpg].
  assert (Hnone : frame_of (v_ca v1) sym = None).
  { rewrite Hca, frame_of_lives. rewrite cache_get_lives in Hg. destruct (lives (v_ca v) sym) as [[? ?]|]; [discriminate|reflexivity]. }
  (* by the status of the function and, after a success, by Add's answer, which cannot be "duplicate" (Hnone): the only
     way to s = SOk is that the result was stored.  In all other cases the machine is v1, with v's cache and page *)
  destruct s1 as [|e1 m1|p1|]; [destruct (cache_add (v_ca v1) sym content (w16 sz)) as [ca'|e2|p2] eqn:Ha|..].
  2: destruct e2; try destruct (cache_add_dup _ _ _ _ Ha Hnone).
  all: injection H as <- <- <-; cbn [v_log v_w v_pg v_ca vset_ca]; (repeat split; try assumption; try (intros; congruence)).
  (* left: the clause for s = SOk, the result stored *)
  intros _. exists v1, content. split; [reflexivity|].
  destruct (cache_add_lives _ _ _ _ _ Ha) as (_ & H1 & H2 & H3 & H4 & H5). rewrite Hca in *. auto.
Qed.

Theorem C05_load_without_function : forall rs lang sym sz b v e,
  cache_get (v_ca v) sym = Err e -> has_func rs sym = false ->
  run_load rs lang sym sz b v = (v, b, SErr EGen (Some (rs_nofunc rs sym))).
Proof. intros rs lang sym sz b v e Hg Hf. unfold run_load. rewrite Hg, refresh_no_func by exact Hf. reflexivity. Qed.

(* any number of descents (OPush), loads and reloads of OTHER symbols, reads, returns from deeper
   levels (OPop while more than n+1 scopes exist): same scope, same value.  keeps_scope is the
   decidable description of these histories; it excludes exactly: a Pop that leaves scope n, the
   CROAK-style Reset (unless n = 0) and an Update of k itself *)
Theorem C05_visible_from_deeper_levels : forall ops c k n v,
  lives c k = Some (n, v) -> keeps_scope k n c ops = true -> lives (cache_run c ops) k = Some (n, v).
Proof.
  induction ops as [|o ops IH]; intros c k n v Hl Hk; [exact Hl|].
  destruct (keeps_scope_step k n v c o ops Hl Hk) as [Hl1 Hk1]. exact (IH _ _ _ _ Hl1 Hk1).
Qed.

(* the same over moves: any sequence of applyTarget calls (successful or refused) during which the
   stack never gets shorter than n *)
Theorem C05_visible_while_not_above : forall ts st ca st2 ca2 log k n v,
  nav_inv st ca -> lives ca k = Some (n, v) -> stays_at_or_below n st ca ts = true ->
  nav_run st ca ts = (st2, ca2, log) -> lives ca2 k = Some (n, v).
Proof.
  intros ts st ca st2 ca2 log k n v Hi Hl Hs H.
  destruct (lives_nav_run ts _ _ _ _ _ k Hi H) as [_ ->]. rewrite Hl, Hs. reflexivity.
Qed.

(* m pops from a cache with at most n + m scopes (this includes the floor: the last scope is
   emptied, not removed) *)
Theorem C05_gone_after_pops : forall m c k n v,
  c_frames c <> [] -> lives c k = Some (n, v) -> cache_levels c <= n + N.of_nat m ->
  cache_get (pops m c) k = Err EGen.
Proof.
  intros m c k n v Hne Hl Hlev. apply C05_lives_none_meaning. rewrite lives_pops, Hl by exact Hne.
  destruct (N.leb_spec (n + 1 + N.of_nat m) (cache_levels c)); [Lia.lia|reflexivity].
Qed.

Theorem C05_gone_after_ascent_step : forall t st ca st' ca' sym r k n v,
  nav_inv st ca -> lives ca k = Some (n, v) ->
  apply_target t st ca = (st', ca', sym, r) -> len (s_path st') < n ->
  lives ca' k = None.
Proof.
  intros t st ca st' ca' sym r k n v Hi Hl H Hlen. rewrite (lives_move _ _ _ _ _ _ _ k Hi H), Hl.
  destruct (N.leb_spec n (len (s_path st'))); [Lia.lia|reflexivity].
Qed.

Theorem C05_gone_after_ascent : forall ts st ca st2 ca2 log k n v,
  nav_inv st ca -> lives ca k = Some (n, v) ->
  nav_run st ca ts = (st2, ca2, log) -> len (s_path st2) < n ->
  cache_get ca2 k = Err EGen.
Proof.
  intros ts st ca st2 ca2 log k n v Hi Hl H Hlen. apply C05_lives_none_meaning.
  destruct (lives_nav_run ts _ _ _ _ _ k Hi H) as [Hi2 E]. rewrite Hl in E.
  destruct (stays_at_or_below n st ca ts); [|exact E]. apply lives_lt in E. unfold nav_inv in Hi2. Lia.lia.
Qed.

(* ... so the next LOAD calls the function again *)
Theorem C05_reload_after_return : forall ts st ca st2 ca2 log k n val rs lang sz b v v' b' s,
  nav_inv st ca -> lives ca k = Some (n, val) ->
  nav_run st ca ts = (st2, ca2, log) -> len (s_path st2) < n ->
  v_ca v = ca2 -> has_func rs k = true ->
  run_load rs lang k sz b v = (v', b', s) ->
  v_log v' = EvFunc k lang (s_input (v_st v)) :: v_log v
  /\ v_w v' = aset k (calls k v + 1) (v_w v).
Proof.
  intros ts st ca st2 ca2 log k n val rs lang sz b v v' b' s Hi Hl Hr Hlen Hca Hf H.
  pose proof (C05_gone_after_ascent _ _ _ _ _ _ _ _ _ Hi Hl Hr Hlen) as Hg. rewrite <- Hca in Hg.
  destruct (C05_load_stores_at_current_level _ _ _ _ _ _ _ _ _ _ Hg Hf H) as (_ & H1 & H2 & _). auto.
Qed.

(* "exactly as long as", at instruction level: ONE instruction of any kind leaves a live symbol
   untouched, or replaces its value in place (RELOAD k only), or removes it — and then it was a
   move that ended above scope n, or a CROAK *)
Theorem C05_one_instruction : forall rs sep lang i b v v' b' s k n val,
  nav_inv (v_st v) (v_ca v) -> lives (v_ca v) k = Some (n, val) ->
  exec_instr rs sep lang i b v = (v', b', s) ->
  lives (v_ca v') k = Some (n, val)
  \/ (i = IReload k /\ exists val', lives (v_ca v') k = Some (n, val'))
  \/ (lives (v_ca v') k = None
      /\ ((exists sig mode, i = ICroak sig mode) \/ len (s_path (v_st v')) < n)).
Proof.
  intros rs sep lang i b v v' b' s k n val Hi Hl. pose proof (fun t => moved_lives lang t v v' k n val Hi Hl) as M.
  destruct i as [| | | |sym| | | | | | | |]; cbn [exec_instr]; intros H; try (injection H as <- _ _; left; exact Hl).
  - destruct (M _ (proj2 (run_catch_spec _ _ _ _ _ _ _ _ _ _ H))) as [?|[? ?]]; auto 6.
  - destruct (run_croak_spec _ _ _ _ _ _ _ _ H) as (_ & _ & [[_ ->]|[_ ->]]); [left; exact Hl|].
    rewrite lives_reset, Hl. destruct n; [left; reflexivity|right; right; split; [reflexivity|left; eauto]].
  - destruct (run_load_spec _ _ _ _ _ _ _ _ _ H) as (_ & _ & _ & [->|[content Ha]]); left; [exact Hl|].
    destruct (cache_add_lives _ _ _ _ _ Ha) as (Hn & _ & _ & _ & _ & Hoth). rewrite Hoth; congruence.
  - destruct (run_reload_spec _ _ _ _ _ _ _ _ H) as (_ & _ & [->|[content ->]] & _); [left; exact Hl|].
    destruct (bytes_eqb sym k) eqn:E.
    + apply BytesProofs.bytes_eqb_eq in E. subst sym. right; left. rewrite (lives_update _ _ content _ _ Hl). eauto.
    + left. rewrite lives_update_other; [exact Hl|apply BytesProofs.beqb_false; exact E].
  - destruct (run_map_spec _ _ _ _ _ _ H) as (_ & _ & -> & _). left; exact Hl.
  - destruct (M _ (proj2 (run_move_spec _ _ _ _ _ _ _ _ _ H))) as [?|[? ?]]; auto 6.
  - destruct (M _ (proj2 (run_incmp_spec _ _ _ _ _ _ _ _ _ _ H))) as [?|[? ?]]; auto 6.
Qed.

(* ... and along a run: one iteration of the loop leaves a live symbol in its scope (value possibly
   RELOADed), or removes it — and then the stack is shorter than n, or stack and cache are out of
   lock-step (CROAK resets the cache but not the stack: K-C08-croak) *)
Theorem C05_one_iteration : forall rs sep lang b v k n val,
  nav_inv (v_st v) (v_ca v) -> lives (v_ca v) k = Some (n, val) ->
  let vo := step_machine (run_step rs sep lang b v) in
  (exists val', lives (v_ca vo) k = Some (n, val'))
  \/ (lives (v_ca vo) k = None /\ (len (s_path (v_st vo)) < n \/ ~ nav_inv (v_st vo) (v_ca vo))).
Proof.
  intros rs sep lang b v k n val Hi Hl.
  set (Q := fun vo => (exists val', lives (v_ca vo) k = Some (n, val'))
                      \/ (lives (v_ca vo) k = None /\ (len (s_path (v_st vo)) < n \/ ~ nav_inv (v_st vo) (v_ca vo)))).
  assert (Q0 : forall vx, v_ca vx = v_ca v -> Q vx) by (intros vx E; left; rewrite E; eauto).
  apply (run_step_exits rs sep lang b v Q); try (apply Q0; reflexivity).
  - intros op b1. unfold step_exec. destruct (parse_args op b1) as [[i b2]|e|p]; try (apply Q0; reflexivity).
    destruct (exec_instr rs sep _ i b2 (vlog (run_prelude v) (EvInstr op))) as [[v1 b3] s] eqn:Hx. cbn [fst].
    assert (Hi' : nav_inv (v_st (vlog (run_prelude v) (EvInstr op))) (v_ca (vlog (run_prelude v) (EvInstr op)))).
    { unfold nav_inv in *. cbn [v_st v_ca vlog]. rewrite prelude_path. exact Hi. }
    destruct (C05_one_instruction _ _ _ _ _ _ _ _ _ _ _ _ Hi' Hl Hx) as [H|[[_ H]|[H [[sig [mode ->]]|Hlt]]]].
    + (* untouched *) left; eauto.
    + (* RELOADed *) left; exact H.
    + (* gone after a CROAK: then the flag matched (an unmatched CROAK leaves the cache, where k lives), the cache is
         back to one scope and the stack is where it was, at least n >= 1 deep: no lock-step *)
      right. split; [exact H|]. right. cbn [exec_instr] in Hx.
      destruct (run_croak_spec _ _ _ _ _ _ _ _ Hx) as (Est & _ & [[_ Eca]|[_ Eca]]); rewrite Eca in H; cbn [v_ca vlog] in H; rewrite prelude_ca in H; [congruence|].
      unfold nav_inv. rewrite Est, Eca. cbn [v_st v_ca vlog]. rewrite prelude_path, cache_reset_levels by apply (NavProofs.nav_inv_frames _ _ Hi).
      rewrite lives_reset, Hl in H. pose proof (lives_lt _ _ _ _ Hl). unfold nav_inv in Hi. destruct n; [discriminate|Lia.lia].
    + (* gone after a move that ended above scope n *) right; auto.
  - intros v1 m Q1. destruct m; exact Q1.
  - intros v2 Q2. destruct (VmProofs.dead_check_cases v2); exact Q2.
Qed.

(* a run that stays at or below level n (reaches_within: every configuration it passes through has
   at least n nodes on the stack and the lock-step invariant) keeps the symbol visible in scope n
   at every configuration, so a LOAD of it anywhere on the way calls nothing: at most one call
   while visible, for whole runs *)
Theorem C05_run_keeps_symbol_visible : forall rs sep n k c c',
  reaches_within rs sep n c c' ->
  forall val, nav_inv (v_st (snd c)) (v_ca (snd c)) -> lives (v_ca (snd c)) k = Some (n, val) ->
  exists val', lives (v_ca (snd c')) k = Some (n, val').
Proof.
  intros rs sep n k c c'. induction 1 as [c|lang b v l1 b1 v1 c Hs Hlen Hi1 Hr IH]; intros val Hi Hl; [eauto|].
  cbn [snd] in *. pose proof (C05_one_iteration rs sep lang b v k n val Hi Hl) as H. rewrite Hs in H. cbn [step_machine] in H.
  destruct H as [[val' H]|[_ [H|H]]]; [eapply IH; eassumption|Lia.lia|contradiction].
Qed.

Theorem C05_run_load_once : forall rs sep n k c l' b' v' val rs2 lang2 sz b2,
  reaches_within rs sep n c (l', b', v') ->
  nav_inv (v_st (snd c)) (v_ca (snd c)) -> lives (v_ca (snd c)) k = Some (n, val) ->
  run_load rs2 lang2 k sz b2 v' = (v', b2, SOk).
Proof.
  intros rs sep n k c l' b' v' val rs2 lang2 sz b2 Hr Hi Hl.
  destruct (C05_run_keeps_symbol_visible _ _ _ k _ _ Hr val Hi Hl) as [val' H]. cbn [snd] in H.
  apply (VmProofs.run_load_visible rs2 lang2 k sz b2 v' val'). rewrite cache_get_lives, H. reflexivity.
Qed.

(* one call; the update is attempted with the result; accepted: value replaced IN ITS SCOPE (n is
   unchanged), limit kept and respected, other symbols untouched; refused: the cache is what it
   was (C09 roll-back); then the symbol is mapped with what the cache now holds *)
Theorem C05_reload_replaces : forall rs lang sym b v v' b' s,
  has_func rs sym = true -> run_reload rs lang sym b v = (v', b', s) ->
  b' = b
  /\ v_log v' = EvFunc sym lang (s_input (v_st v)) :: v_log v
  /\ v_w v' = aset sym (calls sym v + 1) (v_w v)
  /\ (forall v1 content, refresh rs lang sym v = (v1, content, SOk) ->
        v_ca v' = fst (cache_update_raw (v_ca v) sym content)
        /\ (snd (cache_update_raw (v_ca v) sym content) = None ->
            exists n old, lives (v_ca v) sym = Some (n, old) /\ lives (v_ca v') sym = Some (n, content)
              /\ cache_levels (v_ca v') = cache_levels (v_ca v)
              /\ (forall l, cache_reserved (v_ca v) sym = Ok l -> cache_reserved (v_ca v') sym = Ok l /\ (0 < l -> len content <= l))
              /\ forall k2, k2 <> sym -> lives (v_ca v') k2 = lives (v_ca v) k2)
        /\ (snd (cache_update_raw (v_ca v) sym content) <> None ->
            CInv (v_ca v) -> len content + c_size (v_ca v) < 4294967296 -> v_ca v' = v_ca v)
        /\ (s = SOk -> exists val, cache_get (v_ca v') sym = Ok val
                        /\ p_map (v_pg v') = aset sym val (p_map (v_pg v))))
  /\ (forall v1 content s1, refresh rs lang sym v = (v1, content, s1) -> s1 <> SOk ->
        s = s1 /\ v_ca v' = v_ca v /\ v_pg v' = v_pg v).
Proof.
  intros rs lang sym b v v' b' s Hf H. destruct (refresh rs lang sym v) as [[v1 content] s1] eqn:Hr.
  destruct (refresh_calls_once _ _ _ _ _ _ _ Hf Hr) as [Hlog Hw].
  destruct (refresh_frame _ _ _ _ _ _ _ Hr) as [Hca Hpg].
  destruct s1 as [|e1 m1|p1|];
    try (unfold run_reload in H; rewrite Hr in H; injection H as <- <- <-; repeat split; try assumption; congruence).
  rewrite (run_reload_ok _ _ _ _ _ _ _ Hr) in H.
  destruct (run_map_spec _ _ _ _ _ _ H) as (Hb & _ & Hc' & Hl' & Hw' & Hmap & _). cbn [v_ca v_pg v_log v_w vset_ca] in *.
  split; [exact Hb|]. split; [congruence|]. split; [congruence|]. split; [|intros ? ? ? E; congruence].
  intros v1' content' E. injection E as <- <-. rewrite Hc'. rewrite Hpg in Hmap.
  destruct (cache_update_raw (v_ca v) sym content) as [ca' oe] eqn:Hu. cbn [fst snd]. repeat split; [| |exact Hmap].
  - intros ->. destruct (cache_update_raw_ok _ _ _ _ Hu) as (n & old & H1 & H2 & H3 & H4 & H6 & H7).
    exists n, old. unfold cache_reserved in *. rewrite H4. auto 10.
  - intros Hne. destruct oe as [e|]; [|congruence]. intros. eapply cache_update_raw_failed; eauto.
Qed.

(* when the update is accepted and when it is refused: the empty string is always accepted; a
   value over the (non-zero) limit is refused for every length; every refusal is a no-op *)
Theorem C05_reload_update_cases :
  (forall c k v c', cache_update_raw c k v = (c', None) ->
     exists n old, lives c k = Some (n, old) /\ lives c' k = Some (n, v)
       /\ cache_levels c' = cache_levels c /\ c_sizes c' = c_sizes c
       /\ (forall l, cache_reserved c k = Ok l -> 0 < l -> len v <= l)
       /\ (forall k2, k2 <> k -> lives c' k2 = lives c k2))
  /\ (forall c k n old, lives c k = Some (n, old) -> exists c', cache_update_raw c k [] = (c', None))
  /\ (forall c k v l, cache_reserved c k = Ok l -> 0 < l -> l < len v -> cache_update_raw c k v = (c, Some EGen))
  /\ (forall c k v c' e, CInv c -> len v + c_size c < 4294967296 -> cache_update_raw c k v = (c', Some e) -> c' = c).
Proof.
  split; [exact cache_update_raw_ok|]. split; [|split; [exact cache_update_raw_over_limit|exact cache_update_raw_failed]].
  intros c k n old Hl. unfold cache_update_raw. rewrite frame_of_lives, Hl. cbn [option_map fst]. change (len (@nil N)) with 0.
  destruct (_ <? 0) eqn:E; [apply N.ltb_lt in E; Lia.lia|]. rewrite N.ltb_irrefl, !Bool.andb_false_r. eauto.
Qed.

(* Full statement: "after ANY move — MOVE, a firing INCMP, a firing CATCH — and after every resume
   the map is empty".  False for CATCH (refuted below).  Partial: everything but CATCH. *)
Theorem C05_map_until_next_move_partial :
  (forall c pg k pg', page_map c pg k = Ok pg' ->
     exists val, cache_get c k = Ok val /\ p_map pg' = aset k val (p_map pg))
  /\ (forall pg, p_map (page_reset pg) = [])
  /\ (forall sep pg, p_map (vm_reset sep pg) = [])
  /\ (forall rs sep sym b v v' b' s, run_move rs sep sym b v = (v', b', s) ->
        (s = SOk -> p_map (v_pg v') = []) /\ (s <> SOk -> v_pg v' = v_pg v))
  /\ (forall rs sep dest sel b v v' b' s, run_incmp rs sep dest sel b v = (v', b', s) ->
        (v_pg v' = v_pg v /\ (v_log v' = v_log v \/ v_log v' = EvInCmp dest sel false :: v_log v))
        \/ (p_map (v_pg v') = []
            /\ exists pre nsym, v_log v' = pre ++ EvMove 1 dest nsym :: EvInCmp dest sel true :: v_log v))
  /\ (forall sep sig mode b v v' b' s, run_croak sep sig mode b v = (v', b', s) ->
        v_pg v' = v_pg v \/ p_map (v_pg v') = [])
  /\ (forall v, getf (v_st v) FLAG_WAIT = true -> p_map (v_pg (run_prelude v)) = [])
  /\ (forall v, getf (v_st v) FLAG_WAIT = false -> v_pg (run_prelude v) = v_pg v)
  /\ (forall rs sep lang i b v v' b' s, exec_instr rs sep lang i b v = (v', b', s) ->
        p_map (v_pg v') = [] \/ p_map (v_pg v') = p_map (v_pg v)
        \/ exists k val, (i = IMap k \/ i = IReload k) /\ cache_get (v_ca v') k = Ok val
                         /\ p_map (v_pg v') = aset k val (p_map (v_pg v))).
Proof.
  split; [exact page_map_ok|]. split; [reflexivity|]. split; [reflexivity|].
  split; [intros rs sep sym b v v' b' s H; exact (proj1 (run_move_spec None _ _ _ _ _ _ _ _ H))|].
  split. { intros rs sep dest sel b v v' b' s H. destruct (run_incmp_spec None _ _ _ _ _ _ _ _ _ H) as [[H1|[E H1]] _]; [left; exact H1|right]. rewrite E. auto. }
  split. { intros sep sig mode b v v' b' s H. destruct (run_croak_spec _ _ _ _ _ _ _ _ H) as (_ & _ & [[E _]|[E _]]); rewrite E; auto. }
  split; [exact prelude_resume_clears|]. split; [|exact exec_instr_map_lemma].
  intros v H. unfold run_prelude. rewrite VmProofs.getf_resetf_other, H by discriminate. reflexivity.
Qed.

(* in the loop: the instruction that runs right after a HALT is executed on a machine v0 with an
   empty map (the remainder of the iteration is spelled out so that v0 is seen to be what
   step_exec receives) *)
Theorem C05_map_emptied_on_resume : forall rs sep lang b v op b1,
  getf (v_st v) FLAG_TERMINATE = false -> getf (v_st v) FLAG_WAIT = true -> op_split b = Ok (op, b1) ->
  exists v0, p_map (v_pg v0) = [] /\ v_ca v0 = v_ca v /\
    run_step rs sep lang b v =
    match parse_args op b1 with
    | Panic n => Done (v0, b1, SPanic n)
    | _ =>
      let '(v1, b2, s) := step_exec rs sep (eff_lang lang (v_st v)) op b1 v0 in
      if op =? op_HALT then Done (v1, b2, s) else
      let '(v2, b3, s2) := err_check v1 b2 s in
      match s2 with
      | SOk =>
        match b3 with
        | [] =>
          let '(v3, b4, s3) := dead_check v2 in
          match s3 with
          | SOk => match b4 with [] => Done (v3, [], SOk) | _ => Next (eff_lang lang (v_st v)) b4 v3 end
          | _ => Done (v3, b4, s3)
          end
        | _ => Next (eff_lang lang (v_st v)) b3 v2
        end
      | _ => Done (v2, b3, s2)
      end
    end.
Proof.
  intros rs sep lang b v op b1 Ht Hw Ho. exists (run_prelude v). split; [exact (prelude_resume_clears v Hw)|].
  split; [reflexivity|]. unfold run_step. rewrite Ht, Ho. reflexivity.
Qed.

Theorem C05_catch_keeps_the_map : forall rs sym sig mode b v v' b' s,
  run_catch rs sym sig mode b v = (v', b', s) -> v_pg v' = v_pg v.
Proof. intros rs sym sig mode b v v' b' s H. exact (proj1 (run_catch_spec None _ _ _ _ _ _ _ _ _ H)). Qed.

(* witness: foo loads and maps aa, then leaves upwards with CATCH _ ; root's template shows
   {{.aa}} without mapping it.  The page "root one" is delivered although aa is in no scope of
   the cache any more (its level was popped); with MOVE _ in place of the CATCH the same page
   cannot be rendered (missing key), as the statement demands *)
Theorem C05_map_until_next_move_refuted_catch :
  exists a a' c,
    a = ex_app_leave (ICatch (s2b "_") 8 false) /\ a' = ex_app_leave (IMove (s2b "_")) /\
    let '(e, r) := request_long ex_fuel (app_rsrc a) c (ex_e0 c) [] in
    let '(e', r') := request_long ex_fuel (app_rsrc a') c (ex_e0 c) [] in
    r_exec r = SOk /\ r_flush r = FOk /\ r_out r = s2b "root one"
    /\ s_path (v_st (e_v e)) = [s2b "root"]
    /\ cache_get (v_ca (e_v e)) (s2b "aa") = Err EGen
    /\ alookup (s2b "aa") (p_map (v_pg (e_v e))) = Some (s2b "one")
    /\ r_exec r' = SOk /\ r_flush r' = FErr EGen /\ r_out r' = []
    /\ v_ca (e_v e') = v_ca (e_v e) /\ v_st (e_v e') = v_st (e_v e).
Proof. exists (ex_app_leave (ICatch (s2b "_") 8 false)), (ex_app_leave (IMove (s2b "_"))), ex_cfg. vm_compute. repeat split; reflexivity. Qed.

(* LOAD: a result longer than a non-zero limit — for EVERY length — is an error, the cache (and
   its LastValue) is untouched, Get still fails, so no MAP of the symbol can succeed *)
Theorem C05_oversize_never_stored_or_shown : forall rs lang sym sz b v e v1 content,
  cache_get (v_ca v) sym = Err e ->
  refresh rs lang sym v = (v1, content, SOk) ->
  0 < w16 sz -> w16 sz < len content ->
  run_load rs lang sym sz b v = (v1, b, SErr EGen None)
  /\ v_ca v1 = v_ca v
  /\ cache_get (v_ca v1) sym = Err e
  /\ c_last (v_ca v1) = c_last (v_ca v)
  /\ (forall pg, page_map (v_ca v1) pg sym = Err e)
  /\ (forall b2, run_map sym b2 v1 = (v1, b2, SErr e None)).
Proof.
  intros rs lang sym sz b v e v1 content Hg Hr H0 H1. destruct (refresh_frame _ _ _ _ _ _ _ Hr) as [Hca _].
  split; [eapply VmProofs.run_load_over_limit; eauto|]. unfold run_map. rewrite Hca.
  repeat split; try assumption; intros; rewrite (page_map_needs_cache _ _ _ _ Hg); reflexivity.
Qed.

(* RELOAD: the oversize result is dropped, the cache is untouched, and what the page shows for
   the symbol afterwards is the OLD value (from the map or from the cache) *)
Theorem C05_oversize_reload_keeps_old : forall rs lang sym b v v1 content l v' b' s,
  refresh rs lang sym v = (v1, content, SOk) ->
  cache_reserved (v_ca v) sym = Ok l -> 0 < l -> l < len content ->
  run_reload rs lang sym b v = (v', b', s) ->
  v_ca v' = v_ca v
  /\ forall val, alookup sym (p_map (v_pg v')) = Some val ->
       alookup sym (p_map (v_pg v)) = Some val \/ cache_get (v_ca v) sym = Ok val.
Proof.
  intros rs lang sym b v v1 content l v' b' s Hr Hres H0 H1 H. rewrite (run_reload_ok _ _ _ _ _ _ _ Hr), (cache_update_raw_over_limit _ _ _ _ Hres H0 H1) in H.
  destruct (refresh_frame _ _ _ _ _ _ _ Hr) as [_ Hpg].
  destruct (run_map_spec _ _ _ _ _ _ H) as (_ & _ & Hc & _ & _ & Hok & Hne). cbn [v_ca v_pg vset_ca fst] in *.
  split; [exact Hc|]. intros val Hv. destruct s; try (left; rewrite Hne, Hpg in Hv by discriminate; exact Hv).
  destruct (Hok eq_refl) as (val' & Hg & Hm). rewrite Hm, BytesProofs.alookup_aset_same in Hv. right. congruence.
Qed.

(* a history down and up the stack: root -> foo (LOAD aa twice, MAP) -> bar (LOAD aa, MAP) -> foo ->
   root -> foo.  The function is called exactly twice (first entry of foo, re-entry after the
   ascent to root); bar and the return to foo show the first value without a call *)
Example C05_history :
  let '(e, outs) := ex_long (app_rsrc ex_app_scope) ex_cfg (ex_e0 ex_cfg)
                      [[]; s2b "1"; s2b "2"; s2b "0"; s2b "0"; s2b "1"] in
  outs = [s2b "root"; s2b "foo one"; s2b "bar one"; s2b "foo one"; s2b "root"; s2b "foo two"]
  /\ ex_calls (v_log (e_v e)) =
     [EvRender (s2b "root") 0 None; EvFunc (s2b "aa") None (Some (s2b "1")); EvRender (s2b "foo") 0 None;
      EvRender (s2b "bar") 0 None; EvRender (s2b "foo") 0 None; EvRender (s2b "root") 0 None;
      EvFunc (s2b "aa") None (Some (s2b "1")); EvRender (s2b "foo") 0 None]
  /\ lives (v_ca (e_v e)) (s2b "aa") = Some (2, s2b "two").
Proof. vm_compute. repeat split; reflexivity. Qed.

(* the hypotheses of the lifetime theorems on a reachable state: at bar (depth 3) aa lives in
   scope 2 with the lock-step invariant; one "_" keeps it, two lose it, "^" loses it; and a cache
   history of descents, other loads and returns keeps it *)
Example C05_lifetime_hypotheses :
  let '(e, _) := ex_long (app_rsrc ex_app_scope) ex_cfg (ex_e0 ex_cfg) [[]; s2b "1"; s2b "2"] in
  let st := v_st (e_v e) in let ca := v_ca (e_v e) in
  cache_levels ca = len (s_path st) + 1
  /\ lives ca (s2b "aa") = Some (2, s2b "one")
  /\ stays_at_or_below 2 st ca [t_up; s2b "baz"; t_next] = true
  /\ (let '(st2, ca2, _) := nav_run st ca [t_up; s2b "baz"; t_next] in cache_get ca2 (s2b "aa") = Ok (s2b "one"))
  /\ (let '(st2, ca2, _) := nav_run st ca [t_up; t_up] in len (s_path st2) <? 2 = true /\ cache_get ca2 (s2b "aa") = Err EGen)
  /\ (let '(st2, ca2, _) := nav_run st ca [t_top] in len (s_path st2) <? 2 = true /\ cache_get ca2 (s2b "aa") = Err EGen)
  /\ (let ops := [OPush; OAdd (s2b "bb") (s2b "x") 0; OUpdate (s2b "bb") []; OPop; OPop; OPush] in
      keeps_scope (s2b "aa") 2 ca ops = true /\ cache_get (cache_run ca ops) (s2b "aa") = Ok (s2b "one")).
Proof. vm_compute. repeat split; reflexivity. Qed.

(* the hypotheses of the run-level theorems in their computable form (nav_inv_b, iter_within; turning them into
   nav_inv and reaches_within is SymbolProofs.nav_inv_b_sound and iter_within_sound, not applied here): the main
   run of the request "1" (root -> foo); after two iterations (INCMP fired, first LOAD aa stored) aa lives in
   scope 2 under the lock-step invariant; the next two iterations (second LOAD aa, MAP aa) stay within level 2 *)
Example C05_run_hypotheses :
  let rs := app_rsrc ex_app_scope in
  let '(e1, _) := request_long ex_fuel rs ex_cfg (ex_e0 ex_cfg) [] in
  match ex_exec_conf rs ex_cfg e1 (s2b "1") with
  | Some c0 =>
    match iter_step 2 rs [] c0 with
    | Some c1 =>
      nav_inv_b (v_st (snd c1)) (v_ca (snd c1)) = true
      /\ lives (v_ca (snd c1)) (s2b "aa") = Some (2, s2b "one")
      /\ option_map (fun c : option bytes * bytes * vmst => (parse_all (snd (fst c)), lives (v_ca (snd c)) (s2b "aa"), func_count (v_log (snd c))))
           (iter_within 2 2 rs [] c1)
         = Some (Ok [IHalt; IInCmp (s2b "_") (s2b "0"); IInCmp (s2b "bar") (s2b "2")], Some (2, s2b "one"), 1%nat)
    | None => False
    end
  | None => False
  end.
Proof. vm_compute. repeat split; reflexivity. Qed.

(* RELOAD under limit 5: the empty result replaces the value; an over-limit result (7 bytes, and
   65541 bytes) is dropped and the old value stays mapped; a fitting one replaces it *)
Example C05_reload_cases :
  let go second := let '(e, outs) := ex_long (app_rsrc (ex_app_reload second)) ex_cfg (ex_e0 ex_cfg) [[]] in
                   (outs, lives (v_ca (e_v e)) (s2b "aa")) in
  go [] = ([s2b "root []"], Some (1, []))
  /\ go (s2b "two") = ([s2b "root [two]"], Some (1, s2b "two"))
  /\ go (s2b "toolong") = ([s2b "root [one]"], Some (1, s2b "one"))
  /\ go (rep 120 65541) = ([s2b "root [one]"], Some (1, s2b "one")).
Proof. vm_compute. repeat split; reflexivity. Qed.

(* LOAD of a 65541-byte result under limit 5 (a length whose low 16 bits are 5): refused *)
Example C05_oversize_load :
  let rs := app_rsrc (mkApp [] [] [] [(s2b "aa", [mkFres (rep 120 65541) false 0 [] [] false])]) in
  let v := e_v (ex_e0 ex_cfg) in
  let '(v', b', s) := run_load rs None (s2b "aa") 5 [] v in
  s = SErr EGen None /\ v_ca v' = v_ca v /\ func_count (v_log v') = 1%nat
  /\ w16 (len (rep 120 65541)) = 5.
Proof.
  (* the 65541 bytes are kept abstract, their length is all the run looks at: evaluating the list itself is slow to check *)
  pose proof (BytesProofs.len_rep 120 65541) as Hlen.
  generalize dependent (rep 120 65541). intros big Hlen rs v.
  assert (Hr : refresh rs None (s2b "aa") v
               = (vlog (vset_w v [(s2b "aa", 1)]) (EvFunc (s2b "aa") None None), big ++ [], SOk)) by reflexivity.
  rewrite (VmProofs.run_load_over_limit rs None (s2b "aa") 5 [] v _ _ EGen eq_refl Hr).
  - rewrite Hlen. repeat split.
  - reflexivity.
  - rewrite BytesProofs.len_app, Hlen. reflexivity.
Qed.

Print Assumptions C05_lives_meaning.
Print Assumptions C05_lives_none_meaning.
Print Assumptions C05_current_level.
Print Assumptions C05_load_once_while_visible.
Print Assumptions C05_load_stores_at_current_level.
Print Assumptions C05_load_without_function.
Print Assumptions C05_visible_from_deeper_levels.
Print Assumptions C05_visible_while_not_above.
Print Assumptions C05_gone_after_pops.
Print Assumptions C05_gone_after_ascent_step.
Print Assumptions C05_gone_after_ascent.
Print Assumptions C05_reload_after_return.
Print Assumptions C05_one_instruction.
Print Assumptions C05_one_iteration.
Print Assumptions C05_run_keeps_symbol_visible.
Print Assumptions C05_run_load_once.
Print Assumptions C05_reload_replaces.
Print Assumptions C05_reload_update_cases.
Print Assumptions C05_map_until_next_move_partial.
Print Assumptions C05_map_emptied_on_resume.
Print Assumptions C05_catch_keeps_the_map.
Print Assumptions C05_map_until_next_move_refuted_catch.
Print Assumptions C05_oversize_never_stored_or_shown.
Print Assumptions C05_oversize_reload_keeps_old.
