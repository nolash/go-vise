(* C08 — No sequence of client inputs can crash the engine or corrupt a session
   (composed safety theorem over the VM / engine model; lemmas in proofs/SafetyProofs.v;
   the component-level totality theorems are in props/C08.v).

   FULL STATEMENT (properties.jsonl, DESIGN section 6): for every well-formed application
   (wf_app_b a c: every move target exists, a catch node is defined, flags in range, no node moves
   to itself, every cycle of moves passes a HALT), every history of client inputs (valid or
   unknown selectors, empty input, arbitrary bytes, over-long input), every fuel, and both
   drivers (long-lived engine / one engine per request over the stored session):
     (a) no request panics (r_exec is never SPanic, r_flush never FPanic; SFuel / FFuel is the
         model's "out of fuel", not a panic);
     (b) after every request the session is consistent: cache_levels = len(path) + 1, CacheProofs'
         CInv (usage counter = summed value lengths, capacity respected, each symbol in one
         scope, a limit recorded for each live symbol), and the stored snapshot can be loaded
         into a new engine that again satisfies the invariant.
   The model REFUTES the full statement in four classes, so what is proved is:

   (a) C08_run_never_panics             Vm.Run never panics and keeps the invariant VInv, for every
                                        resource satisfying rs_wf (codes decode completely into
                                        instructions with in-range flags; tables never panic;
                                        scripted results have in-range flag lists), all fuel,
                                        code, machine states in the invariant.  No finding excluded.
       C08_render_never_panics          same for Vm.Render (which runs MOVE _catch on a browse error)
       C08_request_never_panics_partial one request on ANY engine state / stored session in the
                                        invariant, both drivers; guard FirstOk: no entry function,
                                        or the engine is initialised, or it has not executed and its
                                        position admits State.Down("_first")
       C08_history_never_panics_partial all histories from a new session, both drivers; guards:
                                        cfg_okb c (root is an encodable symbol, FlagCount + 8 <= 2040,
                                        CacheSize < 2^32) and c_first c = None
       C08_history_never_panics_first_long_partial
                                        with an entry function, long-lived engine: the first request is
                                        safe, and if it initialises the engine all later histories are
       refutations, each confirmed on the Go code:
                    C08_history_never_panics_refuted_first_depth (K-C08-first: "maxlevel" panic),
                    C08_history_never_panics_refuted_first_fail (K-C08-first: "down into same node" panic),
                    C08_history_never_panics_refuted_flagcount (K-C08-flagcount: index out of range;
                    toByteSize is a uint8)
   (b) C08_session_consistent_partial   guards additionally has_croak a = false (K-C08-croak) and
                                        vals_small (values 4 GiB below the uint32 wrap of the usage counter)
       C08_session_consistent_refuted_croak

   wf_app_b is connected to the proof-level well-formedness by C08_wf_app_sound. *)
From Vise Require Import Bytes Errors Consts EngConsts Codec CacheModel StateModel NavModel NavSpec RenderModel
  VmModel EngineModel CorrBase EngineCorr EngineMon CacheProofs SafetyProofs.
Local Open Scope N_scope.

Theorem C08_run_never_panics : forall bits cap k rs sep fuel lang b v v' b' s,
  rs_wf bits cap k rs -> VInv bits cap k v -> cok bits k b ->
  run fuel rs sep lang b v = (v', b', s) ->
  (forall n, s <> SPanic n) /\ VInv bits cap k v' /\ cok bits k b'.
Proof.
  intros bits cap k rs sep fuel lang b v v' b' s Hrs HV Hb H.
  pose proof (run_safe bits cap k rs sep Hrs fuel lang b v HV Hb) as (R1 & R2 & R3).
  rewrite H in R1, R2, R3. split; [intros n ->; discriminate|auto].
Qed.

Theorem C08_fuel_is_not_panic : forall n, SFuel <> SPanic n.
Proof. discriminate. Qed.

Theorem C08_render_never_panics : forall bits cap k rs sep fuel lang v v' r,
  rs_wf bits cap k rs -> VInv bits cap k v ->
  vm_render fuel rs sep lang v = (v', r) -> (forall n, r <> RRPanic n) /\ VInv bits cap k v'.
Proof.
  intros bits cap k rs sep fuel lang v v' r Hrs HV H.
  pose proof (vm_render_safe bits cap k rs sep fuel lang v Hrs HV) as [R1 R2].
  rewrite H in R1, R2. split; [intros n ->; exact R1|exact R2].
Qed.

(* the decidable well-formedness of corr/EngineMon.v gives the resource well-formedness *)
Theorem C08_wf_app_sound : forall a c,
  wf_app_b a c = true -> rs_wf (cfg_bits c) (c_cachesize c) false (app_rsrc a).
Proof. exact wf_app_rs_wf. Qed.
Theorem C08_wf_app_sound_consistent : forall a c,
  wf_app_b a c = true -> has_croak a = false -> vals_small (c_cachesize c) a = true ->
  rs_wf (cfg_bits c) (c_cachesize c) true (app_rsrc a).
Proof. exact wf_app_rs_wf_consistent. Qed.

Theorem C08_request_never_panics_partial : forall a c k fuel input,
  wf_app_b a c = true -> cfg_okb c = true ->
  (k = true -> has_croak a = false /\ vals_small (c_cachesize c) a = true) ->
  (forall e, EInv (cfg_bits c) (c_cachesize c) k e -> FirstOk (cfg_bits c) (c_cachesize c) k c e ->
     resp_no_panic (snd (request_long fuel (app_rsrc a) c e input))
     /\ EInv (cfg_bits c) (c_cachesize c) k (fst (request_long fuel (app_rsrc a) c e input)))
  /\ (forall p, PInv (cfg_bits c) (c_cachesize c) k p ->
     FirstOk (cfg_bits c) (c_cachesize c) k c (new_engine c (pw_store p) (pw_w p) (pw_log p)) ->
     resp_no_panic (snd (request_persisted fuel (app_rsrc a) c p input))
     /\ PInv (cfg_bits c) (c_cachesize c) k (fst (request_persisted fuel (app_rsrc a) c p input))).
Proof.
  intros a c k fuel input Hwf Hc Hk. split.
  - intros e HE HF.
    destruct (request_long_safe _ _ k fuel _ c e input (wf_app_rs_wf_at a c k Hwf Hk) (proj1 (cfg_okb_sound c Hc)) HE HF)
      as (R1 & R2 & _). auto.
  - intros p. apply request_persisted_safe; [apply wf_app_rs_wf_at; assumption|apply cfg_okb_sound, Hc].
Qed.

Theorem C08_history_never_panics_partial : forall a c w lg h,
  wf_app_b a c = true -> cfg_okb c = true -> c_first c = None ->
  Forall resp_no_panic (snd (hist_long (app_rsrc a) c (new_engine c None w lg) h))
  /\ Forall resp_no_panic (snd (hist_pers (app_rsrc a) c (mkPw None w lg false) h)).
Proof.
  intros a c w lg h Hwf Hc Hf. destruct (history_safe a c false w lg h Hwf Hc Hf) as [[H1 _] [H2 _]]; [discriminate|]. auto.
Qed.

Theorem C08_history_never_panics_first_long_partial : forall a c fuel input h,
  wf_app_b a c = true -> cfg_okb c = true ->
  resp_no_panic (snd (request_long fuel (app_rsrc a) c (new_engine c None [] []) input))
  /\ (e_initd (fst (request_long fuel (app_rsrc a) c (new_engine c None [] []) input)) = true ->
      Forall resp_no_panic
        (snd (hist_long (app_rsrc a) c (fst (request_long fuel (app_rsrc a) c (new_engine c None [] []) input)) h))).
Proof.
  intros a c fuel input h.
  intros Hwf Hc. apply cfg_okb_sound in Hc. pose proof (wf_app_rs_wf a c Hwf) as Hrs.
  pose proof (wf_app_first a c Hwf) as Hfs.
  assert (HF : FirstOk (cfg_bits c) (c_cachesize c) false c (new_engine c None [] [])).
  { unfold FirstOk. destruct (c_first c); [|exact I]. split; [exact Hfs|right]. split; [reflexivity|apply first_pre_fresh]. }
  destruct (request_long_safe _ _ false fuel (app_rsrc a) c _ input Hrs (proj1 Hc)
              (new_engine_EInv false c None [] [] Hc I) HF) as (R1 & R2 & _).
  split; [exact R1|].
  intros Hi. apply (hist_long_safe _ _ false (app_rsrc a) c Hrs (proj1 Hc) Hfs h _ R2). right. exact Hi.
Qed.

(* SPanic 23: State.Down beyond MaxLevel nodes, here Down("_first") on a session 129 levels deep *)
Theorem C08_history_never_panics_refuted_first_depth :
  wf_app_b wit_deep_app wit_deep_cfg = true /\ cfg_okb wit_deep_cfg = true
  /\ map (fun r => (r_exec r, r_flush r))
         (snd (hist_pers (app_rsrc wit_deep_app) wit_deep_cfg (mkPw None [] [] false) [(3000%nat, []); (3000%nat, s2b "1")]))
     = [(SOk, FErr ENotFound); (SPanic 23, FPanic 23)].
Proof.
  split; [|vm_compute; repeat split].
  unfold wf_app_b. cbv zeta.
  (* the cycle check is argued (SafetyProofs.forward_moves_acyclic) and dropped from the conjunction; the
     order of the table it rests on and the other conjuncts are evaluated *)
  rewrite forallb_and_r by (intros nc; apply forward_moves_acyclic; vm_compute; reflexivity).
  vm_compute. reflexivity.
Qed.

(* SPanic 24: State.Down "down into same node as previous", here the second Down("_first") on the engine *)
Theorem C08_history_never_panics_refuted_first_fail :
  wf_app_b wit_fail_app wit_fail_cfg = true /\ cfg_okb wit_fail_cfg = true
  /\ map (fun r => (r_exec r, r_flush r))
         (snd (hist_long (app_rsrc wit_fail_app) wit_fail_cfg (new_engine wit_fail_cfg None [] []) [(100%nat, []); (100%nat, [])]))
     = [(SOk, FOk); (SPanic 24, FPanic 24)].
Proof. vm_compute. repeat split. Qed.

Theorem C08_history_never_panics_refuted_flagcount :
  wf_app_b wit_flags_app wit_flags_cfg = true /\ cfg_okb wit_flags_cfg = false
  /\ c_first wit_flags_cfg = None
  /\ map (fun r => (r_exec r, r_flush r))
         (snd (hist_long (app_rsrc wit_flags_app) wit_flags_cfg (new_engine wit_flags_cfg None [] []) [(100%nat, [])]))
     = [(SPanic 20, FPanic 20)].
Proof. vm_compute. repeat split. Qed.

Theorem C08_session_consistent_partial : forall a c w lg h,
  wf_app_b a c = true -> cfg_okb c = true -> c_first c = None ->
  has_croak a = false -> vals_small (c_cachesize c) a = true ->
  (let e := fst (hist_long (app_rsrc a) c (new_engine c None w lg) h) in
   session_consistent (v_st (e_v e)) (v_ca (e_v e)))
  /\ match pw_store (fst (hist_pers (app_rsrc a) c (mkPw None w lg false) h)) with
     | Some (st, ca) => session_consistent st ca
     | None => True
     end.
Proof.
  intros a c w lg h Hwf Hc Hf Hnc Hsm. destruct (history_safe a c true w lg h Hwf Hc Hf) as [[_ H1] [_ H2]]; [auto|].
  split; [exact (SC_consistent _ _ _ _ H1)|].
  unfold PInv, snap_ok in H2. destruct (pw_store _) as [[st ca]|]; [exact (SC_consistent _ _ _ _ H2)|exact I].
Qed.

Theorem C08_session_consistent_refuted_croak :
  wf_app_b wit_croak_app wit_croak_cfg = true /\ cfg_okb wit_croak_cfg = true
  /\ c_first wit_croak_cfg = None /\ vals_small (c_cachesize wit_croak_cfg) wit_croak_app = true
  /\ has_croak wit_croak_app = true
  /\ (let e := fst (hist_long (app_rsrc wit_croak_app) wit_croak_cfg (new_engine wit_croak_cfg None [] []) [(100%nat, [])]) in
      cache_levels (v_ca (e_v e)) = 1 /\ len (s_path (v_st (e_v e))) = 2
      /\ cache_levels (v_ca (e_v e)) <> len (s_path (v_st (e_v e))) + 1)
  /\ match pw_store (fst (hist_pers (app_rsrc wit_croak_app) wit_croak_cfg (mkPw None [] [] false) [(100%nat, [])])) with
     | Some (st, ca) => cache_levels ca <> len (s_path st) + 1
     | None => False
     end.
Proof. vm_compute. repeat split; discriminate. Qed.

(* an application with LOAD, MAP, a menu, INCMP, CATCH and a _catch node that ascends meets every guard *)
Example C08_guards_inhabited :
  wf_app_b wit_app wit_cfg = true /\ cfg_okb wit_cfg = true /\ c_first wit_cfg = None
  /\ has_croak wit_app = false /\ vals_small (c_cachesize wit_cfg) wit_app = true.
Proof. exact wit_guards. Qed.
(* ... and its history (start, valid selector, junk, 300 bytes, unknown selector, ascent, no fuel)
   renders pages, refuses input, visits _catch, and ends with SFuel: the theorems are about runs
   that do something *)
Example C08_history_nontrivial :
  map resp_view (snd (hist_long (app_rsrc wit_app) wit_cfg (new_engine wit_cfg None [] []) wit_hist)) = wit_trace
  /\ map resp_view (snd (hist_pers (app_rsrc wit_app) wit_cfg (mkPw None [] [] false) wit_hist)) = wit_trace.
Proof. exact wit_runs. Qed.
(* the invariants of the request / run theorems are inhabited (both levels) *)
Example C08_invariant_inhabited : forall k, EInv (cfg_bits wit_cfg) (c_cachesize wit_cfg) k (new_engine wit_cfg None [] []).
Proof. intros k. apply new_engine_EInv; [apply cfg_okb_sound, wit_guards|exact I]. Qed.
Example C08_rs_wf_inhabited : rs_wf (cfg_bits wit_cfg) (c_cachesize wit_cfg) true (app_rsrc wit_app).
Proof. destruct wit_guards as (H1 & _ & _ & H2 & H3). apply wf_app_rs_wf_consistent; assumption. Qed.
(* the entry-function theorem's premise "initialised after the first request" is satisfiable *)
Example C08_first_long_inhabited :
  wf_app_b wit_app wit_first_cfg = true /\ cfg_okb wit_first_cfg = true
  /\ e_initd (fst (request_long 200 (app_rsrc wit_app) wit_first_cfg (new_engine wit_first_cfg None [] []) [])) = true.
Proof. vm_compute. repeat split. Qed.

Print Assumptions C08_run_never_panics.
Print Assumptions C08_render_never_panics.
Print Assumptions C08_wf_app_sound.
Print Assumptions C08_wf_app_sound_consistent.
Print Assumptions C08_request_never_panics_partial.
Print Assumptions C08_history_never_panics_partial.
Print Assumptions C08_history_never_panics_first_long_partial.
Print Assumptions C08_history_never_panics_refuted_first_depth.
Print Assumptions C08_history_never_panics_refuted_first_fail.
Print Assumptions C08_history_never_panics_refuted_flagcount.
Print Assumptions C08_session_consistent_partial.
Print Assumptions C08_session_consistent_refuted_croak.
