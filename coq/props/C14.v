(* C14 — Bytecode encoding and decoding are exact inverses.
   Property theorems; the longer proofs are in proofs/CodecProofs.v. *)
From Vise Require Import Bytes Errors Consts Codec CodecProofs.
Local Open Scope N_scope.

(* sizes and signal numbers over the whole 32-bit range: the assembler's integer encoder is
   inverted by the VM's integer decoder, which consumes exactly the encoder's bytes *)
Theorem C14_int_roundtrip : forall n rest,
  n < 2 ^ 32 -> exists e, write_size n = Ok e /\ int_split (e ++ rest) = Ok (n, rest).
Proof.
  intros n rest Hlt. destruct (min_be_spec n Hlt) as [Hl [Hu Hw]]. eexists. split; [exact Hw|].
  cbn [app]. rewrite (int_split_data _ (min_be n) rest (proj2 Hl) eq_refl), Hu. reflexivity.
Qed.

(* symbols and selectors of 1..255 bytes *)
Theorem C14_sym_roundtrip : forall s rest,
  1 <= len s -> len s <= 255 ->
  write_sym s = Ok (len s :: s) /\ sym_split (len s :: s ++ rest) = Ok (s, rest).
Proof. intros s rest H1 H2. split; [apply write_sym_ok; exact H2|apply sym_split_data; assumption]. Qed.

(* every instruction of the language, both match modes: decodes to itself and consumes exactly
   its own bytes *)
Theorem C14_instr_roundtrip : forall i rest,
  wf_instr i -> decode_one (encode i ++ rest) = Ok (i, rest).
Proof. exact instr_roundtrip_lemma. Qed.

(* every encodable instruction sequence decodes back to the same sequence ... *)
Theorem C14_prog_roundtrip : forall p,
  Forall wf_instr p -> p <> [] -> parse_all (encode_prog p) = Ok p.
Proof. exact prog_roundtrip_lemma. Qed.

(* ... and is listed by the disassembler as the same instructions *)
Theorem C14_disasm_lists_same : forall p,
  Forall wf_instr p -> p <> [] -> to_string (encode_prog p) = Ok (print_prog p).
Proof. exact disasm_lemma. Qed.

(* the assembler's writers and vm.NewLine produce the same bytes *)
Theorem C14_encoders_agree : forall i, wf_instr i -> encode_asm i = Ok (encode i).
Proof. exact encoders_agree_lemma. Qed.

(* the mnemonic tables used by assembler and disassembler are inverse to each other *)
Theorem C14_opcode_tables_inverse :
  forallb (fun '(s, n) => existsb (fun '(n', s') => (n =? n') && String.eqb s s') opcode_string) opcode_index = true
  /\ forallb (fun '(n, s) => existsb (fun '(s', n') => (n =? n') && String.eqb s s') opcode_index) opcode_string = true
  /\ forallb (fun '(_, n) => n <=? max_opcode) opcode_index = true.
Proof. exact opcode_tables_inverse. Qed.

(* non-vacuity: a non-trivial program meets the hypotheses (255-byte symbol, 2^32-1) *)
Example C14_nonvacuous :
  let p := [ILoad (rep 97 255) 4294967295; ICatch (s2b "x_1") 65536 true; IInCmp (s2b "foo") (s2b "*"); IHalt] in
  forallb wf_instrb p = true /\ parse_all (encode_prog p) = Ok p.
Proof. vm_compute. auto. Qed.

Print Assumptions C14_int_roundtrip.
Print Assumptions C14_sym_roundtrip.
Print Assumptions C14_instr_roundtrip.
Print Assumptions C14_prog_roundtrip.
Print Assumptions C14_disasm_lists_same.
Print Assumptions C14_encoders_agree.
Print Assumptions C14_opcode_tables_inverse.
