(* C01 (engine level) — Every rendered page fits the configured output size.

   Full statement: when an output size limit is configured (c_out c > 0), whatever the engine
   hands to the client — for every application, configuration, snapshot, input history, fuel —
   is at most that many bytes long; when the content cannot be made to fit, Flush fails with an
   error and writes NOTHING rather than an oversized or shortened page.

   What is proved here, on top of the page-level theorems of C01page.v:

   * the page invariant  PgInv c v  ("the main VM's page carries a sizer exactly when an output
     size is configured, and its size is the configured one") is established by new_engine for
     every configuration and snapshot and preserved by every VM handler, by run (any fuel, code and
     resource: no step changes the sizer's output size, SizeProofs.run_out), by Page.Render (which returns the page it mutated), by
     Vm.Render (including the BrowseError path that runs MOVE _catch and renders a second time),
     by runFirst (which runs on a private page WITHOUT sizer and restores the main page), init,
     Exec, Flush and both request drivers;
   * C01_flush_fits_mod32: under PgInv, for every engine, fuel, resource and WHATEVER the status
     Flush reports, uint32(len(out)) <= c_out — unconditionally, in the arithmetic the code uses
     (Sizer.Check and Flush compare uint32(len(s)));
   * C01_flush_fits (= the design's flush_fits, PARTIAL under the named decidable guard
     len out < 2^32): len out <= c_out.  The full-strength absolute bound is FALSE of the model
     (and of the code) for outputs of 4 GiB and more: C01_check_refuted_uint32wrap exhibits a
     string of 2^32+1 bytes that Sizer.Check accepts at size 30.  The witness cannot be a
     vm_compute run (the string has 2^32+1 elements); it is proved symbolically, for the check
     itself;
   * C01_every_response_fits(_mod32): by induction over histories, every response of the
     long-lived driver (from new_engine c None [] []) and of the persisted driver (from an empty
     store; a new engine per request re-establishes the invariant, whatever the store holds)
     fits.  Histories carry their own fuel per request.  Responses of requests that ran out of
     fuel or panicked in Exec have an empty output (C01_no_flush_after_fuel_or_panic);
   * C01_error_instead_of_truncation: Flush is all or nothing.  Its output is [] or the WHOLE
     rendered page followed by the exit value (C01_flush_all_or_nothing); a render error without
     exit value, and a page + exit value exceeding the size, both write nothing
     (C01_render_error_writes_nothing, C01_over_writes_nothing).  For every engine satisfying
     ExitInv (established by new_engine, preserved by Exec/Flush/request_long:
     C01_exit_invariant) an error from Flush comes with an EMPTY output, except in one
     situation (B): the engine was exiting, page ++ exit was written in full and the final reset
     failed — which happens exactly when the session has no position left (empty path, error
     class EGen).  That situation IS reachable in the model, for applications that store code
     under the empty symbol (C01_reset_failure_reachable); the output is still complete and
     within the size;
   * C01_exit_value_checked (regression guard for e29f6bb "Flush appended the exit value after
     the output size check"): with a non-empty exit value whatever is written is page ++ exit and
     page and exit value TOGETHER passed the check; C01_exit_value_unchecked_would_exceed shows the
     corpus case exit-overflow where page ++ exit is 53 bytes at size 30 and Flush answers an
     error with empty output instead.

   Not proved: that situation B needs code under the empty symbol (argued in notes/integration_size.md,
   section 3: without such code the fetch after `_` fails and the engine is not exiting). *)
From Coq Require Import Lia.
From Vise Require Import Bytes Errors Consts Codec CacheModel StateModel NavModel RenderModel VmModel EngineModel
  RenderProofs SizeProofs.
Local Open Scope N_scope.

Theorem C01_page_invariant_meaning : forall c v,
  PgInv c v <->
  (0 < c_out c -> exists z, p_sizer (v_pg v) = Some z /\ z_out z = c_out c)
  /\ (c_out c = 0 -> p_sizer (v_pg v) = None).
Proof. exact PgInv_spec. Qed.

Theorem C01_page_invariant_established : forall c snap w lg, PgInv c (e_v (new_engine c snap w lg)).
Proof. exact new_engine_inv. Qed.

Theorem C01_page_render_keeps_size : forall ca gt gm pg sym idx,
  page_out (snd (page_render ca gt gm pg sym idx)) = page_out pg.
Proof. exact page_render_out. Qed.

Theorem C01_instruction_keeps_size : forall rs sep lang i b v,
  vout (fst (fst (exec_instr rs sep lang i b v))) = vout v.
Proof. exact exec_instr_out. Qed.

Theorem C01_run_keeps_size : forall fuel rs sep lang b v,
  vout (fst (fst (run fuel rs sep lang b v))) = vout v.
Proof. exact run_out. Qed.

Theorem C01_vm_render_keeps_size : forall fuel rs sep lang v,
  vout (fst (vm_render fuel rs sep lang v)) = vout v.
Proof. exact vm_render_out. Qed.

Theorem C01_run_first_restores_page : forall fuel c lang e,
  v_pg (e_v (fst (fst (run_first fuel c lang e)))) = v_pg (e_v e).
Proof. intros fuel c lang e. apply run_first_spec. Qed.

Theorem C01_page_invariant_preserved : forall fuel rs c e input,
  PgInv c (e_v e) ->
  PgInv c (e_v (fst (fst (eng_init fuel rs c e input))))
  /\ PgInv c (e_v (fst (fst (eng_exec fuel rs c e input))))
  /\ PgInv c (e_v (fst (fst (eng_flush fuel rs c e))))
  /\ PgInv c (e_v (fst (request_long fuel rs c e input))).
Proof.
  intros fuel rs c e input H.
  repeat split; (eapply keeps_inv; [|exact H]);
    [apply eng_init_keeps|apply eng_exec_keeps|apply eng_flush_keeps|apply request_long_keeps].
Qed.

Theorem C01_flush_fits_mod32 : forall fuel rs c e e' out f,
  PgInv c (e_v e) -> 0 < c_out c ->
  eng_flush fuel rs c e = (e', out, f) -> w32 (len out) <= c_out c.
Proof. exact eng_flush_fits32. Qed.

Theorem C01_flush_fits : forall fuel rs c e e' out f,
  PgInv c (e_v e) -> 0 < c_out c -> len out < 4294967296 ->
  eng_flush fuel rs c e = (e', out, f) -> len out <= c_out c.
Proof.
  intros fuel rs c e e' out f Hinv Hpos Hlen Hf. rewrite <- (BytesProofs.w32_small (len out)) by exact Hlen.
  eapply eng_flush_fits32; eassumption.
Qed.

Theorem C01_check_refuted_uint32wrap :
  exists s : bytes, 30 < len s /\ snd (sizer_check (new_sizer 30) s) = true.
Proof.
  exists (repeat 0 (N.to_nat 4294967297)).
  assert (Hl : len (repeat 0 (N.to_nat 4294967297)) = 4294967297).
  { unfold len. rewrite repeat_length. apply N2Nat.id. }
  split; [rewrite Hl; reflexivity|].
  unfold sizer_check. rewrite Hl. reflexivity.
Qed.

Theorem C01_every_response_fits_mod32 : forall rs c h r,
  0 < c_out c ->
  In r (long_responses rs c (new_engine c None [] []) h) \/ In r (pers_responses rs c (mkPw None [] [] false) h) ->
  w32 (len (r_out r)) <= c_out c.
Proof. exact every_response_fits32. Qed.

Theorem C01_every_response_fits : forall rs c h r,
  0 < c_out c -> len (r_out r) < 4294967296 ->
  In r (long_responses rs c (new_engine c None [] []) h) \/ In r (pers_responses rs c (mkPw None [] [] false) h) ->
  len (r_out r) <= c_out c.
Proof. exact every_response_fits. Qed.

Theorem C01_every_response_fits_from : forall rs c h r,
  0 < c_out c ->
  (forall e, PgInv c (e_v e) -> In r (long_responses rs c e h) -> w32 (len (r_out r)) <= c_out c)
  /\ (forall p, In r (pers_responses rs c p h) -> w32 (len (r_out r)) <= c_out c).
Proof. exact every_response_fits_from. Qed.

Theorem C01_no_flush_after_fuel_or_panic : forall fuel rs c e input,
  (r_exec (snd (request_long fuel rs c e input)) = SFuel
   \/ exists n, r_exec (snd (request_long fuel rs c e input)) = SPanic n) ->
  r_out (snd (request_long fuel rs c e input)) = [].
Proof.
  intros fuel rs c e input. unfold request_long. destruct (eng_exec fuel rs c e input) as [[e1 cont] s].
  destruct s; try reflexivity; destruct (eng_flush fuel rs c e1) as [[e2 out] f]; cbn [snd r_exec];
    intros [H|[n H]]; discriminate H.
Qed.

Theorem C01_flush_all_or_nothing : forall fuel rs c e e' out f,
  eng_flush fuel rs c e = (e', out, f) ->
  let vr := vm_render fuel rs (c_sep c) (s_lang (v_st (e_v e))) (e_v e) in
  (out = [] /\ (forall er, f = FErr er -> e_execd e = false \/ flush_over c (e_exit e) (snd vr) = true
                                          \/ (snd vr = RRErr er /\ e_exit e = [])))
  \/ (e_execd e = true /\ flush_over c (e_exit e) (snd vr) = false
      /\ out = flush_page (snd vr) ++ e_exit e
      /\ ((exists page, snd vr = RROk page) \/ (exists er, snd vr = RRErr er /\ e_exit e <> []))
      /\ f = (if e_exiting e then f_of_stat (snd (eng_reset_inner (fst vr)))
              else match snd vr with RRErr er => FErr er | _ => FOk end)).
Proof. exact eng_flush_output. Qed.

Theorem C01_render_error_writes_nothing : forall fuel rs c e v er,
  e_execd e = true -> e_exit e = [] ->
  vm_render fuel rs (c_sep c) (s_lang (v_st (e_v e))) (e_v e) = (v, RRErr er) ->
  eng_flush fuel rs c e = (eset_v e v, [], FErr er).
Proof.
  intros fuel rs c e v er Hx He Hv. rewrite eng_flush_eq. cbv zeta. rewrite Hx, Hv, He. unfold flush_over.
  (* no exit value: nothing to check *)
  change (0 <? len (@nil N)) with false. rewrite andb_false_r. reflexivity.
Qed.

Theorem C01_over_writes_nothing : forall fuel rs c e,
  e_execd e = true ->
  (forall n, snd (vm_render fuel rs (c_sep c) (s_lang (v_st (e_v e))) (e_v e)) <> RRPanic n) ->
  snd (vm_render fuel rs (c_sep c) (s_lang (v_st (e_v e))) (e_v e)) <> RRFuel ->
  flush_over c (e_exit e) (snd (vm_render fuel rs (c_sep c) (s_lang (v_st (e_v e))) (e_v e))) = true ->
  snd (fst (eng_flush fuel rs c e)) = [] /\ snd (eng_flush fuel rs c e) = FErr EGen.
Proof.
  intros fuel rs c e Hx. rewrite eng_flush_eq. cbv zeta. rewrite Hx. cbn [negb].
  destruct (snd (vm_render fuel rs (c_sep c) (s_lang (v_st (e_v e))) (e_v e))) as [o|er|n|]; intros Hnp Hnf Hover;
    [rewrite Hover; split; reflexivity..|destruct (Hnp n eq_refl)|destruct (Hnf eq_refl)].
Qed.

Theorem C01_exit_invariant : forall fuel rs c e input,
  (forall snap w lg, ExitInv (new_engine c snap w lg))
  /\ (ExitInv e -> ExitInv (fst (fst (eng_exec fuel rs c e input)))
                   /\ ExitInv (fst (fst (eng_flush fuel rs c e)))
                   /\ ExitInv (fst (request_long fuel rs c e input))).
Proof.
  intros fuel rs c e input. split; [exact (new_engine_exitinv c)|]. intros H.
  repeat split; (eapply keeps_exit; [|exact H]);
    [apply eng_exec_keeps|apply eng_flush_keeps|apply request_long_keeps].
Qed.

Theorem C01_reachable_engines : forall rs c e, long_reach rs c e -> PgInv c (e_v e) /\ ExitInv e.
Proof.
  induction 1 as [snap w lg|e fuel input _ [IH1 IH2]]; [split; [apply new_engine_inv|apply new_engine_exitinv]|].
  pose proof (request_long_keeps fuel rs c e input) as Hk. split; [eapply keeps_inv|eapply keeps_exit]; eassumption.
Qed.

Theorem C01_error_instead_of_truncation : forall fuel rs c e e' out er,
  ExitInv e ->
  eng_flush fuel rs c e = (e', out, FErr er) ->
  let vr := vm_render fuel rs (c_sep c) (s_lang (v_st (e_v e))) (e_v e) in
  out = []
  \/ (e_exiting e = true /\ er = EGen /\ s_path (v_st (fst vr)) = []
      /\ flush_over c (e_exit e) (snd vr) = false /\ out = flush_page (snd vr) ++ e_exit e).
Proof. exact eng_flush_err_empty. Qed.

(* without the invariant there is one more situation (the render failed, an exit value exists,
   the engine is not exiting: the exit value alone is written) *)
Theorem C01_error_instead_of_truncation_any_engine : forall fuel rs c e e' out er,
  eng_flush fuel rs c e = (e', out, FErr er) ->
  let vr := vm_render fuel rs (c_sep c) (s_lang (v_st (e_v e))) (e_v e) in
  out = []
  \/ (e_exiting e = false /\ snd vr = RRErr er /\ e_exit e <> [] /\ out = e_exit e)
  \/ (e_exiting e = true /\ er = EGen /\ s_path (v_st (fst vr)) = []
      /\ flush_over c (e_exit e) (snd vr) = false /\ out = flush_page (snd vr) ++ e_exit e).
Proof. exact eng_flush_err_cases. Qed.

Theorem C01_reset_fails_only_nowhere : forall v,
  snd (eng_reset_inner v) = SOk
  \/ (snd (eng_reset_inner v) = SErr EGen None /\ s_path (v_st v) = []
      /\ v_st (fst (eng_reset_inner v)) = v_st v /\ v_ca (fst (eng_reset_inner v)) = v_ca v).
Proof. exact eng_reset_inner_stat. Qed.

Theorem C01_error_instead_of_truncation_histories : forall rs c h r er,
  In r (long_responses rs c (new_engine c None [] []) h) \/ In r (pers_responses rs c (mkPw None [] [] false) h) ->
  r_flush r = FErr er -> r_out r = [] \/ er = EGen.
Proof.
  intros rs c h r er.
  destruct (responses_all rs c ExitInv (fun r => forall er, r_flush r = FErr er -> r_out r = [] \/ er = EGen)
              (new_engine_exitinv c)) with (h := h) (r := r) as [Hl Hp].
  { intros fuel e input Hi. split; [exact (keeps_exit _ _ (request_long_keeps fuel rs c e input) Hi)|].
    intros er' Hf. destruct (request_long_err fuel rs c e input er' Hi Hf) as [H|[H _]]; auto. }
  intros [Hin|Hin]; [exact (Hl _ (new_engine_exitinv c None [] []) Hin er)|exact (Hp _ Hin er)].
Qed.

Theorem C01_exit_value_checked : forall fuel rs c e e' out f,
  0 < c_out c -> e_exit e <> [] -> out <> [] ->
  eng_flush fuel rs c e = (e', out, f) ->
  let vr := vm_render fuel rs (c_sep c) (s_lang (v_st (e_v e))) (e_v e) in
  out = flush_page (snd vr) ++ e_exit e
  /\ ((exists page, snd vr = RROk page) \/ (exists er, snd vr = RRErr er))
  /\ w32 (len (flush_page (snd vr)) + len (e_exit e)) <= c_out c.
Proof.
  intros fuel rs c e e' out f Hpos Hne Hout Hf. apply eng_flush_output in Hf. cbv zeta in *.
  destruct Hf as [[-> _]|[_ [Hover [-> [Hr _]]]]]; [congruence|].
  split; [reflexivity|]. split.
  - destruct Hr as [[page H]|[er [H _]]]; eauto.
  - rewrite N.add_comm. apply flush_over_false; assumption.
Qed.

(* observation (not part of C01): a long-lived engine never drops an exit value that does not
   fit — init's re-Flush fails on every later request *)
Theorem C01_note_exit_overflow_sticks : forall fuel rs c e input,
  e_execd e = true -> e_exiting e = false -> getf (v_st (e_v e)) Consts.FLAG_DIRTY = false ->
  0 < c_out c -> 0 < len (e_exit e) -> c_out c < w32 (len (e_exit e)) ->
  exists cont, request_long fuel rs c e input = (e, mkResp cont (SErr EGen None) [] (FErr EGen)).
Proof. exact exit_overflow_sticks. Qed.

(* menu-sink at size 30: five entries paginated over three pages with browse labels; every
   response fits, browsing past the last page answers an error with empty output; both drivers *)
Example C01_nonvacuous_menu_sink :
  let rs := app_rsrc wit_menu_sink in
  let long := long_responses rs wit_cfg30 (new_engine wit_cfg30 None [] []) wit_menu_sink_inputs in
  let pers := pers_responses rs wit_cfg30 (mkPw None [] [] false) wit_menu_sink_inputs in
  PgInv wit_cfg30 (e_v (new_engine wit_cfg30 None [] [])) /\ 0 < c_out wit_cfg30
  /\ resp_lens long = [29; 24; 17; 24; 17; 0; 0] /\ resp_lens pers = resp_lens long
  /\ all_fit wit_cfg30 long = true /\ all_fit wit_cfg30 pers = true
  /\ option_map r_out (nth_error long 0) = Some (s2b "root" ++ [nl] ++ s2b "1:aaa" ++ [nl] ++ s2b "2:bbb" ++ [nl] ++ s2b "3:ccc" ++ [nl] ++ s2b "11:nxt")
  /\ option_map r_out (nth_error long 1) = Some (s2b "root" ++ [nl] ++ s2b "4:ddd" ++ [nl] ++ s2b "11:nxt" ++ [nl] ++ s2b "22:prv")
  /\ resp_flush long = [FOk; FOk; FOk; FOk; FOk; FErr EGen; FErr EGen].
Proof. vm_compute. repeat split; reflexivity. Qed.

Example C01_nonvacuous_exit_value :
  let e1 := wit_exit_engine (s2b " see you") in
  e_exit e1 = s2b " see you" /\ e_exiting e1 = true /\ ExitInv e1 /\ PgInv wit_cfg30 (e_v e1)
  /\ snd (fst (eng_flush 3000 (app_rsrc (wit_exit_app (s2b " see you"))) wit_cfg30 e1)) = s2b "bye see you"
  /\ snd (eng_flush 3000 (app_rsrc (wit_exit_app (s2b " see you"))) wit_cfg30 e1) = FOk.
Proof. vm_compute. repeat split; try reflexivity. right. left. reflexivity. Qed.

(* regression guard e29f6bb, refutation style: in corpus case exit-overflow the page is 3 bytes,
   the exit value 50; appending without the check would deliver 53 bytes at size 30; Flush
   answers an error and writes nothing.  The long-lived engine then refuses the later requests. *)
Example C01_exit_value_unchecked_would_exceed :
  let rs := app_rsrc (wit_exit_app (rep 98 50)) in
  let e1 := wit_exit_engine (rep 98 50) in
  let page := flush_page (snd (vm_render 3000 rs (c_sep wit_cfg30) (s_lang (v_st (e_v e1))) (e_v e1))) in
  page = s2b "bye" /\ len (e_exit e1) = 50 /\ len (page ++ e_exit e1) = 53 /\ c_out wit_cfg30 = 30
  /\ snd (fst (eng_flush 3000 rs wit_cfg30 e1)) = []
  /\ snd (eng_flush 3000 rs wit_cfg30 e1) = FErr EGen
  /\ map (fun r => (r_exec r, r_out r, r_flush r))
         (long_responses rs wit_cfg30 (new_engine wit_cfg30 None [] []) wit_exit_inputs)
     = [(SOk, s2b "root", FOk); (SOk, [], FErr EGen);
        (SErr EGen None, [], FErr EGen); (SErr EGen None, [], FErr EGen)].
Proof. vm_compute. repeat split; reflexivity. Qed.

(* situation B is reachable in the model: code under the empty symbol; the exit value (3 bytes)
   is written in full, the final reset reports an error; same in both drivers *)
Example C01_reset_failure_reachable :
  let rs := app_rsrc wit_nowhere in
  let h := wit_hist [""; "1"]%string in
  map (fun r => (r_exec r, r_out r, r_flush r)) (long_responses rs wit_cfg30 (new_engine wit_cfg30 None [] []) h)
    = [(SOk, s2b "root", FOk); (SOk, s2b "bye", FErr EGen)]
  /\ map (fun r => (r_exec r, r_out r, r_flush r)) (pers_responses rs wit_cfg30 (mkPw None [] [] false) h)
    = [(SOk, s2b "root", FOk); (SOk, s2b "bye", FErr EGen)].
Proof. vm_compute. split; reflexivity. Qed.

Print Assumptions C01_page_invariant_meaning.
Print Assumptions C01_page_invariant_established.
Print Assumptions C01_page_render_keeps_size.
Print Assumptions C01_instruction_keeps_size.
Print Assumptions C01_run_keeps_size.
Print Assumptions C01_vm_render_keeps_size.
Print Assumptions C01_run_first_restores_page.
Print Assumptions C01_page_invariant_preserved.
Print Assumptions C01_flush_fits_mod32.
Print Assumptions C01_flush_fits.
Print Assumptions C01_check_refuted_uint32wrap.
Print Assumptions C01_every_response_fits_mod32.
Print Assumptions C01_every_response_fits.
Print Assumptions C01_every_response_fits_from.
Print Assumptions C01_no_flush_after_fuel_or_panic.
Print Assumptions C01_flush_all_or_nothing.
Print Assumptions C01_render_error_writes_nothing.
Print Assumptions C01_over_writes_nothing.
Print Assumptions C01_exit_invariant.
Print Assumptions C01_reachable_engines.
Print Assumptions C01_error_instead_of_truncation.
Print Assumptions C01_error_instead_of_truncation_any_engine.
Print Assumptions C01_reset_fails_only_nowhere.
Print Assumptions C01_error_instead_of_truncation_histories.
Print Assumptions C01_exit_value_checked.
Print Assumptions C01_note_exit_overflow_sticks.
Print Assumptions C01_nonvacuous_menu_sink.
Print Assumptions C01_nonvacuous_exit_value.
Print Assumptions C01_exit_value_unchecked_would_exceed.
Print Assumptions C01_reset_failure_reachable.
