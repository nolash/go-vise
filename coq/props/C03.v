(* C03 — Client input is routed by the first matching INCMP, once.

   Full statement (DESIGN section 6): after a HALT, the client's input is compared with the following
   INCMP instructions in order; the first one whose selector equals the input (or is the wildcard)
   decides the move, and no other INCMP before the next HALT causes a second move.  If none matches,
   the session goes to the catch node with an invalid-input message showing that input, and a
   "previous" request on the first page counts as no match.

   Setting of every theorem below: ANY resource rs, separator, context language, fuel, machine v
   with `routing_start input v` (TERMINATE clear, the input is set, no match so far — in particular
   WAIT set, i.e. execution resumes after a HALT: the prelude of Run then clears INMATCH whatever
   HALT left; READIN may be anything: C03_stale_readin_irrelevant — and the 8 built-in flag bits
   exist), ANY block l of well-formed INCMP lines (target, selector) followed by ANY code r.
   Conclusions are equalities of `run` results, "or the run is out of fuel" (out_of_fuel).
   scan_nomatch / scan_skip / at_match / fire_vm / noprev_vm are the explicit machines
   (RoutingProofs.v): every line passed without firing contributes the prelude's flag changes and the
   ghost events EvInstr INCMP, EvInCmp d s false (block_log), nothing else.

   The "once" half is FALSE of the code as stated (finding K-C03-dupsel, pinned by
   vm/runner_test.go:TestRunReturn): a later INCMP whose selector literally equals the input fires
   again.  C03_at_most_one_move_partial holds under the decidable guard `distinct_after l2 input`
   (no later line of the block repeats the input; wildcards are harmless), and
   C03_at_most_one_move_refuted_dupsel is the witness, side by side.

   The "invalid-input message showing that input" half is FALSE too once the resumed code does not
   begin with an INCMP (finding K-C03-stale-readin): READIN survives the HALT, and runDeadCheck then acts
   on the PREVIOUS input's comparison.  C03_invalid_input_is_current_partial holds under the decidable
   guard `starts_with_incmp` (the resumed code starts with an INCMP block), and C03_refuted_stale_readin
   is the witness.  The two facts about READIN stand together: an INCMP sets READIN whatever it was
   (C03_stale_readin_irrelevant is about an INCMP, the case inside the guard); only code that reaches
   runDeadCheck without having executed one sees the value the last HALT left. *)
From Vise Require Import Bytes Errors Consts EngConsts Codec CacheModel StateModel NavModel NavSpec RenderModel
  VmModel EngineModel CodecProofs NavProofs VmProofs RoutingProofs.
Local Open Scope N_scope.

Theorem C03_run_unfold : forall fuel rs sep lang i rest v,
  wf_instr i ->
  run (S fuel) rs sep lang (encode i ++ rest) v =
  if getf (v_st v) FLAG_TERMINATE then (v, [], SOk) else
  let h := exec_instr rs sep (fst (run_prelude lang v)) i rest
             (vlog (snd (run_prelude lang v)) (EvInstr (opcode_of i))) in
  if is_halt i then h else run_post fuel rs sep (fst (run_prelude lang v)) h.
Proof. exact run_unfold. Qed.

Theorem C03_resume_is_start : forall input v,
  getf (v_st v) FLAG_TERMINATE = false -> s_input (v_st v) = Some input -> getf (v_st v) FLAG_WAIT = true ->
  flags_ok (v_st v) -> routing_start input v.
Proof. exact resume_is_start. Qed.

(* READIN as the last HALT left it does not matter to an INCMP once INMATCH is clear *)
Theorem C03_stale_readin_irrelevant : forall rs sep d s b v,
  getf (v_st v) FLAG_INMATCH = false ->
  run_incmp rs sep d s b v = run_incmp rs sep d s b (vset_st v (setf (v_st v) FLAG_READIN)).
Proof.
  intros rs sep d s b v Hm. unfold run_incmp. cbn [v_st vset_st]. rewrite getf_setf_other by discriminate. rewrite Hm.
  cbn [andb]. rewrite setf_idem. reflexivity.
Qed.

Theorem C03_no_match_goes_to_catch : forall fuel rs sep lang input ds l v,
  routing_start input v -> wf_block (ds :: l) -> no_match input (ds :: l) = true ->
  let lv := scan_nomatch (lang, v) (ds :: l) in
  (* nothing moved; no line fired *)
  pos_of (v_st (snd lv)) = pos_of (v_st v) /\ v_ca (snd lv) = v_ca v
  /\ v_log (snd lv) = block_log (ds :: l) (v_log v)
  (* at a node other than _catch: MOVE _catch runs next, on a page carrying the invalid-input error *)
  /\ (where_sym (v_st v) <> [] -> where_sym (v_st v) <> catch_sym ->
      out_of_fuel (run fuel rs sep lang (incmp_block (ds :: l)) v) \/
      exists f, (f < fuel)%nat /\
        run fuel rs sep lang (incmp_block (ds :: l)) v =
        run f rs sep (fst lv) move_catch_code
            (vset_pg (snd lv) (page_with_error (v_pg (snd lv)) (Some (msg_invalid_input (Some input))))))
  (* at _catch itself (or nowhere): the run fails *)
  /\ (where_sym (v_st v) = [] \/ where_sym (v_st v) = catch_sym ->
      out_of_fuel (run fuel rs sep lang (incmp_block (ds :: l)) v) \/
      run fuel rs sep lang (incmp_block (ds :: l)) v = (snd lv, [], SErr EGen None)).
Proof.
  intros fuel rs sep lang input ds l v Hs Hw Hn lv.
  destruct (scan_nomatch_run rs sep input l ds fuel lang [] v Hs Hw Hn) as (Run & Est & Hc & Hl).
  fold lv in Run, Est, Hc, Hl. rewrite app_nil_r in Run.
  destruct (start_nomatch input v Hs) as ((_ & Ht & Hi) & _ & Hr & _). rewrite <- Est in Ht, Hi, Hr.
  assert (Hp : pos_of (v_st (snd lv)) = pos_of (v_st v)) by (rewrite Est; apply pre_state_pos).
  pose proof (pos_where _ _ Hp) as Hwh.
  split; [exact Hp|]. split; [exact Hc|]. split; [exact Hl|]. split.
  - intros H1 H2. destruct Run as [Run|(f & Hf & Run)]; [left; exact Run|]. right. exists f. split; [exact Hf|].
    rewrite Run, run_post_dead_catch, Hi by (rewrite ?Hwh; assumption). reflexivity.
  - intros H1. destruct Run as [Run|(f & Hf & Run)]; [left; exact Run|]. right.
    rewrite Run. apply run_post_dead_nowhere; try assumption. rewrite Hwh. exact H1.
Qed.

Theorem C03_no_match_continues : forall fuel rs sep lang input ds l r v,
  routing_start input v -> wf_block (ds :: l) -> no_match input (ds :: l) = true -> r <> [] ->
  let lv := scan_nomatch (lang, v) (ds :: l) in
  (out_of_fuel (run fuel rs sep lang (incmp_block (ds :: l) ++ r) v) \/
   exists f, (f < fuel)%nat /\ run fuel rs sep lang (incmp_block (ds :: l) ++ r) v = run f rs sep (fst lv) r (snd lv))
  /\ pos_of (v_st (snd lv)) = pos_of (v_st v) /\ v_ca (snd lv) = v_ca v
  /\ v_log (snd lv) = block_log (ds :: l) (v_log v)
  /\ getf (v_st (snd lv)) FLAG_READIN = true /\ getf (v_st (snd lv)) FLAG_INMATCH = false
  /\ getf (v_st (snd lv)) FLAG_WAIT = false.
Proof.
  intros fuel rs sep lang input ds l r v Hs Hw Hn Hr lv.
  destruct (scan_nomatch_run rs sep input l ds fuel lang r v Hs Hw Hn) as (Run & Est & Hc & Hl).
  fold lv in Run, Est, Hc, Hl.
  (* WAIT is clear in the middle of a run (the first part of scanning) *)
  destruct (start_nomatch input v Hs) as (((_ & Hwt & _) & _) & Hm & Hrd & _). rewrite <- Est in Hwt, Hm, Hrd.
  split; [|split; [rewrite Est; apply pre_state_pos|auto 10]].
  destruct Run as [Run|(f & Hf & Run)]; [left; exact Run|]. right. exists f. split; [exact Hf|].
  rewrite Run. apply run_post_ok_nonempty, Hr.
Qed.

Theorem C03_first_match_fires : forall fuel rs sep lang input l1 d s l2 r v st' ca' nsym code,
  routing_start input v -> wf_block l1 -> wf_sym d -> wf_sym s ->
  no_match input l1 = true -> sel_match input s = true ->
  let vI := snd (at_match lang v l1) in
  (* the move: applyTarget on the position the block was entered with, INMATCH set, READIN clear *)
  apply_target d (match_st (v_st vI)) (v_ca vI) = (st', ca', nsym, SOk) ->
  rs_code rs nsym = Ok code ->
  (out_of_fuel (run fuel rs sep lang (incmp_block (l1 ++ (d, s) :: l2) ++ r) v) \/
   exists f, (f < fuel)%nat /\
     run fuel rs sep lang (incmp_block (l1 ++ (d, s) :: l2) ++ r) v =
     (* the target's code is appended after the rest of the block and r *)
     run_post f rs sep (fst (at_match lang v l1))
       (fire_vm rs sep vI d s st' ca' nsym, (incmp_block l2 ++ r) ++ code, SOk))
  /\ pos_of (match_st (v_st vI)) = pos_of (v_st v) /\ v_ca vI = v_ca v
  /\ getf (match_st (v_st vI)) FLAG_INMATCH = true /\ getf (match_st (v_st vI)) FLAG_READIN = false
  /\ v_st (fire_vm rs sep vI d s st' ca' nsym) = st' /\ v_ca (fire_vm rs sep vI d s st' ca' nsym) = ca'
  /\ v_log (fire_vm rs sep vI d s st' ca' nsym) =
     (if rs_observed rs then [EvCode nsym] else []) ++
     EvMove 1 d nsym :: EvInCmp d s true :: EvInstr op_INCMP :: block_log l1 (v_log v).
Proof.
  intros fuel rs sep lang input l1 d s l2 r v st' ca' nsym code Hs Hw Hd Hsel Hn Hm vI Ha Hc.
  destruct (at_match_facts lang v l1 input Hs) as (Hp & Hca & Hlog & _ & Hf & _). fold vI in Hp, Hca, Hlog, Hf.
  destruct (match_st_flags _ Hf) as (M1 & M2 & _).
  split; [|rewrite match_st_pos, fire_vm_eq, Hlog; auto 10].
  destruct (first_match_general fuel rs sep lang input l1 d s l2 r v Hs Hw Hd Hsel Hn Hm) as [H|(f & Hf' & H)]; [left; exact H|].
  right. exists f. split; [exact Hf'|]. rewrite H. fold vI. unfold match_outcome. rewrite Ha, Hc. reflexivity.
Qed.

(* whatever applyTarget and the code fetch answer: the handler entered is the first match's *)
Theorem C03_first_match_general : forall fuel rs sep lang input l1 d s l2 r v,
  routing_start input v -> wf_block l1 -> wf_sym d -> wf_sym s ->
  no_match input l1 = true -> sel_match input s = true ->
  out_of_fuel (run fuel rs sep lang (incmp_block (l1 ++ (d, s) :: l2) ++ r) v) \/
  exists f, (f < fuel)%nat /\
    run fuel rs sep lang (incmp_block (l1 ++ (d, s) :: l2) ++ r) v =
    run_post f rs sep (fst (at_match lang v l1))
      (match_outcome rs sep d s (incmp_block l2 ++ r) (snd (at_match lang v l1))).
Proof. exact first_match_general. Qed.

Theorem C03_prev_on_first_page_is_no_match : forall fuel rs sep lang input l1 s l2 r v,
  routing_start input v -> wf_block l1 -> wf_sym s -> wf_block l2 ->
  no_match input l1 = true -> sel_match input s = true ->
  s_path (v_st v) <> [] -> s_idx (v_st v) = 0 ->
  let vI := snd (at_match lang v l1) in
  let vN := noprev_vm vI t_prev s (match_st (v_st vI)) (v_ca vI) in
  let lv := scan_skip (fst (at_match lang v l1), vN) l2 in
  (* every remaining line of the block is passed over, whatever its selector *)
  (out_of_fuel (run fuel rs sep lang (incmp_block (l1 ++ (t_prev, s) :: l2) ++ r) v) \/
   exists f, (f < fuel)%nat /\
     run fuel rs sep lang (incmp_block (l1 ++ (t_prev, s) :: l2) ++ r) v =
     run_post f rs sep (fst lv) (snd lv, r, SOk))
  (* nothing moved, no line fired, READIN is set again (and INMATCH stays set) *)
  /\ pos_of (v_st (snd lv)) = pos_of (v_st v) /\ v_ca (snd lv) = v_ca v
  /\ v_log (snd lv) = block_log (l1 ++ (t_prev, s) :: l2) (v_log v)
  /\ getf (v_st (snd lv)) FLAG_READIN = true /\ getf (v_st (snd lv)) FLAG_INMATCH = true
  /\ getf (v_st (snd lv)) FLAG_TERMINATE = false /\ s_input (v_st (snd lv)) = Some input.
Proof. exact prev_on_first_page_lemma. Qed.

(* ... so a block ending there takes the catch path exactly as if nothing had matched *)
Theorem C03_prev_on_first_page_goes_to_catch : forall fuel rs sep lang input l1 s l2 v,
  routing_start input v -> wf_block l1 -> wf_sym s -> wf_block l2 ->
  no_match input l1 = true -> sel_match input s = true ->
  where_sym (v_st v) <> [] -> s_idx (v_st v) = 0 -> where_sym (v_st v) <> catch_sym ->
  let vI := snd (at_match lang v l1) in
  let vN := noprev_vm vI t_prev s (match_st (v_st vI)) (v_ca vI) in
  let lv := scan_skip (fst (at_match lang v l1), vN) l2 in
  out_of_fuel (run fuel rs sep lang (incmp_block (l1 ++ (t_prev, s) :: l2)) v) \/
  exists f, (f < fuel)%nat /\
    run fuel rs sep lang (incmp_block (l1 ++ (t_prev, s) :: l2)) v =
    run f rs sep (fst lv) move_catch_code
        (vset_pg (snd lv) (page_with_error (v_pg (snd lv)) (Some (msg_invalid_input (Some input))))).
Proof. exact prev_on_first_page_catch_lemma. Qed.

(* Full statement (false): the theorem below without `distinct_after l2 input = true`. *)
Theorem C03_at_most_one_move_partial : forall fuel rs sep lang input l1 d s l2 r v st' ca' nsym code,
  routing_start input v -> wf_block l1 -> wf_sym d -> wf_sym s -> wf_block l2 ->
  no_match input l1 = true -> sel_match input s = true ->
  distinct_after l2 input = true ->
  let vI := snd (at_match lang v l1) in
  apply_target d (match_st (v_st vI)) (v_ca vI) = (st', ca', nsym, SOk) ->
  rs_code rs nsym = Ok code ->
  let vF := fire_vm rs sep vI d s st' ca' nsym in
  let lv := scan_skip (fst (at_match lang v l1), vF) l2 in
  (* the run arrives at r ++ (code of the target) without any line of l2 firing *)
  (out_of_fuel (run fuel rs sep lang (incmp_block (l1 ++ (d, s) :: l2) ++ r) v) \/
   exists f, (f < fuel)%nat /\
     run fuel rs sep lang (incmp_block (l1 ++ (d, s) :: l2) ++ r) v =
     run_post f rs sep (fst lv) (snd lv, r ++ code, SOk))
  /\ pos_of (v_st (snd lv)) = pos_of st' /\ v_ca (snd lv) = ca'
  /\ v_log (snd lv) = block_log l2 (v_log vF)
  (* exactly one move and one firing INCMP were added to the log *)
  /\ log_moves (v_log (snd lv)) = log_moves (v_log v) ++ [d]
  /\ log_fired (v_log (snd lv)) = log_fired (v_log v) ++ [(d, s)].
Proof. exact at_most_one_move_partial_lemma. Qed.

Theorem C03_at_most_one_move_refuted_dupsel :
  exists fuel rs sep lang input l1 d s l2 r v st' ca' nsym code,
    routing_start input v /\ getf (v_st v) FLAG_WAIT = true
    /\ wf_block l1 /\ wf_sym d /\ wf_sym s /\ wf_block l2
    /\ no_match input l1 = true /\ sel_match input s = true
    /\ apply_target d (match_st (v_st (snd (at_match lang v l1)))) (v_ca (snd (at_match lang v l1))) = (st', ca', nsym, SOk)
    /\ rs_code rs nsym = Ok code
    /\ distinct_after l2 input = false
    /\ (let '(v', b, st) := run fuel rs sep lang (incmp_block (l1 ++ (d, s) :: l2) ++ r) v in
        st = SOk /\ s_path (v_st v) = [s2b "root"]
        /\ s_path (v_st v') = [s2b "root"; s2b "foo"; s2b "bar"]
        /\ log_moves (v_log v') = log_moves (v_log v) ++ [s2b "foo"; s2b "bar"]
        /\ log_fired (v_log v') = log_fired (v_log v) ++ [(s2b "foo", s2b "1"); (s2b "bar", s2b "1")]).
Proof.
  exists 10%nat, (app_rsrc ex_app), [], None, (s2b "1"), [], (s2b "foo"), (s2b "1"), [(s2b "bar", s2b "1")], [], (ex_vm 0 (s2b "1")).
  do 4 eexists.
  split; [unfold routing_start, unmatched, flags_ok; vm_compute; repeat split; try reflexivity; try (left; reflexivity); repeat constructor|].
  split; [vm_compute; reflexivity|].
  split; [constructor|].
  assert (W : forall x, x = s2b "foo" \/ x = s2b "bar" \/ x = s2b "1" -> wf_sym x).
  { intros x [->|[->| ->]]; (split; [repeat constructor|vm_compute; split; discriminate]). }
  split; [apply W; auto|]. split; [apply W; auto|].
  split; [constructor; [split; apply W; cbn [fst snd]; auto|constructor]|].
  split; [reflexivity|]. split; [vm_compute; reflexivity|].
  split; [vm_compute; reflexivity|].
  split; [vm_compute; reflexivity|].
  split; [vm_compute; reflexivity|].
  vm_compute. repeat split; reflexivity.
Qed.

(* the wildcard does not match any more once a match was made: wildcards never break the guard
   (and the engine accepts no input "*") *)
Theorem C03_wildcard_after_match_ignored : forall input l,
  input <> star -> Forall (fun ds => snd ds = star) l -> distinct_after l input = true.
Proof.
  intros input l Hne Hl. unfold distinct_after. apply forallb_forall. rewrite Forall_forall in Hl.
  intros ds Hin. rewrite (Hl ds Hin). apply negb_true_iff, BytesProofs.bytes_eqb_neq. congruence.
Qed.
Theorem C03_valid_input_not_wildcard : forall input, valid_input_b input = true -> input <> star.
Proof. intros input H E. subst input. vm_compute in H. discriminate. Qed.

(* Finding K-C03-stale-readin.  Full statement (FALSE): on EVERY resume after HALT with input i and
   pending code b, the session goes to the catch node with the invalid-input message only if i was compared with at least one INCMP
   since the resume and none matched, the message showing THAT input; code that runs out without
   executing an INCMP terminates the session.  READIN survives the HALT, so runDeadCheck can act on the
   PREVIOUS input's comparison.  Partial: guard = the resumed code starts with an INCMP block
   (decidable: starts_with_incmp), for ANY value of READIN and INMATCH left by the HALT. *)
Theorem C03_invalid_input_is_current_partial : forall fuel rs sep lang input ds l v,
  getf (v_st v) FLAG_TERMINATE = false -> s_input (v_st v) = Some input -> getf (v_st v) FLAG_WAIT = true ->
  flags_ok (v_st v) ->
  wf_block (ds :: l) -> no_match input (ds :: l) = true ->
  where_sym (v_st v) <> [] -> where_sym (v_st v) <> catch_sym ->
  starts_with_incmp (incmp_block (ds :: l)) = true /\
  (out_of_fuel (run fuel rs sep lang (incmp_block (ds :: l)) v) \/
   exists f lang1 v1, (f < fuel)%nat /\
     run fuel rs sep lang (incmp_block (ds :: l)) v = run f rs sep lang1 move_catch_code v1
     (* the message shows the input of THIS request *)
     /\ p_err (v_pg v1) = Some (msg_invalid_input (Some input))
     (* which was compared with every line of the block, and nothing moved before MOVE _catch *)
     /\ v_log v1 = block_log (ds :: l) (v_log v)
     /\ log_incmps (v_log v1) = (List.length (ds :: l) + log_incmps (v_log v))%nat
     /\ pos_of (v_st v1) = pos_of (v_st v) /\ v_ca v1 = v_ca v).
Proof.
  intros fuel rs sep lang input ds l v Ht Hi Hw Hf Hwf Hn Hnw Hnc.
  split; [rewrite <- (app_nil_r (incmp_block (ds :: l))); apply incmp_block_starts; exact Hwf|].
  destruct (C03_no_match_goes_to_catch fuel rs sep lang input ds l v (resume_is_start _ _ Ht Hi Hw Hf) Hwf Hn)
    as (Hp & Hc & Hl & Hrun & _).
  destruct (Hrun Hnw Hnc) as [H|(f & Hlt & H)]; [left; exact H|]. right.
  eexists f, _, _. split; [exact Hlt|]. split; [exact H|].
  split; [reflexivity|]. split; [exact Hl|]. split; [cbn [v_log vset_pg]; rewrite Hl; apply block_log_incmps|].
  split; [exact Hp|exact Hc].
Qed.

Theorem C03_starts_with_incmp_block : forall ds l r,
  wf_block (ds :: l) -> starts_with_incmp (incmp_block (ds :: l) ++ r) = true.
Proof. exact incmp_block_starts. Qed.

(* root = HALT; INCMP foo 1, _catch = HALT; MOVE end1, end1 = MOUT bye 0; after "" and "x" the engine
   resumes with "y" on the code MOVE end1 *)
Theorem C03_refuted_stale_readin :
  exists fuel rs sep lang input b v,
    (* a resume after HALT with input "y"; READIN was left set by the previous, unmatched input "x" *)
    getf (v_st v) FLAG_TERMINATE = false /\ s_input (v_st v) = Some input /\ getf (v_st v) FLAG_WAIT = true
    /\ flags_ok (v_st v) /\ getf (v_st v) FLAG_READIN = true
    /\ where_sym (v_st v) = catch_sym /\ s_path (v_st v) = [s2b "root"; s2b "_catch"]
    (* the pending code is MOVE end1: outside the guard *)
    /\ b = encode (IMove (s2b "end1")) /\ starts_with_incmp b = false
    /\ (let '(v', b', st) := run fuel rs sep lang b v in
        (* no INCMP is executed, yet "y" is reported invalid, the session does not terminate and the
           stack has grown by two levels *)
        st = SOk /\ log_incmps (v_log v') = log_incmps (v_log v)
        /\ p_err (v_pg v') = Some (s2b "invalid input: 'y'")
        /\ getf (v_st v') FLAG_TERMINATE = false /\ getf (v_st v') FLAG_READIN = true
        /\ s_path (v_st v') = [s2b "root"; s2b "_catch"; s2b "end1"; s2b "_catch"])
    (* the same machine with READIN clear terminates, as intended *)
    /\ (let '(v', b', st) := run fuel rs sep lang b (vset_st v (resetf (v_st v) FLAG_READIN)) in
        st = SOk /\ p_err (v_pg v') = None /\ getf (v_st v') FLAG_TERMINATE = true
        /\ s_path (v_st v') = [s2b "root"; s2b "_catch"; s2b "end1"]).
Proof.
  exists 50%nat, (app_rsrc stale_app), [], None, (s2b "y"), stale_code, stale_vm.
  vm_compute. repeat split. repeat constructor.
Qed.

(* machine: stopped at root's HALT (path [root], WAIT set), page idx, the client's answer as input *)
Example C03_start_nonvacuous :
  getf (v_st (ex_vm 0 (s2b "x"))) FLAG_TERMINATE = false /\ s_input (v_st (ex_vm 0 (s2b "x"))) = Some (s2b "x")
  /\ getf (v_st (ex_vm 0 (s2b "x"))) FLAG_WAIT = true /\ (8 <= List.length (s_flags (v_st (ex_vm 0 (s2b "x")))))%nat
  /\ s_path (v_st (ex_vm 0 (s2b "x"))) = [s2b "root"].
Proof. vm_compute. repeat split; try reflexivity. repeat constructor. Qed.

(* no match: input "x" against INCMP foo 1; INCMP bar 2 ends at _catch with the error text *)
Example C03_no_match_nonvacuous :
  let l := [(s2b "foo", s2b "1"); (s2b "bar", s2b "2")] in
  no_match (s2b "x") l = true /\
  let '(v', b, st) := run 20 (app_rsrc ex_app) [] None (incmp_block l) (ex_vm 0 (s2b "x")) in
  st = SOk /\ s_path (v_st v') = [s2b "root"; s2b "_catch"]
  /\ p_err (v_pg v') = Some (s2b "invalid input: 'x'")
  /\ log_moves (v_log v') = [s2b "root"; s2b "_catch"] /\ log_fired (v_log v') = [].
Proof. vm_compute. repeat split. Qed.

(* first match: input "2" against INCMP foo 1; INCMP bar 2; INCMP foo * moves to bar only *)
Example C03_first_match_nonvacuous :
  let l1 := [(s2b "foo", s2b "1")] in let l2 := [(s2b "foo", s2b "*")] in
  no_match (s2b "2") l1 = true /\ sel_match (s2b "2") (s2b "2") = true /\ distinct_after l2 (s2b "2") = true /\
  let '(v', b, st) := run 20 (app_rsrc ex_app) [] None (incmp_block (l1 ++ (s2b "bar", s2b "2") :: l2)) (ex_vm 0 (s2b "2")) in
  st = SOk /\ s_path (v_st v') = [s2b "root"; s2b "bar"]
  /\ log_fired (v_log v') = [(s2b "bar", s2b "2")] /\ p_err (v_pg v') = None.
Proof. vm_compute. repeat split. Qed.

(* "previous" on the first page: INCMP < 22; INCMP foo * with input "22" on page 0 goes to _catch,
   the wildcard after it is passed over; on page 1 the same block goes back to page 0 *)
Example C03_prev_nonvacuous :
  let l := [(t_prev, s2b "22"); (s2b "foo", s2b "*")] in
  (let '(v', b, st) := run 20 (app_rsrc ex_app) [] None (incmp_block l) (ex_vm 0 (s2b "22")) in
   st = SOk /\ pos_of (v_st v') = ([s2b "root"; s2b "_catch"], 0)
   /\ p_err (v_pg v') = Some (s2b "invalid input: '22'") /\ log_fired (v_log v') = [])
  /\
  (let '(v', b, st) := run 20 (app_rsrc ex_app) [] None (incmp_block l) (ex_vm 1 (s2b "22")) in
   st = SOk /\ pos_of (v_st v') = ([s2b "root"], 0) /\ log_fired (v_log v') = [(t_prev, s2b "22")]).
Proof. vm_compute. repeat split. Qed.

(* engine level, corpus case dupsel: requests "" and "1" leave the session at root/foo/bar *)
Example C03_dupsel_engine :
  let e := ex_long (new_engine ex_cfg None [] []) [[]; s2b "1"] in
  s_path (v_st (e_v e)) = [s2b "root"; s2b "foo"; s2b "bar"]
  /\ log_fired (v_log (e_v e)) = [(s2b "foo", s2b "1"); (s2b "bar", s2b "1")].
Proof. vm_compute. repeat split. Qed.

(* engine level, K-C03-stale-readin: requests "", x, y, z on the witness application (same outputs as the
   real engine): every input after "x" is answered "invalid input" and the stack grows by two levels *)
Example C03_stale_readin_engine :
  let '(e, outs) := stale_long (new_engine ex_cfg None [] []) [[]; s2b "x"; s2b "y"; s2b "z"] in
  outs = [s2b "root"; s2b "invalid input: 'x'" ++ [10] ++ s2b "catch";
          s2b "invalid input: 'y'" ++ [10] ++ s2b "catch"; s2b "invalid input: 'z'" ++ [10] ++ s2b "catch"]
  /\ s_path (v_st (e_v e)) = [s2b "root"; s2b "_catch"; s2b "end1"; s2b "_catch"; s2b "end1"; s2b "_catch"]
  /\ getf (v_st (e_v e)) FLAG_TERMINATE = false.
Proof. vm_compute. repeat split. Qed.

Print Assumptions C03_run_unfold.
Print Assumptions C03_resume_is_start.
Print Assumptions C03_stale_readin_irrelevant.
Print Assumptions C03_no_match_goes_to_catch.
Print Assumptions C03_no_match_continues.
Print Assumptions C03_first_match_fires.
Print Assumptions C03_first_match_general.
Print Assumptions C03_prev_on_first_page_is_no_match.
Print Assumptions C03_prev_on_first_page_goes_to_catch.
Print Assumptions C03_at_most_one_move_partial.
Print Assumptions C03_at_most_one_move_refuted_dupsel.
Print Assumptions C03_wildcard_after_match_ignored.
Print Assumptions C03_valid_input_not_wildcard.
Print Assumptions C03_invalid_input_is_current_partial.
Print Assumptions C03_starts_with_incmp_block.
Print Assumptions C03_refuted_stale_readin.
