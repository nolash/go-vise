(* C20 (interim) — Session end restarts cleanly; termination stays blocked. *)
From Vise Require Import Bytes Errors Consts Codec CacheModel StateModel NavModel RenderModel VmModel VmProofs.
Local Open Scope N_scope.

(* running out of code outside input handling sets TERMINATE *)
Theorem C20_abnormal_end_sets_terminate : forall v,
  getf (v_st v) FLAG_READIN = false ->
  dead_check v = (vset_st v (setf (v_st v) FLAG_TERMINATE), [], SOk).
Proof. exact dead_check_terminates. Qed.

Theorem C20_terminated_stays_blocked : forall fuel rs sep lang b v,
  getf (v_st v) FLAG_TERMINATE = true -> run (S fuel) rs sep lang b v = (v, [], SOk).
Proof. exact run_terminate_blocks. Qed.

Print Assumptions C20_abnormal_end_sets_terminate.
Print Assumptions C20_terminated_stays_blocked.
