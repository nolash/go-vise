(* C07 — A persisted session resumes exactly where an uninterrupted one would be.

   Full statement (properties.jsonl, DESIGN section 6): for every application, configuration and input
   history, serving the history with one long-lived engine and serving it one request at a time — each
   request with a new engine around the stored session, saved back by Finish — gives the same
   continue/stop results, Exec errors, outputs and Flush errors, up to and including the first response
   that ends the session ("calling Exec again has undefined effects" for the long-lived engine):

     forall fuel a c h,
       upto_stop (snd (serve_long fuel (app_rsrc a) c (new_engine c None [] []) h))
       = upto_stop (snd (serve_pers fuel (app_rsrc a) c (mkPw None [] [] false) h)).

   This is FALSE of the model (and of the code: each refutation below was replayed on the real engine).
   Two classes of divergence remain, each excluded by a named decidable guard:

   * K-C07-first     `c_first c = None`: an entry function runs once per ENGINE (C07_refuted_first).
   * K-C07-longbad   `input_ok_b i`: an input that is over-long AND fails the input pattern.  The long-lived
                     engine (init already done) checks the pattern first and answers (continue, error); a new
                     engine's init calls SetInput first and answers (stop, error) (C07_refuted_longbad).

   No guard is needed for the browse configuration (next/previous entries and their availability flags) that a
   node leaves in the long-lived engine's menu before a HALT (K-C07-browse): Menu.Reset erases it (go-vise
   c373f7d), so the reset that resumes execution after a HALT leaves nothing that a new engine's page does not
   have either.  C07_browse_regression is the application on which a Reset that kept it would show: a node that
   sets the entries, HALTs, and then builds another paginated page without moving.

   Two technical guards:
   * `no_browse_err_b`: the render of the request's Flush raised no BrowseError.  After the BrowseError
     fallback (reset, MOVE _catch, render again) DIRTY stays set and the long-lived engine renders once
     more at the start of the next request.  The RESPONSE of the request with the fallback is still proved
     equal; only the continuation is not covered.  No generated or corpus case reaches this path, and
     rendering on a freshly reset sizer seems unable to (the sink cursor lookup fails first with a generic
     error); not proved.
   * `cfg_flags_ok_b c`: the flag field of a new session has at least one byte.  It does up to FlagCount 2032
     (FlagCount + 8 <= 2040); from 2033 to 2040 Go's uint8 byte count wraps to 0 and every flag access panics,
     which the model's total getf/setf do not show; from 2041 on the wrapped count is positive again and the
     guard holds, of a field shorter than the configuration asks for.

   What is proved (all applications, resources, configurations, histories, fuel; fuel exhaustion and
   panics are not excluded: they occur on both sides alike and end the comparison):
   C07_step_simulation_partial, C07_first_step_partial, C07_history_simulation_partial, and the
   congruences they rest on: `run`, `vm_render` and `page_render` respect page equivalence (nothing reads
   the sizer's member table / running total, the only unpersisted state that survives a resumption after
   HALT besides the constant separator, resource and output size). *)
From Vise Require Import Bytes Errors Consts EngConsts Codec CacheModel StateModel NavModel RenderModel VmModel EngineModel
  EngineProofs BisimProofs.
Local Open Scope N_scope.

(* saving and loading is the identity on everything but the unexported input field *)
Theorem C07_restore_is_snapshot : forall c s ca w lg,
  let e := new_engine c (Some (snap_of s ca)) w lg in
  v_st (e_v e) = set_input_raw s None /\ v_ca (e_v e) = ca /\ e_initd e = false /\ e_execd e = false.
Proof. intros. cbn. auto. Qed.

Theorem C07_finish_saves_current : forall e,
  e_initd e = true -> eng_finish e = Some (snap_of (v_st (e_v e)) (v_ca (e_v e))).
Proof. intros e H. unfold eng_finish. rewrite H. reflexivity. Qed.

(* the long-lived engine's Flush at the start of the next request is a no-op when the previous one completed *)
Theorem C07_reflush_is_noop : forall fuel rs c e,
  e_execd e = true -> getf (v_st (e_v e)) FLAG_DIRTY = false -> e_exiting e = false -> e_exit e = [] ->
  eng_flush fuel rs c e = (e, [], FOk).
Proof. exact eng_flush_idle. Qed.

(* in general, for an engine whose last Flush rendered what there was to render and completed a pending
   session end: the second Flush hands out the exit value again and changes nothing — or, when the exit value
   alone exceeds the output size, fails, again without changing anything: such an engine is stuck (every
   later request fails in prepare).  An exit value exists only after a response with cont = false, i.e.
   beyond the prefix C07 compares; persisted operation starts over instead *)
Theorem C07_reflush_settled : forall fuel rs c e,
  e_execd e = true -> getf (v_st (e_v e)) FLAG_DIRTY = false -> e_exiting e = false ->
  eng_flush fuel rs c e = if exit_over c (e_exit e) then (e, [], FErr EGen) else (e, e_exit e, FOk).
Proof. exact eng_flush_settled. Qed.

(* congruences: nothing reads what the equivalence ignores.  Page.Render *)
Theorem C07_render_respects_equiv : forall c gt gm a b sym idx, peq false a b ->
  fst (page_render c gt gm a sym idx) = fst (page_render c gt gm b sym idx)
  /\ peq false (snd (page_render c gt gm a sym idx)) (snd (page_render c gt gm b sym idx)).
Proof.
  intros c gt gm a b sym idx H. destruct (page_render_peq c gt gm a b sym idx H) as (r & a' & b' & -> & -> & Hq). auto.
Qed.

(* Vm.Run, for both equivalences (lk = true: also up to the browse configuration) *)
Theorem C07_run_respects_equiv : forall lk f rs sep lang bb a b, veq lk a b ->
  heq lk (run f rs sep lang bb a) (run f rs sep lang bb b).
Proof. exact run_veq. Qed.

(* Vm.Render including the BrowseError fallback *)
Theorem C07_vm_render_respects_equiv : forall fuel rs sep lang a b, veq false a b ->
  snd (vm_render fuel rs sep lang a) = snd (vm_render fuel rs sep lang b)
  /\ veq false (fst (vm_render fuel rs sep lang a)) (fst (vm_render fuel rs sep lang b)).
Proof. intros fuel rs sep lang a b H. destruct (vm_render_veq fuel rs sep lang a b H) as [H1 H2]. auto. Qed.

(* a run that hands back pending code without error stopped at a HALT: WAIT is set, so the next run starts
   by resetting the page *)
Theorem C07_cont_means_wait : forall c f rs lang bb v v' b',
  flags_ok (v_st v) ->
  run f rs (c_sep c) lang bb v = (v', b', SOk) -> b' <> [] -> getf (v_st v') FLAG_WAIT = true.
Proof.
  intros c f rs lang bb v v' b' Hf Hr Hb. apply (run_halt_wait _ _ _ _ _ _ _ _ Hr Hb).
  pose proof (run_keep c f rs lang bb v) as Hk. rewrite Hr in Hk. exact (flags_ok_keep c _ _ Hk Hf).
Qed.

Theorem C07_step_simulation_partial : forall fuel rs c e p i,
  c_first c = None -> R c e p -> input_ok_b i = true ->
  let '(e', rl) := request_long fuel rs c e i in
  let '(p', rp) := request_persisted fuel rs c p i in
  rl = rp /\
  (r_cont rl = true -> flush_alive (r_flush rl) -> no_browse_err_b fuel rs c e i = true -> R c e' p').
Proof. exact step_simulation. Qed.

Theorem C07_first_step_partial : forall fuel rs c w lg t i,
  c_first c = None -> cfg_flags_ok c ->
  let '(e', rl) := request_long fuel rs c (new_engine c None w lg) i in
  let '(p', rp) := request_persisted fuel rs c (mkPw None w lg t) i in
  rl = rp /\
  (r_cont rl = true -> flush_alive (r_flush rl) -> no_browse_err_b fuel rs c (new_engine c None w lg) i = true -> R c e' p').
Proof. exact first_step. Qed.

Theorem C07_history_simulation_partial : forall fuel rs c h,
  c_first c = None -> cfg_flags_ok_b c = true ->
  c07_guard_b fuel rs c (new_engine c None [] []) h = true ->
  upto_stop (snd (serve_long fuel rs c (new_engine c None [] []) h))
  = upto_stop (snd (serve_pers fuel rs c (mkPw None [] [] false) h)).
Proof. intros fuel rs c h. exact (history_simulation fuel rs c h [] [] false). Qed.

Theorem C07_refuted_first :
  exists (a : app) (c : config) (h : list bytes),
    c_first c <> None /\ cfg_flags_ok_b c = true /\ forallb input_ok_b h = true
    /\ upto_stop (snd (serve_long 1000 (app_rsrc a) c (new_engine c None [] []) h))
       <> upto_stop (snd (serve_pers 1000 (app_rsrc a) c (mkPw None [] [] false) h)).
Proof.
  exists w_app, w_cfg_term, [[]; s2b "1"%string; s2b "0"%string]. vm_compute. repeat split; discriminate.
Qed.

Theorem C07_refuted_longbad :
  exists (a : app) (c : config) (h : list bytes),
    c_first c = None /\ cfg_flags_ok_b c = true /\ forallb input_ok_b h = false
    /\ map r_cont (snd (serve_long 1000 (app_rsrc a) c (new_engine c None [] []) h)) = [true; true]
    /\ map r_cont (snd (serve_pers 1000 (app_rsrc a) c (mkPw None [] [] false) h)) = [true; false]
    /\ upto_stop (snd (serve_long 1000 (app_rsrc a) c (new_engine c None [] []) h))
       <> upto_stop (snd (serve_pers 1000 (app_rsrc a) c (mkPw None [] [] false) h)).
Proof.
  exists w_app, w_cfg, [[]; w_longbad]. vm_compute. repeat split. discriminate.
Qed.

(* a paginated application (sink of three pages, next/previous entries) browsed forward and back, with a
   malformed input, an unknown selector, a descent and an ascent, and a final over-long input: every guard
   holds at every step although the long-lived menu carries a browse configuration across each HALT.
   The third output is "r seven\neight\n22:prv" *)
Example C07_ex_guards :
  c_first w_cfg28 = None /\ cfg_flags_ok_b w_cfg28 = true
  /\ c07_guard_b 2000 (app_rsrc w_app_pages) w_cfg28 (new_engine w_cfg28 None [] []) w_hist_pages = true
  /\ List.length (upto_stop (snd (serve_long 2000 (app_rsrc w_app_pages) w_cfg28 (new_engine w_cfg28 None [] []) w_hist_pages))) = 10%nat
  /\ nth 2 (map r_out (snd (serve_pers 2000 (app_rsrc w_app_pages) w_cfg28 (mkPw None [] [] false) w_hist_pages))) []
     = [114; 32; 115; 101; 118; 101; 110; 10; 101; 105; 103; 104; 116; 10; 50; 50; 58; 112; 114; 118]
  /\ option_map m_browse (p_menu (v_pg (e_v (fst (serve_long 2000 (app_rsrc w_app_pages) w_cfg28 (new_engine w_cfg28 None [] []) [[]; [49; 49]])))))
     <> option_map m_browse (p_menu (P0 w_cfg28)).
Proof. vm_compute. repeat split. discriminate. Qed.

(* the relation holds after a request and relates an engine whose page differs from a new engine's *)
Example C07_ex_step :
  let e := fst (serve_long 2000 (app_rsrc w_app_pages) w_cfg28 (new_engine w_cfg28 None [] []) [[]; [49; 49]]) in
  e_initd e = true /\ e_execd e = true /\ getf (v_st (e_v e)) FLAG_WAIT = true
  /\ v_pg (e_v e) <> P0 w_cfg28
  /\ input_ok_b [49; 49] = true
  /\ no_browse_err_b 2000 (app_rsrc w_app_pages) w_cfg28 e [49; 49] = true.
Proof. intros e. vm_compute. repeat split. discriminate. Qed.

(* K-C07-browse: "MNEXT nx 11; HALT; LOAD sk 0; MAP sk; HALT", output size 20, history "", "x": both drivers answer
   "root" twice ([114; 111; 111; 116]); with a Menu.Reset that kept the browse configuration the long-lived engine
   would answer "root\n11:nx" to "x" *)
Example C07_browse_regression :
  c_first w_cfg20 = None /\ cfg_flags_ok_b w_cfg20 = true
  /\ c07_guard_b 1000 (app_rsrc w_app_leak) w_cfg20 (new_engine w_cfg20 None [] []) [[]; [120]] = true
  /\ map r_out (snd (serve_long 1000 (app_rsrc w_app_leak) w_cfg20 (new_engine w_cfg20 None [] []) [[]; [120]]))
     = [[114; 111; 111; 116]; [114; 111; 111; 116]]
  /\ map r_out (snd (serve_pers 1000 (app_rsrc w_app_leak) w_cfg20 (mkPw None [] [] false) [[]; [120]]))
     = [[114; 111; 111; 116]; [114; 111; 111; 116]]
  /\ snd (serve_long 1000 (app_rsrc w_app_leak) w_cfg20 (new_engine w_cfg20 None [] []) [[]; [120]])
     = snd (serve_pers 1000 (app_rsrc w_app_leak) w_cfg20 (mkPw None [] [] false) [[]; [120]]).
Proof. vm_compute. repeat split. Qed.

(* the relation itself holds there (so C07_step_simulation_partial applies to a state that is not the initial one) *)
Example C07_ex_R :
  R w_cfg28 (fst (serve_long 2000 (app_rsrc w_app_pages) w_cfg28 (new_engine w_cfg28 None [] []) [[]; [49; 49]]))
            (fst (serve_pers 2000 (app_rsrc w_app_pages) w_cfg28 (mkPw None [] [] false) [[]; [49; 49]])).
Proof.
  (* the two histories are let-bound before R is unfolded: R mentions each several times, and the kernel
     evaluates a let-bound body once *)
  match goal with |- R _ ?e ?p => set (x := e); set (y := p) end.
  unfold R, Linv. vm_compute. repeat split; try discriminate. repeat constructor.
Qed.

Print Assumptions C07_restore_is_snapshot.
Print Assumptions C07_finish_saves_current.
Print Assumptions C07_reflush_is_noop.
Print Assumptions C07_reflush_settled.
Print Assumptions C07_render_respects_equiv.
Print Assumptions C07_run_respects_equiv.
Print Assumptions C07_vm_render_respects_equiv.
Print Assumptions C07_cont_means_wait.
Print Assumptions C07_step_simulation_partial.
Print Assumptions C07_first_step_partial.
Print Assumptions C07_history_simulation_partial.
Print Assumptions C07_refuted_first.
Print Assumptions C07_refuted_longbad.
