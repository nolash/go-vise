(* C13 — A storage error on Postgres never wedges the store or loses acknowledged writes.

   Model: model/PgTx.v (pg.go over an abstract transactional store; every primitive driver call
   consumes one bit of a fault oracle).  pg_checks c init ops orc runs the history ops from the
   committed contents init under the oracle orc and judges every step with the executable monitor
   of PgTx.v (the same monitor is applied to the observed behaviour of the real code in
   corr/PgCorr.v); per step:
     k_fault : a fault that fired inside the operation made it return an error (Abort excepted: it
               has no error result);
     k_hyg   : no call on a finished transaction, at most one open transaction, none after an
               operation outside an explicit transaction, exactly one inside a healthy one;
     k_rec   : a Get in which no fault fired returns exactly the acknowledged writes (single
               operations: Put returned nil; explicit transactions: Put returned nil and Stop
               returned nil; inside a transaction its own writes are visible); at Stop of a
               transaction in which every operation succeeded the committed data is exactly the
               previous data plus its writes, after Abort exactly the previous data; no panic;
     k_hit   : the step is in the guard of finding K-C13-stickymulti: a Put/Get issued outside an
               explicit transaction after some Start has succeeded (pgDb.multi is never cleared);
     k_dsw   : ... of finding K-C13-dumpswallow: a Dump in which a fault fired at or after its
               deferred Commit (in the Commit or in the iteration that follows it).
   PDump k = Dump(k), Dumper.Next until nil, Close: a transaction of its own next to pdb.tx, which
   it must end exactly once (k_hyg: the count of open transactions after the operation is what the
   client's mode demands) and which must leave pdb.tx alone (k_rec at the next Stop). Dump resets
   the language of the store; the monitor judges Put/Get under the language in force.
   All theorems quantify over every key context c, every initial content, every operation
   sequence (Put/Get/Start/Stop/Abort/Close/Dump/Connect-again) and EVERY fault oracle (any number of faults). *)
From Vise Require Import Bytes Errors Consts PgTx PgProofs.
Local Open Scope N_scope.

(* FULL STATEMENT (false, see C13_refuted_dumpswallow):
     forall c init ops orc, forallb k_fault (pg_checks c init ops orc) = true.
   Proved for every step outside the guard of K-C13-dumpswallow: every operation other than Abort
   (no error result) in which a fault fired returns an error — including Dump when BeginTx, the
   query, the first fetch or the first Scan fails. The row-fetch fault on the DEFAULT key of a Get
   and on the first row of a Dump is reported as ErrNotFound (rs.Err() not consulted) — an error. *)
Theorem C13_fault_reports_error_partial : forall c init ops orc,
  forallb (fun k => k_dsw k || k_fault k) (pg_checks c init ops orc) = true.
Proof. intros c init ops orc. apply fault_guarded_all, init_shape. Qed.

(* one fault, the 12th driver call = the fetch of the second row of the dump: Dump of a, ab delivers a
   only and reports nothing *)
Theorem C13_refuted_dumpswallow :
  exists c init ops orc,
    dsw_hit (pg_checks c init ops orc) = true
    /\ sticky_hit (pg_checks c init ops orc) = false
    /\ forallb k_fault (pg_checks c init ops orc) = false
    /\ map o_res (pg_run c init ops orc) = [POk; POk; PRows [(s2b "a", s2b "1")]]
    /\ map o_res (pg_run c init ops []) = [POk; POk; PRows [(s2b "a", s2b "1"); (s2b "ab", s2b "2")]].
Proof.
  exists wit_user, [], [PPut (s2b "a") (s2b "1"); PPut (s2b "ab") (s2b "2"); PDump (s2b "a")],
         [false; false; false; false; false; false; false; false; false; false; false; true].
  vm_compute. repeat split.
Qed.

(* K-C13-trfetch (notes/integration_pg.md; go-vise 8748493: Get reports a failed row fetch on the
   translated key): one fault, the 6th driver call = that fetch. The Get returns the fault and does not
   fall through to the default-language row "D" (4 = DATATYPE_TEMPLATE, the type byte of its storage
   key); the next Get returns "T" *)
Example C13_trfetch_reported :
  let c := wit_trans in
  let init := [(4 :: s2b "a", s2b "D")] in
  let ops := [PPut (s2b "a") (s2b "T"); PGet (s2b "a"); PGet (s2b "a")] in
  let orc := [false; false; false; false; false; true] in
  c13_full (pg_checks c init ops orc) = true
  /\ map o_res (pg_run c init ops orc) = [POk; PErr EFault; PVal (s2b "T")]
  /\ map o_open (pg_run c init ops orc) = [0; 0; 0].
Proof. vm_compute. repeat split. Qed.

(* FULL STATEMENT (false, see C13_refuted_stickymulti):
     forall c init ops orc, forallb k_hyg (pg_checks c init ops orc) = true.
   Proved for every step up to the first one inside the guard of K-C13-stickymulti (k_hit is
   monotone along a history). Covers Dump: on every path the transaction Dump began is committed or
   rolled back exactly once before it returns. *)
Theorem C13_tx_hygiene_partial : forall c init ops orc,
  forallb (fun k => k_hit k || k_hyg k) (pg_checks c init ops orc) = true.
Proof. intros c init ops orc. exact (proj1 (guarded_all c ops _ _ (or_intror (init_inv c init orc)))). Qed.

(* K-C13-dumpleak (notes/integration_pg.md; go-vise f3dc6ab: Dump rolls its transaction back when the
   key cannot be resolved): prefix UNKNOWN, no fault; Dump fails in ToKey and leaves no transaction open *)
Example C13_dumpleak_fixed :
  let c := mkCfg DATATYPE_UNKNOWN safe_lock (s2b "s") None in
  let ops := [PDump (s2b "a"); PStart; PStop] in
  c13_full (pg_checks c [] ops []) = true
  /\ map o_res (pg_run c [] ops []) = [PErr EGen; POk; POk]
  /\ map o_open (pg_run c [] ops []) = [0; 1; 0]
  /\ map o_evs (pg_run c [] ops []) =
     [[mkEv KBegin 1 0; mkEv KRollback 1 0]; [mkEv KBegin 2 0]; [mkEv KCommit 2 0]].
Proof. vm_compute. repeat split. Qed.

(* without any guard, sticky or not: never two open transactions when an operation returns, never a call on a finished transaction (every transaction is ended at
   most once), never a nil dereference *)
Theorem C13_tx_hygiene_unconditional : forall c init ops orc,
  forallb (fun ob => (o_open ob <=? 1) && negb (pres_eqb (o_res ob) PPanic) && negb (has_done (o_evs ob)))
          (pg_run c init ops orc) = true.
Proof. intros c init ops orc. apply sane_all, init_shape. Qed.

(* FULL STATEMENT (false, see C13_refuted_stickymulti):
     forall c init ops orc, forallb k_rec (pg_checks c init ops orc) = true.
   This is the refinement to the abstract map m_abs that only acknowledged writes update: a Put
   whose Commit failed is neither acknowledged nor visible. *)
Theorem C13_recovers_partial : forall c init ops orc,
  forallb (fun k => k_hit k || k_rec k) (pg_checks c init ops orc) = true.
Proof. intros c init ops orc. exact (proj2 (guarded_all c ops _ _ (or_intror (init_inv c init orc)))). Qed.

(* no fault is needed: Start, Stop, Put a 1, Get b, Get a. After the completed Start..Stop the
   acknowledged Put stays in an open transaction (hygiene fails at step 3) and the not-found Get of
   another key rolls it back (Get a at step 5 does not return the acknowledged value) *)
Theorem C13_refuted_stickymulti :
  exists c init ops orc,
    sticky_hit (pg_checks c init ops orc) = true
    /\ existsb (fun b => b) orc = false
    /\ forallb k_hyg (pg_checks c init ops orc) = false
    /\ forallb k_rec (pg_checks c init ops orc) = false
    /\ map o_res (pg_run c init ops orc) = [POk; POk; POk; PErr ENotFound; PErr ENotFound].
Proof.
  exists wit_user, [], [PStart; PStop; PPut (s2b "a") (s2b "1"); PGet (s2b "b"); PGet (s2b "a")], [].
  vm_compute. repeat split.
Qed.

(* explicit transactions, fault-free, from any idle state (no transaction open, pool not closed,
   oracle exhausted — pgDb.multi may even be stuck at true): if every operation of
   Start; body; Stop (body over Put/Get/Dump) succeeds, the committed data afterwards is the previous
   data with all writes of the body applied, and nothing is left open *)
Theorem C13_multi_commit_at_stop : forall c st body,
  idle st -> forallb data_op body = true ->
  forallb (fun ob => negb (is_perr (o_res ob))) (pg_trace c st (PStart :: body ++ [PStop])) = true ->
  let st' := pg_final c st (PStart :: body ++ [PStop]) in
  s_comm (p_srv st') = apply_kv (body_writes c (p_lang st) body) (s_comm (p_srv st)) /\ s_open (p_srv st') = [].
Proof. intros c st body Hi. exact (multi_commit_at_stop c st body (idle_settled st Hi)). Qed.

(* ... and after Abort the committed data is exactly what it was *)
Theorem C13_multi_none_after_abort : forall c st body,
  idle st -> forallb data_op body = true ->
  forallb (fun ob => negb (is_perr (o_res ob))) (pg_trace c st (PStart :: body ++ [PAbort])) = true ->
  let st' := pg_final c st (PStart :: body ++ [PAbort]) in
  s_comm (p_srv st') = s_comm (p_srv st) /\ s_open (p_srv st') = [].
Proof. intros c st body Hi. exact (multi_none_after_abort c st body (idle_settled st Hi)). Qed.

(* a failing Dump leaves an explicit transaction alone (the seeded change C13-m3 breaks exactly this):
   the Dump query fails, Dump rolls back its own transaction, Stop commits both writes (32 =
   DATATYPE_USERDATA, the type byte of the storage keys) *)
Example C13_dump_fault_in_tx :
  let ops := [PStart; PPut (s2b "a") (s2b "1"); PDump (s2b "a"); PPut (s2b "b") (s2b "1"); PStop] in
  let orc := [false; false; false; true] in
  c13_full (pg_checks wit_user [] ops orc) = true
  /\ map o_res (pg_run wit_user [] ops orc) = [POk; POk; PErr EFault; POk; POk]
  /\ map o_open (pg_run wit_user [] ops orc) = [1; 1; 1; 1; 0]
  /\ o_comm (last (pg_run wit_user [] ops orc) (mkPobs POk 0 [] [])) =
     [(32 :: s2b "s.a", s2b "1"); (32 :: s2b "s.b", s2b "1")].
Proof. vm_compute. repeat split. Qed.

(* non-vacuity: a history outside the guard with three faults (Commit of the second Put, the row
   fetch of the first Get, BeginTx of the third Put; then an explicit transaction) satisfies the
   whole monitor, every faulted operation reports an error, and the final data is a = "3" only:
   "2" (Commit failed) and b (BeginTx failed) were never acknowledged *)
Example C13_nonvacuous :
  let a := s2b "a" in let b := s2b "b" in
  let ops := [PPut a (s2b "1"); PPut a (s2b "2"); PGet a; PPut b (s2b "1"); PGet b;
              PStart; PPut a (s2b "3"); PGet a; PStop] in
  let orc := [false; false; false;  false; false; true;  false; false; true;  false; true] in
  let ks := pg_checks wit_user [] ops orc in
  c13_full ks = true /\ sticky_hit ks = false
  /\ map o_res (pg_run wit_user [] ops orc) =
     [POk; PErr EFault; PErr ENotFound; PErr EFault; PErr ENotFound; POk; POk; PVal (s2b "3"); POk]
  /\ map o_open (pg_run wit_user [] ops orc) = [0; 0; 0; 0; 0; 1; 1; 1; 0]
  /\ o_comm (last (pg_run wit_user [] ops orc) (mkPobs POk 0 [] [])) = [(32 :: s2b "s.a", s2b "3")].
Proof. vm_compute. repeat split. Qed.

Print Assumptions C13_fault_reports_error_partial.
Print Assumptions C13_refuted_dumpswallow.
Print Assumptions C13_tx_hygiene_partial.
Print Assumptions C13_tx_hygiene_unconditional.
Print Assumptions C13_recovers_partial.
Print Assumptions C13_refuted_stickymulti.
Print Assumptions C13_multi_commit_at_stop.
Print Assumptions C13_multi_none_after_abort.
