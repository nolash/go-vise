(* C11 — Sessions and data types never see each other's stored data. *)
From Vise Require Import Bytes Errors Consts DbKey DbModel DbProofs.
Local Open Scope N_scope.

(* FULL STATEMENT (false for the code as it is; refuted below):
     forall t s k t' s' k', skey t s None k = skey t' s' None k' -> (t, s, k) = (t', s', k')
   for the sessioned types, for ANY session ids and keys, and on the filesystem backend the same
   for the file paths.  It holds under the guards below: wf_sid = non-empty and dot-free
   session ids (neither half can be dropped: an id with a dot shares storage keys with the id before its
   first dot, the empty id with every id; both refuted below),
   and on fs additionally plain names (no '/', NUL, "." / "..", <= 255 bytes) and no legacy
   fallback name beginning with a type character. *)

(* the storage key determines (type, session, key) for the sessioned types STATE and USERDATA *)
Theorem C11_enc_injective : forall t s k t' s' k',
  sessioned t = true -> sessioned t' = true -> wf_sid s = true -> wf_sid s' = true ->
  skey t s None k = skey t' s' None k' -> (t, s, k) = (t', s', k').
Proof. exact skey_sessioned_injective. Qed.

(* different data types never share a storage key (first byte), whatever session, language, key *)
Theorem C11_types_disjoint : forall t s l k t' s' l' k',
  t <> t' -> skey t s l k <> skey t' s' l' k'.
Proof. intros t s l k t' s' l' k' Hne E. apply skey_type in E. contradiction. Qed.

(* language-scoped types: (key, language) is recovered from the storage key, for keys that do not
   end in "_" + three bytes and three-byte language codes *)
Theorem C11_key_lang_injective : forall t k l k' l',
  lang_type t = true -> sessioned t = false -> lang_ok l -> lang_ok l' ->
  no_lang_suffix k = true -> no_lang_suffix k' = true ->
  skey t [] l k = skey t [] l' k' -> k = k' /\ l = l'.
Proof.
  intros t k l k' l' Ht Hs Hl Hl' Hk Hk' E.
  unfold skey, to_db_key in E. rewrite Hs in E. injection E as E.
  apply (lang_suffix_inj t); [| |exact E]; unfold lang_fits; rewrite Ht; [destruct l|destruct l']; assumption.
Qed.

(* fs: the file path determines (type, session, key) when the names are plain directory entries
   (slash_free and the rest of name_plain) ... *)
Theorem C11_path_injective_partial : forall dir t s k t' s' k',
  documented_type t = true -> documented_type t' = true ->
  sessioned t = true -> sessioned t' = true -> wf_sid s = true -> wf_sid s' = true ->
  name_plain (fs_name (skey t s None k)) = true -> name_plain (fs_name (skey t' s' None k')) = true ->
  clean_join dir (fs_name (skey t s None k)) = clean_join dir (fs_name (skey t' s' None k')) ->
  (t, s, k) = (t', s', k').
Proof.
  intros dir t s k t' s' k' Hd Hd' Hs Hs' Ws Ws' Hp Hp' E.
  rewrite !clean_join_plain in E by assumption. apply app_inv_head in E. injection E as Et E.
  apply w8_type_inj in Et; [|assumption..]. subst t'.
  apply skey_sessioned_injective; try assumption. unfold skey, to_db_key. f_equal. exact E.
Qed.
(* ... and a legacy fallback name that does not begin with a type character (no_legacy_clash)
   never names the file of any entry of a documented type *)
Theorem C11_legacy_never_hits_partial : forall dir alt t s l k,
  name_plain alt = true -> no_legacy_clash alt = true -> documented_type t = true ->
  name_plain (fs_name (skey t s l k)) = true ->
  clean_join dir alt <> clean_join dir (fs_name (skey t s l k)).
Proof.
  intros dir alt t s l k Ha Hc Hd Hp E. rewrite !clean_join_plain in E by assumption.
  apply app_inv_head in E. injection E as E. subst alt.
  unfold skey, to_db_key in Hc. cbn [fs_name no_legacy_clash] in Hc.
  rewrite (type_char_doc _ Hd) in Hc. discriminate.
Qed.

(* history level, mem and pg: over all interleavings, a Put under one (type, session, key) never
   changes what a later Get under a different triple returns (guards of hist_ok: dot-free session
   ids, three-byte language codes, keys without language suffix, dot-free keys under the empty session) *)
Theorem C11_put_never_changes_other_get : forall be dir h1 k v h2 k',
  is_kv be = true ->
  hist_ok spec_init (h1 ++ OPut k v :: h2 ++ [OGet k']) = true ->
  let b1 := sp_base (fst (spec_run spec_init h1)) in
  let b2 := sp_base (fst (spec_run spec_init (h1 ++ h2))) in
  ctx_triple b1 k <> ctx_triple b2 k' ->
  last (db_results be dir (h1 ++ OPut k v :: h2 ++ [OGet k'])) DOk
  = last (db_results be dir (h1 ++ h2 ++ [OGet k'])) DOk.
Proof.
  intros be dir h1 k v h2 k' Hkv Hok b1 b2 Hne.
  rewrite !kv_refines_spec by (assumption || exact (hist_ok_drop_put Hok)).
  rewrite app_comm_cons, !app_assoc, !spec_last_get. apply spec_noninterference. exact Hne.
Qed.

(* listings.  FULL STATEMENT: every (key, value) a Dump returns was written under the current
   (type, session).  fs (text mode): holds under the guards of the listing theorem (dump_ok).
   pg (db/postgres/dump.go, go-vise 55e3e80: every row is compared with the lower bound):
   holds under pg_list_ok = a documented type and a session id for the sessioned types.  What
   remains excluded and why: (1) a sessioned type WITHOUT session id lists every session whose
   stored key begins with the requested key (the empty-id finding K-C11-2, refuted below for Get: C11_refuted_empty_session);
   (2) prefix values that are not one of the six documented types: a type that is both sessioned and
   language-scoped could confuse a language suffix with a session prefix.  The dot-free session ids
   and three-byte language codes are part of hist_ok. *)
Theorem C11_pg_listing_isolated_partial : forall dir ops p l,
  hist_ok spec_init ops = true ->
  let st := fst (db_run BPg (db_init dir) ops) in
  let sp := fst (spec_run spec_init ops) in
  pg_list_ok sp = true ->
  snd (db_step BPg st (ODump p)) = DDump l ->
  forall k v, In (k, v) l -> exists a, same_space (sp_base sp) a = true /\ slookup a (sp_map sp) = Some v.
Proof.
  intros dir ops p l Hok st sp. apply pg_listing_isolated_state. apply (kv_run_refines BPg dir ops eq_refl Hok).
Qed.

Theorem C11_fs_listing_isolated_partial : forall dir ops p l,
  dir_ok dir = true -> dir <> [] ->
  fs_hist_ok false spec_init ops = true -> forallb put_key_nonempty ops = true ->
  let st := fst (db_run (BFs false) (db_init dir) ops) in
  let sp := fst (spec_run spec_init ops) in
  dump_ok sp = true -> fs_dump false st p = DDump l ->
  forall k v, In (k, v) l -> exists a, same_space (sp_base sp) a = true /\ slookup a (sp_map sp) = Some v.
Proof.
  intros dir ops p l Hd Hne Hok Hk st sp Hg E k v Hin.
  pose proof (fs_dump_after_run dir ops p Hd Hne Hok Hk Hg) as H. fold st sp in H. rewrite E in H.
  destruct H as [H _]. apply H in Hin as [_ Hs].
  exists (ctx_akey (sp_base sp) None k). split; [apply same_space_ctx|exact Hs].
Qed.

(* K-C11-5 (notes/integration_db.md): the listing of STATE under session "s" ends before the USERDATA rows
   of "s", which follow it in key order and do not begin with the lower bound *)
Example C11_pg_dump_cross_type_regression :
  hist_ok spec_init w_pg_dump = true /\ pg_list_ok (ref_state w_pg_dump) = true
  /\ snd (db_step BPg (fst (db_run BPg (db_init []) w_pg_dump)) (ODump [])) = DDump [(s2b "a", s2b "state-a")]
  /\ owned (ref_state w_pg_dump) (s2b "state-a") = true /\ owned (ref_state w_pg_dump) (s2b "user-u") = false.
Proof. vm_compute. repeat split. Qed.

(* non-vacuity of the Postgres listing theorem: two sessions whose ids are prefixes of each other *)
Example C11_pg_listing_nonvacuous :
  let h := [OSetPrefix DATATYPE_USERDATA; OSetSession (s2b "2547"); OPut (s2b "k") (s2b "own");
            OPut (s2b "m") (s2b "own2"); OSetSession (s2b "25471"); OPut (s2b "k") (s2b "other");
            OSetSession (s2b "2547")] in
  hist_ok spec_init h = true /\ pg_list_ok (ref_state h) = true
  /\ snd (db_step BPg (fst (db_run BPg (db_init []) h)) (ODump []))
     = DDump [(s2b "k", s2b "own"); (s2b "m", s2b "own2")].
Proof. vm_compute. repeat split. Qed.

(* refutations of the unguarded statement (each also replayed on the real backends by the harness) *)
(* K-C11-1: session "a" / key "b.c" and session "a.b" / key "c" share one storage key *)
Theorem C11_refuted_dot_in_session :
  exists t s k s' k', wf_sid s = true /\ wf_sid s' = false /\ (s, k) <> (s', k')
    /\ skey t s None k = skey t s' None k'
    /\ nth 7 (db_results BMem wdir
               [OSetPrefix t; OSetSession s; OPut k (s2b "A"); OSetSession s'; OGet k'; OPut k' (s2b "B");
                OSetSession s; OGet k]) DOk = DVal (s2b "B").
Proof.
  exists DATATYPE_USERDATA, (s2b "a"), (s2b "b.c"), (s2b "a.b"), (s2b "c"). vm_compute.
  repeat split. intros H. discriminate H.
Qed.
(* K-C11-2: the empty session id sees (and overwrites) every session's entries *)
Theorem C11_refuted_empty_session :
  exists t s k s' k', wf_sid s = true /\ wf_sid s' = false /\ (s, k) <> (s', k')
    /\ skey t s None k = skey t s' None k'
    /\ nth 4 (db_results BPg wdir [OSetPrefix t; OSetSession s; OPut k (s2b "A"); OSetSession s'; OGet k']) DOk
       = DVal (s2b "A").
Proof.
  exists DATATYPE_USERDATA, (s2b "a"), (s2b "k"), [], (s2b "a.k"). vm_compute.
  repeat split. intros H. discriminate H.
Qed.
(* K-C11-3: fs: a key with "/../" addresses another session's file *)
Theorem C11_refuted_fs_traversal :
  exists t s k s' k', wf_sid s = true /\ wf_sid s' = true /\ (s, k) <> (s', k')
    /\ slash_free k' = false
    /\ clean_join wdir (fs_name (skey t s None k)) = clean_join wdir (fs_name (skey t s' None k'))
    /\ nth 4 (db_results (BFs false) wdir [OSetPrefix t; OSetSession s; OPut k (s2b "1234"); OSetSession s'; OGet k']) DOk
       = DVal (s2b "1234").
Proof.
  exists DATATYPE_USERDATA, (s2b "victim"), (s2b "pin"), (s2b "evil"), (s2b "/../Pvictim.pin"). vm_compute.
  repeat split. intros H. discriminate H.
Qed.
(* K-C11-4: fs: STATE under session "Px" reads the USERDATA of session "x" through the legacy name *)
Theorem C11_refuted_fs_legacy_cross_type :
  exists s s' k, wf_sid s = true /\ wf_sid s' = true /\ wf_key k = true
    /\ no_legacy_clash (fs_alt_name DATATYPE_STATE (skey DATATYPE_STATE s' None k)) = false
    /\ nth 5 (db_results (BFs false) wdir
               [OSetPrefix DATATYPE_USERDATA; OSetSession s; OPut k (s2b "userdata");
                OSetPrefix DATATYPE_STATE; OSetSession s'; OGet k]) DOk = DVal (s2b "userdata").
Proof. exists (s2b "x"), (s2b "Px"), (s2b "kk"). vm_compute. repeat split. Qed.

(* non-vacuity: the guards are met by ordinary session ids and keys, two sessions interleave their
   writes in one store, and each reads back its own value on every backend *)
Example C11_nonvacuous :
  let h := [OSetPrefix DATATYPE_USERDATA; OSetSession (s2b "alice"); OPut (s2b "pin") (s2b "1");
            OSetSession (s2b "bob"); OPut (s2b "pin") (s2b "2"); OSetPrefix DATATYPE_STATE; OPut (s2b "pin") (s2b "3");
            OSetSession (s2b "alice"); OSetPrefix DATATYPE_USERDATA; OGet (s2b "pin")] in
  wf_sid (s2b "alice") = true /\ wf_sid (s2b "bob") = true
  /\ hist_ok spec_init h = true /\ fs_hist_ok false spec_init h = true /\ fs_hist_ok true spec_init h = true
  /\ name_plain (fs_name (skey DATATYPE_USERDATA (s2b "alice") None (s2b "pin"))) = true
  /\ last (db_results BMem wdir h) DOk = DVal (s2b "1")
  /\ last (db_results (BFs false) wdir h) DOk = DVal (s2b "1")
  /\ last (db_results (BFs true) wdir h) DOk = DVal (s2b "1")
  /\ last (db_results BPg wdir h) DOk = DVal (s2b "1").
Proof. vm_compute. repeat split. Qed.

Print Assumptions C11_enc_injective.
Print Assumptions C11_types_disjoint.
Print Assumptions C11_key_lang_injective.
Print Assumptions C11_path_injective_partial.
Print Assumptions C11_legacy_never_hits_partial.
Print Assumptions C11_put_never_changes_other_get.
Print Assumptions C11_pg_listing_isolated_partial.
Print Assumptions C11_fs_listing_isolated_partial.
Print Assumptions C11_refuted_dot_in_session.
Print Assumptions C11_refuted_empty_session.
Print Assumptions C11_refuted_fs_traversal.
Print Assumptions C11_refuted_fs_legacy_cross_type.
