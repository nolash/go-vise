(* C18 (gettext resource) — The selected language reaches every lookup: resource/gettext.go.

   PoResource.GetTemplate / GetMenu resolve a symbol in two steps (model/PoModel.v, tied to the real
   code by the driver `po`): the KEY domain (x-vise / x-vise_menu) of the DEFAULT language maps the
   symbol to a source string (`po_source`); then the domain "default" of the REQUEST language — the
   "Language" value of the context, the default language when there is none — translates that
   string, provided a locale was registered for it (NewPoResource registers the default language,
   WithLanguage the others).  gotext returns its argument when there is no entry or the entry's
   msgstr is empty.  `potables` are the entries of every .po file under the locale path, keyed by
   (language, domain).

   C18 for this resource: "every template and menu-label lookup is made in the selected language,
   and a lookup with no translation returns the default-language entry".  Proved for ALL tables,
   symbols, languages and registrations, reading "default-language entry" as the source string.
   Under the stricter reading — "what a default-language session is shown" — one class fails: the
   default language's OWN "default" domain is applied to default-language sessions only, so when it
   rewrites a source string, a session in a language without translation is shown the raw source
   string and not what default-language users see (K-C18-po-defaultdomain: _partial + _refuted). *)
From Vise Require Import Bytes Errors Consts EngConsts Codec CacheModel StateModel NavModel NavSpec
  RenderModel VmModel EngineModel PoModel SymbolProofs PoProofs.
Local Open Scope N_scope.

Theorem C18_po_getd :
  (forall tbl key v, alookup key tbl = Some v -> v <> [] -> po_getd tbl key = v)
  /\ (forall tbl key, alookup key tbl = None -> po_getd tbl key = key)
  /\ (forall tbl key, alookup key tbl = Some [] -> po_getd tbl key = key).
Proof. exact (conj po_getd_present (conj po_getd_absent po_getd_empty)). Qed.

(* translation, then default: with ln the request language (context value, else the default) and
   src the source string of the symbol *)
Theorem C18_po_translation_then_default : forall t dflt regs ctx sym menu,
  let ln := po_req_lang dflt ctx in
  let src := po_source t dflt sym menu in
  (forall s, alookup sym (po_table t dflt (po_keydom menu)) = Some s -> s <> [] -> src = s)
  /\ (alookup sym (po_table t dflt (po_keydom menu)) = None \/ alookup sym (po_table t dflt (po_keydom menu)) = Some [] -> src = sym)
  /\ (forall tr, po_registered dflt regs ln = true -> alookup src (po_table t ln DDefault) = Some tr -> tr <> [] ->
        po_get t dflt regs ctx sym menu = tr)
  /\ (po_registered dflt regs ln = true ->
        alookup src (po_table t ln DDefault) = None \/ alookup src (po_table t ln DDefault) = Some [] ->
        po_get t dflt regs ctx sym menu = src)
  /\ (po_registered dflt regs ln = false -> po_get t dflt regs ctx sym menu = src)
  /\ po_get t dflt regs None sym menu = po_get t dflt regs (Some dflt) sym menu.
Proof.
  intros t dflt regs ctx sym menu. cbv zeta. split; [|split; [|split; [|split; [|split]]]].
  - intros s H Hne. unfold po_source. apply po_getd_present; assumption.
  - intros [H|H]; unfold po_source; [apply po_getd_absent|apply po_getd_empty]; exact H.
  - intros tr Hr H Hne. unfold po_get. fold (po_req_lang dflt ctx). rewrite Hr. apply po_getd_present; assumption.
  - intros Hr [H|H]; unfold po_get; fold (po_req_lang dflt ctx); rewrite Hr; [apply po_getd_absent|apply po_getd_empty]; exact H.
  - intros Hr. unfold po_get. fold (po_req_lang dflt ctx). rewrite Hr. reflexivity.
  - reflexivity.
Qed.

Theorem C18_po_get_closed_form : forall t dflt regs ctx sym menu,
  po_get t dflt regs ctx sym menu =
  let ln := po_req_lang dflt ctx in
  let src := po_source t dflt sym menu in
  if po_registered dflt regs ln
  then match po_translation (po_table t ln DDefault) src with Some tr => tr | None => src end
  else src.
Proof. exact po_get_unfold. Qed.

(* non-interference: only the default language's key domain, the request language's "default"
   domain and the registration of the request language matter — no other file, no other language *)
Theorem C18_po_noninterference : forall t t' dflt regs regs' ctx sym menu,
  let ln := po_req_lang dflt ctx in
  po_table t dflt (po_keydom menu) = po_table t' dflt (po_keydom menu) ->
  po_table t ln DDefault = po_table t' ln DDefault ->
  po_registered dflt regs ln = po_registered dflt regs' ln ->
  po_get t dflt regs ctx sym menu = po_get t' dflt regs' ctx sym menu.
Proof. exact po_noninterference_lemma. Qed.

(* at engine level: Flush of an engine whose templates and menu labels come from a PoResource is
   the same for any two locale trees that agree on the default language and on the session language *)
Theorem C18_po_flush_noninterference : forall fuel base t t' dflt regs c e,
  po_agree_on dflt (po_req_lang dflt (s_lang (v_st (e_v e)))) t t' ->
  eng_flush fuel (po_rsrc base t dflt regs) c e = eng_flush fuel (po_rsrc base t' dflt regs) c e.
Proof. intros. apply eng_flush_noninterference, po_rsrc_agree. assumption. Qed.

(* Full statement (false): "a request language without translation of the source string (or without
   locale) gets what the default-language session gets".  Partial, guard po_default_domain_neutral:
   the default language's own "default" domain does not rewrite the source string. *)
Theorem C18_po_fallback_is_default_session_partial : forall t dflt regs l sym menu,
  po_default_domain_neutral t dflt sym menu = true ->
  (po_registered dflt regs l = false \/ po_translation (po_table t l DDefault) (po_source t dflt sym menu) = None) ->
  po_get t dflt regs (Some l) sym menu = po_get t dflt regs (Some dflt) sym menu.
Proof.
  intros t dflt regs l sym menu Hn H. apply BytesProofs.bytes_eqb_eq in Hn.
  assert (Hd : po_get t dflt regs (Some dflt) sym menu = po_source t dflt sym menu).
  { unfold po_get, po_registered. rewrite BytesProofs.bytes_eqb_refl. exact Hn. }
  rewrite Hd, po_get_unfold. cbv zeta. cbn [po_req_lang].
  destruct H as [H|H]; rewrite H; [|destruct (po_registered dflt regs l)]; reflexivity.
Qed.

(* eng maps foo to "Foo source" and its own default.po rewrites that to "Foo ENG"; nor (registered,
   entry with empty msgstr), fra (registered, no file) and spa (not registered) show "Foo source" *)
Theorem C18_po_fallback_refuted_defaultdomain :
  exists t dflt regs sym,
    let src := po_source t dflt sym false in
    po_default_domain_neutral t dflt sym false = false
    /\ po_get t dflt regs (Some dflt) sym false = s2b "Foo ENG"
    /\ po_get t dflt regs None sym false = s2b "Foo ENG"
    /\ (po_registered dflt regs (s2b "nor") = true /\ po_translation (po_table t (s2b "nor") DDefault) src = None
        /\ po_get t dflt regs (Some (s2b "nor")) sym false = s2b "Foo source")
    /\ (po_registered dflt regs (s2b "fra") = true /\ po_translation (po_table t (s2b "fra") DDefault) src = None
        /\ po_get t dflt regs (Some (s2b "fra")) sym false = s2b "Foo source")
    /\ (po_registered dflt regs (s2b "spa") = false
        /\ po_get t dflt regs (Some (s2b "spa")) sym false = s2b "Foo source").
Proof.
  exists ex_po_tables, (s2b "eng"), [s2b "nor"; s2b "fra"], (s2b "foo"). vm_compute.
  repeat split; reflexivity.
Qed.

(* eng default, nor and fra registered, swa on disk but not registered: every clause of the theorem
   is met by some call *)
Example C18_po_cases :
  let g := po_get ex_po_tables2 (s2b "eng") [s2b "nor"; s2b "fra"] in
  g (Some (s2b "nor")) (s2b "root") false = s2b "Velkommen"      (* key entry, translated *)
  /\ g (Some (s2b "nor")) (s2b "back") true = s2b "Tilbake"       (* menu key domain, translated *)
  /\ g (Some (s2b "nor")) (s2b "back") false = s2b "back"         (* no template key entry, no translation of the symbol *)
  /\ g (Some (s2b "nor")) (s2b "help") false = s2b "hjelp"        (* empty key msgstr: the symbol, translated as text *)
  /\ g (Some (s2b "fra")) (s2b "root") false = s2b "Welcome"      (* registered, no file: source string *)
  /\ g (Some (s2b "swa")) (s2b "root") false = s2b "Welcome"      (* file on disk, not registered: source string *)
  /\ g (Some (s2b "eng")) (s2b "root") false = s2b "Welcome"
  /\ g None (s2b "root") false = s2b "Welcome"
  /\ g (Some (s2b "nor")) (s2b "nokey") true = s2b "nokey".
Proof. vm_compute. repeat split; reflexivity. Qed.

(* non-interference hypotheses on concrete trees: dropping swa's files and nor's ignored key file *)
Example C18_po_agree_example :
  let t' := [ (s2b "eng", DKeyTpl, [(s2b "root", s2b "Welcome"); (s2b "help", [])]);
              (s2b "eng", DKeyMenu, [(s2b "back", s2b "Go back")]);
              (s2b "nor", DDefault, [(s2b "Welcome", s2b "Velkommen"); (s2b "Go back", s2b "Tilbake"); (s2b "help", s2b "hjelp")]) ] in
  (forall d, po_table ex_po_tables2 (s2b "eng") d = po_table t' (s2b "eng") d)
  /\ po_table ex_po_tables2 (s2b "nor") DDefault = po_table t' (s2b "nor") DDefault
  /\ po_table ex_po_tables2 (s2b "swa") DDefault <> po_table t' (s2b "swa") DDefault
  /\ po_table ex_po_tables2 (s2b "nor") DKeyTpl <> po_table t' (s2b "nor") DKeyTpl.
Proof. cbv zeta. split; [intros d; destruct d; vm_compute; reflexivity|]. vm_compute. repeat split; try reflexivity; discriminate. Qed.

Print Assumptions C18_po_getd.
Print Assumptions C18_po_translation_then_default.
Print Assumptions C18_po_get_closed_form.
Print Assumptions C18_po_noninterference.
Print Assumptions C18_po_flush_noninterference.
Print Assumptions C18_po_fallback_is_default_session_partial.
Print Assumptions C18_po_fallback_refuted_defaultdomain.
