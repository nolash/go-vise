(* C19 — Independent sessions can be served concurrently without interference   (claimed: PARTIAL)

   Property text: "Sessions that share nothing but immutable application data (bytecode, templates,
   labels) and are served at the same time on different goroutines - each with its own engine, state,
   cache and store handle - produce exactly the outputs they produce when served one after another,
   with no data race.  The library keeps no hidden mutable state that one session's execution can leak
   into another's."

   A theorem cannot exhibit a scheduler or a data race.  What IS logic is stated and proved here:

   (1) the slice-aliasing discipline of the one shared-memory object the property's anchors name, the
       pending-code buffer `b` of vm/runner.go (model/SliceHeap.v: Go slices = (array, offset, len, cap),
       `append` writes in place when the capacity allows, resource code slices live in SHARED arrays with
       arbitrary spare capacity, the growth of reallocated arrays is an arbitrary function).  For ANY
       number of sessions, ANY interleaving of their buffer operations, any capacities and growth:
         C19_no_write_to_shared            no write ever lands in a shared array; shared arrays keep
                                           their initial content (spare capacity included)
         C19_sessions_refine_values        what every session can read of its buffers after each of its
                                           steps is what value semantics (VmModel's plain byte lists) gives
         C19_sessions_noninterfering       ... hence the same as when its operations run alone
         C19_vm_run_on_heap                for every Run of VmModel (any program, state, fuel) SOME sequence
                                           of repaired operations, replayed on the heap among arbitrary other
                                           sessions, yields the code Run leaves.  The theorem does not say
                                           that it is what Run did: that every Run is a sequence of the
                                           operations `run_op` (consume, a node's code appended or in place of
                                           the buffer, [] and "MOVE _catch" as the only fresh data) is
                                           SliceHeapProofs.vm_run_is_op_trace, from which it is derived
         C19_adopt_refuted                 with a CATCH that keeps the resource's slice (`b = bh`, OpAdopt) the
                                           statement is false: two sessions on ONE goroutine, session 1 reads
                                           [2;2] where alone it reads [1;1], and the shared array is overwritten
                                           (runCatch copies the code: go-vise 800b081, OpReplaceFromResource)
   (2) request-level interleavings: the request functions of EngineModel take and return only the
       served session's engine (resp. store) and the immutable resource; any interleaving of requests
       gives every session its solo responses and final state
         C19_requests_noninterfering_long / _persisted

   NOT covered by any theorem, validated only by runs of the real code under the Go race detector
   (harness drivers `alias` and `race`, go build -race): interleavings below the request level, the Go
   memory model, and that package-level variables (vm input validators, state.FlagDebugger,
   logging.LogWriter, ...) are written only by set-up calls (list in notes/integration_conc.md). *)
From Vise Require Import Bytes Errors Consts EngConsts Codec CacheModel StateModel NavModel RenderModel VmModel EngineModel SliceHeap SliceHeapProofs.
Local Open Scope N_scope.

Theorem C19_init_invariant : forall tbl, winv tbl (world_init tbl).
Proof. exact winv_init. Qed.

Theorem C19_no_write_to_shared : forall c w sched,
  winv (sc_res c) w -> sched_repaired sched = true ->
  Forall writes_owned (snd (run_sched c w sched)) /\
  shared_intact (sc_res c) (w_heap (fst (run_sched c w sched))).
Proof.
  intros c w sched Hinv Hrep. destruct (run_sched c w sched) as [w1 t1] eqn:E1.
  destruct (run_sched_refines Hrep Hinv E1) as ([R0 _] & _ & _ & R2). split; assumption.
Qed.

Theorem C19_sessions_refine_values : forall c sched w w' tr,
  sched_repaired sched = true -> winv (sc_res c) w -> run_sched c w sched = (w', tr) ->
  winv (sc_res c) w' /\
  (forall s, obs_of s tr = pure_run (sc_res c) (wobs w s) (map snd (sched_of s sched))) /\
  (forall s, wobs w' s = pure_exec (sc_res c) (wobs w s) (map snd (sched_of s sched))) /\
  Forall writes_owned tr.
Proof. exact @run_sched_refines. Qed.

Theorem C19_sessions_noninterfering : forall c c' w sched s,
  sc_res c' = sc_res c -> winv (sc_res c) w -> sched_repaired sched = true ->
  obs_of s (snd (run_sched c w sched)) = obs_of s (snd (run_sched c' w (sched_of s sched))).
Proof.
  intros c c' w sched s Hres Hinv Hrep.
  destruct (run_sched c w sched) as [w1 t1] eqn:E1.
  destruct (run_sched c' w (sched_of s sched)) as [w2 t2] eqn:E2. cbn [snd].
  destruct (run_sched_refines Hrep Hinv E1) as (_ & R1 & _ & _).
  rewrite <- Hres in Hinv.
  destruct (run_sched_refines (sched_of_repaired s _ Hrep) Hinv E2) as (_ & R2 & _ & _).
  rewrite R1, R2, sched_of_idem, Hres. reflexivity.
Qed.

(* As stated, with ops hidden behind the quantifier, any b' would do: OpReplaceFresh b' is a repaired
   operation.  The statement about Run is SliceHeapProofs.vm_run_is_op_trace (ops restricted by run_op). *)
Theorem C19_vm_run_on_heap : forall a sp c fuel sep lang b code v v' b' st,
  sc_res c = tbl_of a sp ->
  run fuel (app_rsrc a) sep lang b v = (v', b', st) ->
  exists ops, forallb op_repaired ops = true /\
    forall w s sched w' tr,
      winv (sc_res c) w -> wobs w s = (b, code) ->
      sched_repaired sched = true -> map snd (sched_of s sched) = ops ->
      run_sched c w sched = (w', tr) -> wobs w' s = (b', code).
Proof.
  intros a sp c fuel sep lang b code v v' b' st Hres Hrun.
  destruct (vm_run_is_op_trace sp code Hrun) as (ops & H1 & H2).
  exists ops. split; [exact (run_op_repaired _ H1)|].
  intros w s sched w' tr Hinv Hobs Hrep Hops Hsched.
  destruct (run_sched_refines Hrep Hinv Hsched) as (_ & _ & R & _).
  rewrite R, Hops, Hobs, Hres. exact H2.
Qed.

Theorem C19_adopt_refuted :
  exists c w sched s,
    winv (sc_res c) w /\ sched_repaired sched = false /\
    obs_of s (snd (run_sched c w sched)) <> obs_of s (snd (run_sched c w (sched_of s sched))) /\
    last (obs_of s (snd (run_sched c w sched))) ([], []) = ([2; 2], []) /\
    last (obs_of s (snd (run_sched c w (sched_of s sched)))) ([], []) = ([1; 1], []) /\
    w_heap (fst (run_sched c w sched)) (OShared, 0) <> res_heap (sc_res c) (OShared, 0).
Proof.
  exists adopt_cfg, (world_init adopt_tbl), adopt_sched, 1.
  split; [apply winv_init|]. split; [reflexivity|].
  split; [intros H; vm_compute in H; discriminate H|].
  split; [vm_compute; reflexivity|]. split; [vm_compute; reflexivity|].
  intros H; vm_compute in H; discriminate H.
Qed.

Theorem C19_requests_noninterfering_long : forall fuel rs cf sched (w : N -> engine) sid,
  of_sid sid (snd (serve (request_long fuel rs cf) w sched))
  = snd (serve_solo (request_long fuel rs cf) (w sid) (of_sid sid sched)) /\
  fst (serve (request_long fuel rs cf) w sched) sid
  = fst (serve_solo (request_long fuel rs cf) (w sid) (of_sid sid sched)).
Proof. intros. apply serve_noninterference. Qed.

Theorem C19_requests_noninterfering_persisted : forall fuel rs cf sched (w : N -> pworld) sid,
  of_sid sid (snd (serve (request_persisted fuel rs cf) w sched))
  = snd (serve_solo (request_persisted fuel rs cf) (w sid) (of_sid sid sched)) /\
  fst (serve (request_persisted fuel rs cf) w sched) sid
  = fst (serve_solo (request_persisted fuel rs cf) (w sid) (of_sid sid sched)).
Proof. intros. apply serve_noninterference. Qed.

(* non-vacuity: three sessions, twelve interleaved repaired steps on a resource with spare capacity;
   in-place appends happen (steps 3, 4), a reallocation happens (step 11), the shared array is intact *)
Example C19_nonvacuous :
  sched_repaired repaired_sched = true /\
  obs_of 1 (snd (run_sched adopt_cfg (world_init adopt_tbl) repaired_sched))
  = [([9; 9; 9], []); ([9; 9; 9; 1; 1], []); ([1; 1], []); ([], [1; 1]); ([1; 1], []); ([1; 1; 2; 2], []); ([], [])] /\
  obs_of 2 (snd (run_sched adopt_cfg (world_init adopt_tbl) repaired_sched))
  = [([9; 9; 9], []); ([9; 9; 9; 2; 2], []); ([2], [])] /\
  map te_writes (snd (run_sched adopt_cfg (world_init adopt_tbl) repaired_sched))
  = [[(OOwned 1, 0)]; [(OOwned 2, 0)]; [(OOwned 1, 0)]; [(OOwned 2, 0)]; []; [(OOwned 3, 0)]; []; [];
     [(OOwned 3, 1)]; []; [(OOwned 1, 1)]; []] /\
  w_heap (fst (run_sched adopt_cfg (world_init adopt_tbl) repaired_sched)) (OShared, 0) = [9; 9; 9] ++ rep 238 8.
Proof. vm_compute. repeat split; reflexivity. Qed.

Print Assumptions C19_init_invariant.
Print Assumptions C19_no_write_to_shared.
Print Assumptions C19_sessions_refine_values.
Print Assumptions C19_sessions_noninterfering.
Print Assumptions C19_vm_run_on_heap.
Print Assumptions C19_adopt_refuted.
Print Assumptions C19_requests_noninterfering_long.
Print Assumptions C19_requests_noninterfering_persisted.
Print Assumptions C19_nonvacuous.
