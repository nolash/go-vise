(* C04 (engine level) — Navigation stack and page index follow the documented move table: after
   every run and every request the session's position (s_path, s_idx) is exactly what the table gives
   for the moves executed, whether the move came from MOVE, INCMP or CATCH.
   (Component level — one call of applyTarget against the table — is props/C04nav.v.)

   Full statement: for every `run` (ANY code bytes, ANY resource, machine whose cache has >= 1 frame,
   ANY fuel, ANY outcome — error, SPanic and SFuel included):
       pos_of (v_st v') = nav_fold nav_spec (pos_of (v_st v)) (moves executed)
   where the moves executed are the targets of the EvMove events the run appended to v_log, oldest
   first (log_moves).  EvMove is logged by the model exactly when applyTarget returned nil, before
   the code fetch.  It holds with nav_code (C04_position_follows_moves, unguarded); against the
   DOCUMENTED table nav_spec it is false in the one class K-C04-up-at-entry ("_" at the entry node
   succeeds and empties the stack): C04_position_follows_spec_partial (guard up_free, decidable)
   and C04_position_follows_spec_refuted_up_at_entry, side by side.

   Requests: besides the runs (Exec's run, Flush's catch run on BrowseError), the engine changes the
   position only by Engine.reset (eng_reset_inner: graceful end in Flush, ResetOnEmptyInput, the
   unwinding of a stale position when a new engine object takes over a session without pending
   code), which sets it to ([], 0) — `preset`; these resets are not moves of the table and are not
   logged.  pos_reach v v' = "there is a trace of PMove t / PReset steps leading from v's position to
   v''s whose PMove targets are exactly the logged moves".  C04_request_position(_persisted) give
   pos_reach for every request, and the plain fold (no reset) for a continuing request.
   Guard c_first c = None: with an entry function (WithFirst) "_first" is pushed with State.Down and
   popped with State.Up outside applyTarget — not logged, and both set the page index to 0
   (C04_first_outside_table). *)
From Vise Require Import Bytes Errors Consts EngConsts Codec CacheModel StateModel NavModel NavSpec RenderModel
  VmModel EngineModel NavProofs VmProofs RoutingProofs.
Local Open Scope N_scope.

Theorem C04_position_follows_moves : forall fuel rs sep lang b v v' b' s,
  c_frames (v_ca v) <> [] ->
  run fuel rs sep lang b v = (v', b', s) ->
  c_frames (v_ca v') <> [] /\
  exists new, v_log v' = new ++ v_log v
    /\ nav_fold nav_code (pos_of (v_st v)) (log_moves new) = Some (pos_of (v_st v')).
Proof. intros * Hc H. pose proof (run_follows fuel rs sep lang b v Hc) as F. rewrite H in F. exact F. Qed.

Theorem C04_position_follows_spec_partial : forall fuel rs sep lang b v v' b' s,
  c_frames (v_ca v) <> [] -> run fuel rs sep lang b v = (v', b', s) ->
  exists new, v_log v' = new ++ v_log v
    /\ (up_free (pos_of (v_st v)) (log_moves new) = true ->
        nav_fold nav_spec (pos_of (v_st v)) (log_moves new) = Some (pos_of (v_st v'))).
Proof.
  intros fuel rs sep lang b v v' b' s Hc H.
  destruct (run_follows fuel rs sep lang b v Hc) as (_ & new & L & F). rewrite H in L, F.
  exists new. split; [exact L|]. intros G. rewrite (fold_spec_code _ _ G). exact F.
Qed.

Theorem C04_position_follows_spec_refuted_up_at_entry :
  exists fuel rs sep lang b v v' b' s new,
    c_frames (v_ca v) <> [] /\ run fuel rs sep lang b v = (v', b', s)
    /\ v_log v' = new ++ v_log v /\ log_moves new = [t_up]
    /\ up_free (pos_of (v_st v)) (log_moves new) = false
    /\ nav_fold nav_spec (pos_of (v_st v)) (log_moves new) = None
    /\ pos_of (v_st v) = ([s2b "root"], 0) /\ pos_of (v_st v') = ([], 0).
Proof.
  exists 20%nat, (app_rsrc ex_app), [], None, (incmp_block [(t_up, s2b "0")]), (ex_vm 0 (s2b "0")).
  eexists. eexists. eexists. exists [EvCode []; EvMove 1 t_up []; EvInCmp t_up (s2b "0") true; EvInstr op_INCMP].
  split; [vm_compute; discriminate|]. split; [vm_compute; reflexivity|].
  split; [vm_compute; reflexivity|]. vm_compute. repeat split.
Qed.

(* one handler: leaves the position alone or performs exactly one logged move of the table
   (MOVE, INCMP, CATCH alike; CROAK, LOAD, RELOAD, MAP, HALT and the menu instructions do not move) *)
Theorem C04_handler_follows : forall rs sep lang i b v v' b' s,
  c_frames (v_ca v) <> [] -> exec_instr rs sep lang i b v = (v', b', s) -> pos_follows v v'.
Proof. intros * Hc H. pose proof (exec_instr_follows rs sep lang i b v Hc) as F. rewrite H in F. exact F. Qed.

Theorem C04_lateral_only_index : forall t st ca st' ca' sym r,
  t = t_next \/ t = t_prev -> apply_target t st ca = (st', ca', sym, r) ->
  (* only the page index can change: stack, cache and every other field stay *)
  st' = set_path_idx st (s_path st) (s_idx st') /\ ca' = ca
  (* a failing call changes nothing at all; "<" on the first page fails with IndexError *)
  /\ (r <> SOk -> st' = st)
  /\ (t = t_prev -> s_path st <> [] -> s_idx st = 0 -> st' = st /\ r = SErr EIndex (Some msg_index))
  /\ (r = SOk -> s_idx st' = if bytes_eqb t t_next then w16 (s_idx st + 1) else s_idx st - 1).
Proof.
  (* the four answers of a lateral call, each written out in NavProofs (apply_prev_ok: RoutingProofs); what is
     left of the five claims after `repeat split` is a refuted premise *)
  intros t st ca st' ca' sym r Ht H. destruct (s_path st) as [|x p] eqn:Ep.
  - (* nowhere: both fail *)
    destruct (fail_lateral_empty st ca Ep) as [Fp Fn].
    destruct Ht as [-> | ->]; rewrite ?Fp, ?Fn in H; injection H as <- <- <- <-; rewrite <- Ep at 1;
      (split; [apply state_eta|]); repeat split; discriminate || congruence.
  - assert (Hp : s_path st <> []) by (rewrite Ep; discriminate). rewrite <- Ep. destruct Ht as [-> | ->].
    + (* ">" *) rewrite next_never_fails in H by exact Hp. injection H as <- <- <- <-.
      repeat split; discriminate || congruence.
    + destruct (N.eq_dec (s_idx st) 0) as [E0|E0].
      * (* "<" on the first page *) rewrite fail_prev_at_zero in H by assumption. injection H as <- <- <- <-.
        split; [apply state_eta|]. repeat split; discriminate || congruence.
      * (* "<" above it *) rewrite apply_prev_ok in H by assumption. injection H as <- <- <- <-.
        repeat split; discriminate || congruence.
Qed.

Theorem C04_lateral_table : forall p t p',
  t = t_next \/ t = t_prev -> nav_code p t = Some p' -> fst p' = fst p.
Proof.
  intros p t p' [-> | ->]; rewrite nav_code_not_up by reflexivity.
  - rewrite nav_spec_next. destruct (fst p) eqn:E; [discriminate|]. intros H; inversion H. cbn [fst]. reflexivity.
  - rewrite nav_spec_prev. destruct (fst p) eqn:E; [discriminate|]. destruct (snd p =? 0); [discriminate|].
    intros H; inversion H. cbn [fst]. reflexivity.
Qed.

(* Vm.Render: its catch run on BrowseError is again a run *)
Theorem C04_render_position : forall fuel rs sep lang v v' r,
  c_frames (v_ca v) <> [] -> vm_render fuel rs sep lang v = (v', r) -> pos_follows v v'.
Proof. intros * Hc H. pose proof (vm_render_follows fuel rs sep lang v Hc) as F. rewrite H in F. exact F. Qed.

(* Engine.reset: the position becomes ([], 0) (nothing changes when the stack is already empty),
   nothing is logged *)
Theorem C04_reset_position : forall v v' s,
  eng_reset_inner v = (v', s) ->
  pos_of (v_st v') = preset (pos_of (v_st v)) /\ v_log v' = v_log v
  /\ (c_frames (v_ca v) <> [] -> c_frames (v_ca v') <> [])
  /\ (s_path (v_st v) <> [] -> s = SOk).
Proof. exact eng_reset_inner_spec. Qed.

(* Flush: render, and a reset only when the engine is exiting *)
Theorem C04_flush_position : forall fuel rs c e e' out f,
  c_frames (v_ca (e_v e)) <> [] -> eng_flush fuel rs c e = (e', out, f) ->
  pos_reach (e_v e) (e_v e') /\ e_initd e' = e_initd e /\ e_execd e' = e_execd e
  /\ (e_exiting e = false -> pos_follows (e_v e) (e_v e') /\ e_exiting e' = false).
Proof. exact eng_flush_reach. Qed.

(* Exec (init + reset-on-empty + input validation + run): no entry function, or already initialised *)
Theorem C04_exec_position : forall fuel rs c e input e' cont s,
  (e_initd e = true \/ c_first c = None) -> c_frames (v_ca (e_v e)) <> [] ->
  eng_exec fuel rs c e input = (e', cont, s) ->
  pos_reach (e_v e) (e_v e')
  /\ (cont = true -> e_initd e' = true /\ e_exiting e' = false)
  /\ (e_exiting e = false -> (e_initd e = true \/ (e_execd e = false /\ no_stale (v_st (e_v e)))) ->
      (c_reset_empty c && (len input =? 0)) = false -> pos_follows (e_v e) (e_v e')).
Proof.
  intros * Hf Hc H. destruct (eng_exec_reach _ _ _ _ _ _ _ _ Hf Hc H) as ([R F] & I).
  split; [exact R|]. split; [exact I|].
  (* eng_exec_reach takes the three premises under which the position follows the move table as one
     conjunction, the guard of `reach` *)
  intros A B C. exact (F (conj (conj A B) C)).
Qed.

(* long-lived engine: Exec then Flush.  Second conjunct: a continuing request of an initialised
   engine (or of a new one without a stale position), not a reset-on-empty one, changes the position
   by the logged moves only: the plain fold *)
Theorem C04_request_position : forall fuel rs c e input e' resp,
  (e_initd e = true \/ c_first c = None) -> c_frames (v_ca (e_v e)) <> [] ->
  request_long fuel rs c e input = (e', resp) ->
  pos_reach (e_v e) (e_v e')
  /\ (e_exiting e = false -> (e_initd e = true \/ (e_execd e = false /\ no_stale (v_st (e_v e)))) ->
      (c_reset_empty c && (len input =? 0)) = false -> r_cont resp = true ->
      pos_follows (e_v e) (e_v e')).
Proof. exact request_long_reach. Qed.

(* persisted operation: the stored record before and after the request *)
Theorem C04_request_position_persisted : forall fuel rs c p input p' resp,
  c_first c = None -> c_frames (snd (start_snap c p)) <> [] ->
  request_persisted fuel rs c p input = (p', resp) ->
  exists st' ca', pw_store p' = Some (st', ca') /\ c_frames ca' <> []
  /\ ((* the record was not rewritten (panic, out of fuel, engine not initialised) *)
      (pos_of st' = pos_of (fst (start_snap c p)) /\ ca' = snd (start_snap c p))
      \/ exists new tr, pw_log p' = new ++ pw_log p /\ trace_moves tr = log_moves new
           /\ pos_trace (pos_of (fst (start_snap c p))) tr = Some (pos_of st'))
  /\ (no_stale (fst (start_snap c p)) -> (c_reset_empty c && (len input =? 0)) = false ->
      r_cont resp = true -> fstat_fatal (r_flush resp) = false ->
      exists new, pw_log p' = new ++ pw_log p
        /\ nav_fold nav_code (pos_of (fst (start_snap c p))) (log_moves new) = Some (pos_of st')).
Proof.
  intros fuel rs c p input p' resp Hf Hc H.
  destruct (request_persisted_record _ _ _ _ _ _ _ Hf Hc H) as (_ & st' & ca' & Hs & Hc' & D & G).
  exists st', ca'. split; [exact Hs|]. split; [exact Hc'|]. split; [|exact G].
  destruct (fstat_fatal (r_flush resp)); [left|right]; exact D.
Qed.

(* whole histories: ANY list of inputs on a long-lived engine, and from a new engine without a stored
   session (the trace then starts at the empty position) *)
Theorem C04_history_position : forall inputs fuel rs c e,
  c_first c = None -> c_frames (v_ca (e_v e)) <> [] ->
  pos_reach (e_v e) (e_v (long_history fuel rs c e inputs)).
Proof. exact long_history_reach. Qed.

Theorem C04_history_position_fresh : forall inputs fuel rs c w lg,
  c_first c = None ->
  let e := long_history fuel rs c (new_engine c None w lg) inputs in
  exists new tr, v_log (e_v e) = new ++ lg /\ trace_moves tr = log_moves new
    /\ pos_trace ([], 0) tr = Some (pos_of (v_st (e_v e))).
Proof.
  intros inputs fuel rs c w lg Hf. cbv zeta.
  destruct (long_history_reach inputs fuel rs c (new_engine c None w lg) Hf (fresh_cache_ok c)) as (_ & new & tr & L & M & T).
  exists new, tr. cbn [new_engine e_v v_st] in T. rewrite fresh_state_pos in T. auto.
Qed.

(* persisted operation, whole histories: ANY application (resource), ANY configuration without entry
   function, ANY list of inputs served by request_persisted (a new engine object per request, the log
   and the store thread through pworld) from the empty world, no request ending in a panic or out of
   fuel (then Finish is not reached and the ghost log, a model artefact, runs ahead of the store):
   the stored position is reached from ([], 0) by a trace of table moves and engine resets
   (pstep = PMove target | PReset) that explains the log: its moves are exactly the logged EvMove
   targets, oldest first *)
Theorem C04_history_position_persisted : forall inputs fuel rs c p' resps,
  c_first c = None ->
  pers_history fuel rs c (mkPw None [] [] false) inputs = (p', resps) -> no_fatal resps = true ->
  (inputs <> [] -> exists st' ca', pw_store p' = Some (st', ca') /\ c_frames ca' <> []
     /\ exists tr, trace_moves tr = log_moves (pw_log p') /\ pos_trace ([], 0) tr = Some (pos_of st'))
  /\ (inputs = [] -> p' = mkPw None [] [] false).
Proof.
  intros inputs fuel rs c p' resps Hf H Hn.
  destruct (pers_history_explained inputs fuel rs c _ p' resps Hf (explained_fresh c) H Hn) as [(Hc & tr & M & T) Hs].
  split.
  - intros Hne. destruct (Hs Hne) as [[st' ca'] Hst]. unfold start_snap in Hc, T. rewrite Hst in Hc, T. cbn [fst snd] in Hc, T.
    exists st', ca'. split; [exact Hst|]. split; [exact Hc|]. exists tr. auto.
  - intros ->. cbn [pers_history] in H. inversion H. reflexivity.
Qed.

(* one such request, from any stored record *)
Theorem C04_request_trace_persisted : forall fuel rs c p input p' resp,
  c_first c = None -> c_frames (snd (start_snap c p)) <> [] ->
  request_persisted fuel rs c p input = (p', resp) -> resp_fatal resp = false ->
  exists st' ca', pw_store p' = Some (st', ca') /\ c_frames ca' <> []
    /\ exists new tr, pw_log p' = new ++ pw_log p /\ trace_moves tr = log_moves new
         /\ pos_trace (pos_of (fst (start_snap c p))) tr = Some (pos_of st').
Proof. exact request_persisted_trace. Qed.

(* the entry function is outside the table: no move logged, page index reset to 0 *)
Theorem C04_first_outside_table :
  exists c e, c_first c <> None /\
    let '(e', _, _) := run_first 10 c None e in
    pos_of (v_st (e_v e)) = ([s2b "root"], 2) /\ pos_of (v_st (e_v e')) = ([s2b "root"], 0)
    /\ log_moves (v_log (e_v e')) = log_moves (v_log (e_v e)).
Proof.
  exists (mkCfg 0 (s2b "root") 8 0 [] [] false (Some [mkFres (s2b "hello") false 0 [] [] false])).
  exists (mkEng (mkVm (set_path_idx (new_state 8) [s2b "root"] 2) (cache_push (new_cache 0)) (new_vm_page 0 []) [] [] false)
                false [] false false).
  split; [discriminate|]. vm_compute. repeat split.
Qed.

(* a run from root's HALT with the block INCMP bar 1 and input "1": one move is logged (bar, by INCMP)
   and the position is the table's; the cache hypothesis holds *)
Example C04_run_nonvacuous :
  let v := ex_vm 0 (s2b "1") in
  c_frames (v_ca v) <> [] /\
  let '(v', b, st) := run 20 (app_rsrc ex_app) [] None (incmp_block [(s2b "bar", s2b "1")]) v in
  st = SOk /\ pos_of (v_st v) = ([s2b "root"], 0) /\ pos_of (v_st v') = ([s2b "root"; s2b "bar"], 0)
  /\ log_moves (v_log v') = log_moves (v_log v) ++ [s2b "bar"]
  /\ nav_fold nav_spec (pos_of (v_st v)) [s2b "bar"] = Some (pos_of (v_st v')).
Proof. vm_compute. repeat split. discriminate. Qed.

(* requests on the corpus application dupsel, long-lived engine: "" (MOVE root), "5" (wildcard: baz),
   "0" (_), "1" (foo, then bar: K-C03-dupsel), "0" (_) — after each request the position is the
   fold of the table over ALL moves logged so far *)
Example C04_request_long_nonvacuous :
  let e0 := new_engine ex_cfg None [] [] in
  let check (ins : list bytes) (p : list bytes * N) :=
      let e := ex_long e0 ins in
      pos_of (v_st (e_v e)) = p /\ nav_fold nav_spec ([], 0) (log_moves (v_log (e_v e))) = Some p in
  c_first ex_cfg = None /\ c_frames (v_ca (e_v e0)) <> []
  /\ check [[]] ([s2b "root"], 0)
  /\ check [[]; s2b "5"] ([s2b "root"; s2b "baz"], 0)
  /\ check [[]; s2b "5"; s2b "0"] ([s2b "root"], 0)
  /\ check [[]; s2b "5"; s2b "0"; s2b "1"] ([s2b "root"; s2b "foo"; s2b "bar"], 0)
  /\ check [[]; s2b "5"; s2b "0"; s2b "1"; s2b "0"] ([s2b "root"; s2b "foo"], 0)
  /\ (let e := ex_long e0 [[]; s2b "5"] in e_initd e = true /\ e_exiting e = false)
  /\ log_moves (v_log (e_v (ex_long e0 [[]; s2b "5"; s2b "0"; s2b "1"; s2b "0"])))
     = [s2b "root"; s2b "baz"; t_up; s2b "foo"; s2b "bar"; t_up].
Proof. vm_compute. repeat split. discriminate. Qed.

(* the same history in persisted operation (a new engine object per request) *)
Example C04_request_persisted_nonvacuous :
  let p0 := mkPw None [] [] false in
  let check (ins : list bytes) (pos : list bytes * N) :=
      let p := ex_pers p0 ins in
      option_map (fun sn => pos_of (fst sn)) (pw_store p) = Some pos
      /\ nav_fold nav_spec ([], 0) (log_moves (pw_log p)) = Some pos in
  check [[]] ([s2b "root"], 0)
  /\ check [[]; s2b "5"] ([s2b "root"; s2b "baz"], 0)
  /\ check [[]; s2b "5"; s2b "0"] ([s2b "root"], 0)
  /\ check [[]; s2b "5"; s2b "0"; s2b "1"] ([s2b "root"; s2b "foo"; s2b "bar"], 0)
  /\ check [[]; s2b "5"; s2b "0"; s2b "1"; s2b "0"] ([s2b "root"; s2b "foo"], 0).
Proof. vm_compute. repeat split. Qed.

(* the persisted history theorem is not vacuous: the corpus history, no fatal response, final record *)
Example C04_history_persisted_nonvacuous :
  let '(p, resps) := pers_history 200 (app_rsrc ex_eng_app) ex_cfg (mkPw None [] [] false)
                                  [[]; s2b "5"; s2b "0"; s2b "1"; s2b "0"] in
  c_first ex_cfg = None /\ no_fatal resps = true
  /\ option_map (fun sn => pos_of (fst sn)) (pw_store p) = Some ([s2b "root"; s2b "foo"], 0)
  /\ log_moves (pw_log p) = [s2b "root"; s2b "baz"; t_up; s2b "foo"; s2b "bar"; t_up]
  /\ pos_trace ([], 0) (map PMove (log_moves (pw_log p))) = Some ([s2b "root"; s2b "foo"], 0).
Proof. vm_compute. repeat split. Qed.

Print Assumptions C04_position_follows_moves.
Print Assumptions C04_position_follows_spec_partial.
Print Assumptions C04_position_follows_spec_refuted_up_at_entry.
Print Assumptions C04_handler_follows.
Print Assumptions C04_lateral_only_index.
Print Assumptions C04_lateral_table.
Print Assumptions C04_render_position.
Print Assumptions C04_reset_position.
Print Assumptions C04_flush_position.
Print Assumptions C04_exec_position.
Print Assumptions C04_request_position.
Print Assumptions C04_request_position_persisted.
Print Assumptions C04_history_position.
Print Assumptions C04_history_position_fresh.
Print Assumptions C04_history_position_persisted.
Print Assumptions C04_request_trace_persisted.
Print Assumptions C04_first_outside_table.
