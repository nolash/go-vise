(* C06 — Signal flags steer control flow and the reserved ones are tamper-proof.

   Property (properties.jsonl): CATCH moves to its target exactly when the named flag's state
   equals the given mode and otherwise does nothing; CROAK, under the same test, abandons the
   pending bytecode so that the session terminates or, while input is being handled, goes to the
   catch node.  External code can set and reset only client flags (8 and up), TERMINATE and
   LANG - requests to change the other built-in flags are ignored - and while TERMINATE is set no
   instruction runs, no external function is called and no position changes until client code
   clears it.  Quantifier: all flag indices within the configured flag count, both match modes,
   all FlagSet/FlagReset lists returned by external functions (including reserved indices
   0..5), all histories.

   What is stated below (all over the executable model VmModel/EngineModel, for ALL resources,
   machine states, codes, fuel, inputs, histories; the run loop is fuelled, and the statements that
   say what a run or a request returns (C06_croak_then_dead_check, C06_croak_no_match_run,
   C06_terminate_blocks_run and the C06_blocked_ / C06_terminated_ family) are for `S fuel`, i.e.
   every fuel that lets the loop look at one instruction; the others hold for every fuel):

   1. C06_catch_iff_match        CATCH, flag in range (`flag_in_range`, the property's "within the
                                 configured flag count"; outside it the model panics like
                                 State.GetFlag: C06_out_of_range_panics): no match => machine and
                                 code unchanged; match => apply_target's result, the target's
                                 code REPLACES the pending code; and the instruction is a no-op
                                 IF AND ONLY IF the flag does not match.
   2. C06_croak_iff_match        CROAK at handler level; C06_croak_then_dead_check at `run` level:
                                 `run (S fuel)` on `encode (ICroak sig mode) ++ rest` from a
                                 matching state drops `rest`, and then runDeadCheck decides: READIN
                                 clear => TERMINATE set and the run returns; READIN set => the run
                                 continues with `MOVE _catch` and the invalid-input page error
                                 (error when already at _catch or nowhere).  The flag is tested on
                                 the state the loop's preamble leaves (pre_st: LANG, WAIT cleared,
                                 INMATCH cleared after a HALT, DIRTY set); for any other flag
                                 that is the state's own value (C06_preamble_keeps_other_flags).
   3. C06_external_cannot_touch_reserved (refresh), C06_load_reserved, C06_reload_reserved:
                                 for ALL flag lists (any N) a function returns,
                                 every flag i <= nonwriteable_flag_threshold
                                 keeps its value, except LOADFAIL which the VM sets when the
                                 function fails.  C06_run_reserved / C06_reserved_never_changes:
                                 across a whole `run`, among flags 0..5 only READIN, INMATCH, WAIT,
                                 DIRTY (the VM's own transitions) can change, LOADFAIL only if some
                                 function of the resource can fail, RESERVED never.
                                 C06_first_reserved: the same for the engine's entry function.
                                 C06_reserved_requests_ignored_run/_request: a run, and a whole
                                 persisted or long-lived request (entry function included), is
                                 IDENTICAL to that of the application whose functions do not ask
                                 for reserved flags at all (strip_fres) - "ignored" on every path
                                 by which a result can reach the state.
                                 C06_history_reserved_clear / C06_history_loadfail: over every
                                 history from the empty store RESERVED is never set in a stored
                                 session, LOADFAIL only if some function can fail (what the monitor
                                 c06_reserved of EngineMon checks, for all applications and histories).
   4. C06_external_can_set_client_terminate_lang: flags >= 6 in range requested by a successful
                                 function ARE applied, FlagReset first, then FlagSet.
   5. C06_terminate_blocks_run   TERMINATE set => `run` returns at once: machine unchanged (no
                                 instruction, no function call, no move, no log entry), code dropped.
      C06_blocked_request        persisted operation, NO entry function, stored session with
                                 TERMINATE set and DIRTY clear, input accepted (not refused_b), and
                                 not an empty input under ResetOnEmptyInput at a non-empty position
                                 (guard `reset_req`: that configuration restarts the session on
                                 empty input by design, clearing the flag): the request answers
                                 cont = false, status OK, empty output, flush OK; world and ghost
                                 log are unchanged (no function call, no code fetch, no move, no
                                 instruction); the stored session is what it was except that the
                                 pending code is dropped (s_code = []: the stored code, or the
                                 `MOVE <root>` injected for an empty one, is taken by exec and
                                 dropped when run returns with TERMINATE) and the input is nil.
      C06_blocked_until_cleared  hence, by induction, every later request of any list of such
                                 inputs.
      FULL STRENGTH (no hypothesis on DIRTY) IS FALSE - finding K-C06-dirty,
      C06_blocked_refuted_dirty: when the request in which external code set TERMINATE fails
      afterwards in Exec (e.g. the LOAD that set it rejects an over-long value), Flush does not run
      and the session is saved with TERMINATE AND DIRTY; the next, blocked, request renders the
      current page (template/menu lookups, OUTPUT "foo") and clears DIRTY.  Replayed on the real
      engine (persisted flags 0x52 -> out "foo" -> 0x42).  What does hold without the DIRTY
      hypothesis: C06_blocked_request_weak (cont = false, OK, world unchanged, the only ghost
      events are renderings, stored session = old one with DIRTY cleared and code dropped) and
      C06_terminated_stays_blocked (every request after that first one is blocked strictly).
      LONG-LIVED engine: C06_blocked_request_long / C06_blocked_until_cleared_long - an
      initialised engine whose last output was delivered, TERMINATE set, DIRTY clear, WITH OR WITHOUT an
      entry function (it ran when the engine was initialised): every request reports stop, empty
      output, logs nothing, changes nothing but the pending code (dropped) and the input; the first one
      returns OK, the later ones fail in exec ("no code to execute": a long-lived engine injects
      MOVE <root> only once) and Flush then reports ErrFlushNoExec.
   FALSE with an entry function (finding K-C06-first): C06_blocked_refuted_first
   - the entry function's VM returns at once, runFirst takes the STALE last cache value as exit
   text, clears TERMINATE in memory, and the blocked request outputs that value (and is not saved). *)
From Vise Require Import Bytes Errors Consts EngConsts Codec CacheModel StateModel NavModel NavSpec RenderModel
  VmModel EngineModel VmProofs FlagProofs FlagProofs2.
Local Open Scope N_scope.

Theorem C06_catch_iff_match : forall rs sym sig mode b v,
  flag_in_range (v_st v) sig = true ->
  (getf (v_st v) sig <> mode -> run_catch rs sym sig mode b v = (v, b, SOk))
  /\ (getf (v_st v) sig = mode ->
      let '(st', ca', nsym, s) := apply_target sym (v_st v) (v_ca v) in
      match s with
      | SOk => match rs_code rs nsym with
               | Ok code => run_catch rs sym sig mode b v = (caught rs sym nsym st' ca' v, code, SOk)
               | Err e => run_catch rs sym sig mode b v = (caught rs sym nsym st' ca' v, b, SErr e None)
               | Panic n => run_catch rs sym sig mode b v = (caught rs sym nsym st' ca' v, b, SPanic n)
               end
      | _ => run_catch rs sym sig mode b v = (vset_ca (vset_st v st') ca', b, s)
      end)
  /\ (run_catch rs sym sig mode b v = (v, b, SOk) <-> getf (v_st v) sig <> mode).
Proof.
  intros rs sym sig mode b v Hr. pose proof (match_flag_in_range _ _ mode Hr) as Hm.
  assert (Hno : getf (v_st v) sig <> mode -> run_catch rs sym sig mode b v = (v, b, SOk)).
  { intros Hne. apply run_catch_no_match. rewrite Hm. f_equal. destruct mode, (getf (v_st v) sig); try reflexivity; congruence. }
  split; [exact Hno|]. split.
  - intros He. rewrite He, Bool.eqb_reflx in Hm. unfold run_catch, caught, fetch_code. rewrite Hm.
    destruct (apply_target sym (v_st v) (v_ca v)) as [[[st' ca'] nsym] [| | |]]; try reflexivity.
    destruct (rs_observed rs), (rs_code rs nsym); reflexivity.
  - split; [|exact Hno]. intros E He. rewrite He, Bool.eqb_reflx in Hm. exact (run_catch_fired _ _ _ _ _ _ Hm E).
Qed.

Theorem C06_out_of_range_panics : forall rs sep sym sig mode b v,
  flag_in_range (v_st v) sig = false ->
  run_catch rs sym sig mode b v = (v, b, SPanic 20) /\ run_croak sep sig mode b v = (v, b, SPanic 20).
Proof.
  intros. unfold run_catch, run_croak. rewrite match_flag_out_of_range by assumption. split; reflexivity.
Qed.

Theorem C06_croak_iff_match : forall sep sig mode b v,
  flag_in_range (v_st v) sig = true ->
  (getf (v_st v) sig <> mode -> run_croak sep sig mode b v = (v, b, SOk))
  /\ (getf (v_st v) sig = mode -> run_croak sep sig mode b v = (croaked sep v, [], SOk)).
Proof. exact croak_iff_match. Qed.

Theorem C06_croak_then_dead_check : forall fuel rs sep lang sig mode rest v,
  wf_num sig -> getf (v_st v) FLAG_TERMINATE = false ->
  flag_in_range (v_st v) sig = true -> getf (pre_st (v_st v)) sig = mode ->
  let lang' := pre_lang lang (v_st v) in
  let v1 := croaked sep (vlog (pre_vm v) (EvInstr op_CROAK)) in
  run (S fuel) rs sep lang (encode (ICroak sig mode) ++ rest) v =
    if negb (getf (v_st v) FLAG_READIN)
    then (vset_st v1 (setf (v_st v1) FLAG_TERMINATE), [], SOk)
    else match where_sym (v_st v) with
         | [] => (v1, [], SErr EGen None)
         | _ => if bytes_eqb (where_sym (v_st v)) catch_sym then (v1, [], SErr EGen None)
                else run fuel rs sep lang' move_catch_code
                       (vset_pg v1 (page_with_error (v_pg v1) (Some (msg_invalid_input (s_input (v_st v))))))
         end.
Proof.
  intros fuel rs sep lang sig mode rest v Hwf Ht Hr Hm. cbv zeta. rewrite run_croak_encoded by assumption.
  rewrite (proj2 (croak_iff_match sep sig mode rest (vlog (pre_vm v) (EvInstr op_CROAK))
                    (eq_trans (flagish_range _ _ _ (loop_st_flagish _)) Hr)) Hm).
  cbn [err_check after_check]. unfold dead_check, croaked. cbn [v_st vset_ca vset_pg vlog pre_vm vset_st].
  rewrite !loop_st_other by discriminate. rewrite Ht.
  rewrite <- (where_sym_sbf _ _ (pre_st_sbf (v_st v))).
  destruct (pre_st_sbf (v_st v)) as (_ & _ & _ & _ & _ & Hin). rewrite <- Hin.
  destruct (getf (v_st v) FLAG_READIN); [|reflexivity]. cbn [negb].
  destruct (where_sym (v_st v)) as [|x l]; [reflexivity|].
  destruct (bytes_eqb (x :: l) catch_sym); [reflexivity|].
  destruct move_catch_cons as (a & b & t & ->). reflexivity.
Qed.

Theorem C06_croak_no_match_run : forall fuel rs sep lang sig mode rest v,
  wf_num sig -> getf (v_st v) FLAG_TERMINATE = false ->
  flag_in_range (v_st v) sig = true -> getf (pre_st (v_st v)) sig <> mode ->
  run (S fuel) rs sep lang (encode (ICroak sig mode) ++ rest) v =
    after_check (run fuel rs sep (pre_lang lang (v_st v))) (vlog (pre_vm v) (EvInstr op_CROAK), rest, SOk).
Proof.
  intros fuel rs sep lang sig mode rest v Hwf Ht Hr Hm. rewrite run_croak_encoded by assumption.
  rewrite (proj1 (croak_iff_match sep sig mode rest (vlog (pre_vm v) (EvInstr op_CROAK))
                    (eq_trans (flagish_range _ _ _ (loop_st_flagish _)) Hr)) Hm).
  reflexivity.
Qed.

Theorem C06_preamble_keeps_other_flags : forall st i,
  i <> FLAG_LANG -> i <> FLAG_WAIT -> i <> FLAG_INMATCH -> i <> FLAG_DIRTY -> getf (pre_st st) i = getf st i.
Proof. exact loop_st_other. Qed.

Theorem C06_external_cannot_touch_reserved : forall rs lang key v v' content s,
  refresh rs lang key v = (v', content, s) ->
  forall i, i <= nonwriteable_flag_threshold ->
    getf (v_st v') i = getf (v_st v) i \/ (i = FLAG_LOADFAIL /\ exists m, s = SErr EExternal m).
Proof. exact refresh_reserved. Qed.

Theorem C06_load_reserved : forall rs lang sym sz b v v' b' s,
  run_load rs lang sym sz b v = (v', b', s) ->
  forall i, i <= nonwriteable_flag_threshold ->
    getf (v_st v') i = getf (v_st v) i \/ (i = FLAG_LOADFAIL /\ exists m, s = SErr EExternal m).
Proof.
  intros rs lang sym sz b v v' b' s H i Hi. unfold run_load in H.
  destruct (cache_get (v_ca v) sym); try (injection H as <- _ _; left; reflexivity).
  destruct (refresh rs lang sym v) as [[v1 content] s1] eqn:Hr.
  destruct (refresh_reserved _ _ _ _ _ _ _ Hr i Hi) as [E|[-> [m ->]]]; [left|injection H as <- _ <-; eauto].
  destruct s1; try (injection H as <- _ _; exact E).
  destruct (cache_add _ _ _ _) as [ca'|[]|]; injection H as <- _ _; exact E.
Qed.

Theorem C06_reload_reserved : forall rs lang sym b v v' b' s,
  run_reload rs lang sym b v = (v', b', s) ->
  forall i, i <= nonwriteable_flag_threshold ->
    getf (v_st v') i = getf (v_st v) i \/ (i = FLAG_LOADFAIL /\ exists m, s = SErr EExternal m).
Proof.
  intros rs lang sym b v v' b' s H i Hi. unfold run_reload in H.
  destruct (refresh rs lang sym v) as [[v1 content] s1] eqn:Hr.
  destruct (refresh_reserved _ _ _ _ _ _ _ Hr i Hi) as [E|[-> [m ->]]]; [left|injection H as <- _ <-; eauto].
  destruct s1; try (injection H as <- _ _; exact E).
  destruct (cache_update_raw _ _ _) as [ca' oe]. destruct (page_map _ _ sym); injection H as <- _ _; exact E.
Qed.

Theorem C06_run_reserved : forall fuel rs sep lang b v v' b' s,
  run fuel rs sep lang b v = (v', b', s) ->
  forall f, f <= nonwriteable_flag_threshold ->
    getf (v_st v') f = getf (v_st v) f \/ f = FLAG_READIN \/ f = FLAG_INMATCH \/ f = FLAG_WAIT \/ f = FLAG_DIRTY
    \/ (f = FLAG_LOADFAIL /\ can_fail rs).
Proof.
  intros fuel rs sep lang b v v' b' s H. pose proof (run_rsv fuel rs sep lang b v) as Hs. rewrite H in Hs. exact Hs.
Qed.

Theorem C06_reserved_never_changes : forall fuel rs sep lang b v v' b' s,
  run fuel rs sep lang b v = (v', b', s) -> getf (v_st v') FLAG_RESERVED = getf (v_st v) FLAG_RESERVED.
Proof.
  intros fuel rs sep lang b v v' b' s H. exact (rsv_reserved (can_fail rs) _ _ (C06_run_reserved _ _ _ _ _ _ _ _ _ H)).
Qed.

Theorem C06_loadfail_needs_failure : forall fuel rs sep lang b v v' b' s,
  run fuel rs sep lang b v = (v', b', s) ->
  getf (v_st v') FLAG_LOADFAIL <> getf (v_st v) FLAG_LOADFAIL -> can_fail rs.
Proof.
  intros fuel rs sep lang b v v' b' s H Hne.
  destruct (rsv_loadfail (can_fail rs) _ _ (C06_run_reserved _ _ _ _ _ _ _ _ _ H)) as [E|F]; [contradiction|exact F].
Qed.

Theorem C06_first_reserved : forall fuel c lang e e' r s,
  run_first fuel c lang e = (e', r, s) ->
  forall f, f <= nonwriteable_flag_threshold ->
    getf (v_st (e_v e')) f = getf (v_st (e_v e)) f \/ f = FLAG_READIN \/ f = FLAG_INMATCH \/ f = FLAG_WAIT \/ f = FLAG_DIRTY
    \/ (f = FLAG_LOADFAIL /\ exists sc, c_first c = Some sc /\ existsb fr_fail sc = true).
Proof.
  intros fuel c lang e e' r s H. pose proof (run_first_rsv fuel c lang e) as Hs. rewrite H in Hs. exact Hs.
Qed.

Theorem C06_reserved_requests_ignored_run : forall rs rs', strip_rel rs rs' ->
  forall fuel sep lang b v, run fuel rs' sep lang b v = run fuel rs sep lang b v.
Proof. exact run_strip. Qed.

Theorem C06_reserved_requests_ignored_request : forall a fuel c p input,
  request_persisted fuel (app_rsrc (strip_app a)) (strip_cfg c) p input = request_persisted fuel (app_rsrc a) c p input.
Proof. intros. apply request_persisted_strip, strip_rel_app. Qed.

Theorem C06_reserved_requests_ignored_request_long : forall a fuel c e input,
  request_long fuel (app_rsrc (strip_app a)) (strip_cfg c) e input = request_long fuel (app_rsrc a) c e input.
Proof. intros. apply request_long_strip, strip_rel_app. Qed.

Theorem C06_history_reserved_clear : forall fuel a c inputs p' resps,
  requests fuel (app_rsrc a) c (mkPw None [] [] false) inputs = (p', resps) -> store_clear p' FLAG_RESERVED.
Proof. intros fuel a c inputs p' resps H. eapply history_clear; [exact H|left; reflexivity]. Qed.

Theorem C06_history_loadfail : forall fuel a c inputs p' resps,
  any_fail_b a c = false ->
  requests fuel (app_rsrc a) c (mkPw None [] [] false) inputs = (p', resps) -> store_clear p' FLAG_LOADFAIL.
Proof.
  intros fuel a c inputs p' resps Hnf H. eapply history_clear; [exact H|right]. split; [reflexivity|].
  intros Hf. apply any_fail_sound in Hf. congruence.
Qed.

Theorem C06_external_can_set_client_terminate_lang : forall rs lang key v fr,
  next_fres rs key v = Some fr -> fr_fail fr = false ->
  (forall f, In f (fr_reset fr ++ fr_set fr) -> is_writeable_flag f = true -> flag_in_range (v_st v) f = true) ->
  exists v' content,
    refresh rs lang key v = (v', content, SOk)
    /\ (forall i, i <= nonwriteable_flag_threshold -> getf (v_st v') i = getf (v_st v) i)
    /\ (forall i, is_writeable_flag i = true -> flag_in_range (v_st v) i = true ->
          getf (v_st v') i = if memN i (fr_set fr) then true
                             else if memN i (fr_reset fr) then false else getf (v_st v) i).
Proof.
  intros rs lang key v fr Hn Hfail Hr. unfold next_fres in Hn. unfold refresh.
  destruct (rs_func rs key) as [script|]; [|discriminate]. rewrite Hn, Hfail.
  cbn [v_st vlog vset_w].
  destruct (apply_flags_applied (fr_reset fr) false (v_st v)) as (st1 & H1 & Hrg1 & Hg1).
  { intros f Hf. apply Hr, in_or_app. left. exact Hf. }
  destruct (apply_flags_applied (fr_set fr) true st1) as (st2 & H2 & Hrg2 & Hg2).
  { intros f Hf Hw. rewrite Hrg1. apply Hr; [apply in_or_app; right; exact Hf|exact Hw]. }
  rewrite H1, H2. do 2 eexists. split; [reflexivity|]. cbn [v_st vset_st].
  destruct (apply_flags_reserved _ _ _ _ H1) as [R1 _]. destruct (apply_flags_reserved _ _ _ _ H2) as [R2 _].
  assert (Hl : forall c i, getf (if getf st2 FLAG_LANG then st_set_language lang_lookup st2 c else st2) i = getf st2 i).
  { intros c i. destruct (getf st2 FLAG_LANG); [apply getf_set_language|reflexivity]. }
  split; intros i Hi; rewrite Hl.
  - rewrite R2, R1 by exact Hi. reflexivity.
  - intros Hi'. rewrite Hg2, Hg1, Hi, !andb_true_r by (rewrite ?Hrg1; exact Hi'). reflexivity.
Qed.

Theorem C06_writeable_out_of_range_panics : forall fl set st,
  (exists f, In f fl /\ is_writeable_flag f = true /\ flag_in_range st f = false) ->
  apply_flags set fl st = Panic (if set then 21 else 22).
Proof. exact apply_flags_out_of_range. Qed.

Theorem C06_terminate_blocks_run : forall fuel rs sep lang b v,
  getf (v_st v) FLAG_TERMINATE = true -> run (S fuel) rs sep lang b v = (v, [], SOk).
Proof. exact run_terminate_blocks. Qed.

Theorem C06_blocked_request : forall fuel rs c p input st ca,
  c_first c = None -> pw_store p = Some (st, ca) ->
  getf st FLAG_TERMINATE = true -> getf st FLAG_DIRTY = false ->
  accepted_b input = true -> (reset_req c input = false \/ s_path st = []) ->
  request_persisted (S fuel) rs c p input
  = (mkPw (Some (set_input_raw (set_code st []) None, ca)) (pw_w p) (pw_log p) (pw_taint p),
     mkResp false SOk [] FOk).
Proof. exact blocked_request. Qed.

Theorem C06_blocked_until_cleared : forall fuel rs c inputs p st ca,
  c_first c = None -> pw_store p = Some (st, ca) ->
  getf st FLAG_TERMINATE = true -> getf st FLAG_DIRTY = false ->
  Forall (fun i => accepted_b i = true /\ (reset_req c i = false \/ s_path st = [])) inputs ->
  inputs <> [] ->
  requests (S fuel) rs c p inputs
  = (mkPw (Some (set_input_raw (set_code st []) None, ca)) (pw_w p) (pw_log p) (pw_taint p),
     map (fun _ => mkResp false SOk [] FOk) inputs).
Proof. exact blocked_until_cleared. Qed.

Theorem C06_blocked_request_weak : forall fuel rs c p input st ca,
  c_first c = None -> pw_store p = Some (st, ca) -> getf st FLAG_TERMINATE = true ->
  accepted_b input = true -> (reset_req c input = false \/ s_path st = []) ->
  exists p' resp, request_persisted (S fuel) rs c p input = (p', resp)
    /\ r_cont resp = false /\ r_exec resp = SOk
    /\ pw_w p' = pw_w p
    /\ (exists l, pw_log p' = l ++ pw_log p /\ forallb is_render l = true)
    /\ ((exists n, r_flush resp = FPanic n /\ pw_store p' = pw_store p) \/
        (pw_store p' = Some (set_input_raw (set_code (resetf st FLAG_DIRTY) []) None, ca) /\ r_flush resp <> FFuel
         /\ forall n, r_flush resp <> FPanic n)).
Proof.
  intros fuel rs c p input st ca Hf Hs Ht Ha Hreset.
  pose (v := mkVm (set_code (prep_state c st input) []) ca (new_vm_page (c_out c) (c_sep c)) (pw_w p) (pw_log p) false).
  exact (terminated_end_request (S fuel) rs c p input st ca v [] Hf Hs Ha Hreset (stale_terminated _ Ht)
           (run_terminate_blocks _ _ _ _ _ v Ht) Ht).
Qed.

Theorem C06_terminated_stays_blocked : forall fuel rs c p input st ca p' resp inputs,
  c_first c = None -> pw_store p = Some (st, ca) -> getf st FLAG_TERMINATE = true ->
  accepted_b input = true -> (reset_req c input = false \/ s_path st = []) ->
  request_persisted (S fuel) rs c p input = (p', resp) -> (forall n, r_flush resp <> FPanic n) ->
  Forall (fun i => accepted_b i = true /\ (reset_req c i = false \/ s_path st = [])) inputs -> inputs <> [] ->
  r_cont resp = false /\ r_exec resp = SOk /\ pw_w p' = pw_w p
  /\ requests (S fuel) rs c p' inputs
     = (mkPw (Some (set_input_raw (set_code (resetf st FLAG_DIRTY) []) None, ca)) (pw_w p') (pw_log p') (pw_taint p'),
        map (fun _ => mkResp false SOk [] FOk) inputs).
Proof.
  intros fuel rs c p input st ca p' resp inputs Hf Hs Ht Ha Hreset Hreq Hnp Hall Hne.
  pose (v := mkVm (set_code (prep_state c st input) []) ca (new_vm_page (c_out c) (c_sep c)) (pw_w p) (pw_log p) false).
  destruct (terminated_then_blocked (S fuel) rs c p input st ca v [] p' resp inputs Hf Hs Ha Hreset (stale_terminated _ Ht)
              (run_terminate_blocks _ _ _ _ _ v Ht) Ht Hreq Hnp Hall Hne) as (H1 & H2 & H3 & _ & H4).
  auto.
Qed.

(* finding K-C06-dirty: TERMINATE and DIRTY both stored; the blocked request outputs the page *)
Theorem C06_blocked_refuted_dirty :
  exists rs c p input st ca,
    c_first c = None /\ pw_store p = Some (st, ca)
    /\ getf st FLAG_TERMINATE = true /\ getf st FLAG_DIRTY = true
    /\ accepted_b input = true /\ reset_req c input = false
    /\ p = fst (requests 100 rs c (mkPw None [] [] false) [[]; s2b "1"])
    /\ snd (request_persisted 100 rs c p input) = mkResp false SOk (s2b "foo") FOk
    /\ pw_log (fst (request_persisted 100 rs c p input)) = EvRender (s2b "foo") 0 None :: pw_log p
    /\ snd (request_persisted 100 rs c (fst (request_persisted 100 rs c p input)) input) = mkResp false SOk [] FOk.
Proof.
  exists (app_rsrc app_dirty), cfg_term, p_dirty, (s2b "0"), (store_st p_dirty), (store_ca p_dirty).
  vm_compute. repeat split; reflexivity.
Qed.

Theorem C06_blocked_request_long : forall fuel rs c e input,
  e_initd e = true -> delivered_l e ->
  getf (v_st (e_v e)) FLAG_TERMINATE = true -> getf (v_st (e_v e)) FLAG_DIRTY = false ->
  accepted_b input = true -> (reset_req c input = false \/ s_path (v_st (e_v e)) = []) ->
  request_long (S fuel) rs c e input =
    match s_code (v_st (e_v e)) with
    | [] => (blocked_engine e input false, mkResp false (SErr EGen None) [] (FErr EFlushNoExec))
    | _ => (blocked_engine e input true, mkResp false SOk [] FOk)
    end.
Proof.
  intros fuel rs c e input Hi Hd Ht Hdirty Ha Hreset. rewrite EngineProofs.request_long_finish, eng_exec_accepted by assumption.
  set (e0 := mkEng _ true [] false false). destruct (s_code (v_st (e_v e))) as [|x code] eqn:Hc.
  - unfold eng_exec_inner. cbn [e0 e_v v_st vset_st s_code set_input_raw]. rewrite Hc. reflexivity.
  - rewrite (exec_inner_terminated _ _ _ e0 x code _ [] Hc) by (try apply run_terminate_blocks; exact Ht).
    unfold EngineProofs.long_finish. rewrite EngineProofs.eng_flush_plain, EngineProofs.vm_render_clean by (exact Hdirty || reflexivity).
    reflexivity.
Qed.

Theorem C06_blocked_until_cleared_long : forall fuel rs c inputs e,
  e_initd e = true -> delivered_l e ->
  getf (v_st (e_v e)) FLAG_TERMINATE = true -> getf (v_st (e_v e)) FLAG_DIRTY = false ->
  Forall (fun i => accepted_b i = true /\ (reset_req c i = false \/ s_path (v_st (e_v e)) = [])) inputs ->
  let '(e', resps) := requests_long (S fuel) rs c e inputs in
  Forall (fun r => r_cont r = false /\ r_out r = [] /\ (r_exec r = SOk \/ r_exec r = SErr EGen None)) resps
  /\ v_log (e_v e') = v_log (e_v e) /\ v_w (e_v e') = v_w (e_v e)
  /\ s_path (v_st (e_v e')) = s_path (v_st (e_v e)) /\ v_ca (e_v e') = v_ca (e_v e)
  /\ getf (v_st (e_v e')) FLAG_TERMINATE = true.
Proof.
  intros fuel rs c inputs. induction inputs as [|i r IH]; intros e Hi Hd Ht Hdirty Hall; cbn [requests_long].
  - repeat split; auto.
  - inversion Hall as [|i' r' [Ha Hr] Hall']; subst.
    (* the engine the request leaves is blocked again, and differs in code and input only *)
    assert (Hreq : exists d resp, request_long (S fuel) rs c e i = (blocked_engine e i d, resp)
                   /\ r_cont resp = false /\ r_out resp = [] /\ (r_exec resp = SOk \/ r_exec resp = SErr EGen None)).
    { rewrite (C06_blocked_request_long fuel rs c e i) by assumption.
      destruct (s_code (v_st (e_v e))); eexists _, _; (split; [reflexivity|]); cbn; auto. }
    destruct Hreq as (d & resp & -> & Hresp).
    assert (Hd' : delivered_l (blocked_engine e i d)) by (destruct d; [right; cbn; auto|left; reflexivity]).
    specialize (IH (blocked_engine e i d) eq_refl Hd' Ht Hdirty Hall').
    destruct (requests_long (S fuel) rs c (blocked_engine e i d) r) as [e2 resps].
    destruct IH as [I1 I2]. split; [constructor; assumption|exact I2].
Qed.

Example C06_blocked_long_nonvacuous :
  let e := fst (requests_long 100 rs_term cfg_term (new_engine cfg_term None [] []) [[]; s2b "1"]) in
  e_initd e = true /\ e_execd e = true /\ e_exiting e = false /\ e_exit e = []
  /\ getf (v_st (e_v e)) FLAG_TERMINATE = true /\ getf (v_st (e_v e)) FLAG_DIRTY = false
  /\ map (fun r => (r_cont r, r_out r)) (snd (requests_long 100 rs_term cfg_term e [s2b "0"; s2b "1"; []]))
     = [(false, []); (false, []); (false, [])].
Proof. vm_compute. repeat split; reflexivity. Qed.

Theorem C06_accepted_is_not_refused : forall i, accepted_b i = negb (EngineMon.refused_b i).
Proof. exact accepted_refused. Qed.

(* the hypotheses of C06_blocked_request / C06_blocked_until_cleared are met by a reachable session: corpus
   "terminate-blocked" (FlagProofs.app_term), where aa sets TERMINATE and client flag 9; p_term is the
   session after the requests "" and "1": at root/foo, TERMINATE and flag 9 set *)
Example C06_blocked_nonvacuous :
  c_first cfg_term = None /\ pw_store p_term = Some (st_term, ca_term)
  /\ getf st_term FLAG_TERMINATE = true /\ getf st_term FLAG_DIRTY = false
  /\ getf st_term 9 = true /\ s_path st_term = [s2b "root"; s2b "foo"]
  /\ forallb (fun i => accepted_b i && negb (reset_req cfg_term i)) [s2b "0"; s2b "1"; []] = true
  /\ snd (requests 100 rs_term cfg_term p_term [s2b "0"; s2b "1"; []])
     = [mkResp false SOk [] FOk; mkResp false SOk [] FOk; mkResp false SOk [] FOk]
  /\ pw_log (fst (requests 100 rs_term cfg_term p_term [s2b "0"; s2b "1"; []])) = pw_log p_term.
Proof. vm_compute. repeat split; reflexivity. Qed.

(* the same session served by an engine WITH an entry function: the blocked request outputs the
   stale last value "t" *)
Theorem C06_blocked_refuted_first :
  exists rs c p input st ca,
    c_first c <> None /\ pw_store p = Some (st, ca)
    /\ getf st FLAG_TERMINATE = true /\ getf st FLAG_DIRTY = false
    /\ accepted_b input = true /\ reset_req c input = false
    /\ r_out (snd (request_persisted 100 rs c p input)) = s2b "t"
    /\ r_cont (snd (request_persisted 100 rs c p input)) = false
    /\ pw_store (fst (request_persisted 100 rs c p input)) = pw_store p.
Proof.
  exists rs_term, cfg_term_first, p_term, (s2b "0"), st_term, ca_term.
  vm_compute. repeat split; try reflexivity. discriminate.
Qed.

(* ResetOnEmptyInput: an empty input restarts the terminated session (by design; excluded by reset_req) *)
Example C06_reset_on_empty_restarts :
  reset_req cfg_term_reset [] = true
  /\ snd (request_persisted 100 rs_term cfg_term_reset p_term []) = mkResp true SOk (s2b "root") FOk.
Proof. vm_compute. split; reflexivity. Qed.

(* CATCH / CROAK on a concrete machine: client flag 8 set, at node root *)
Example C06_catch_nonvacuous :
  flag_in_range st_c 8 = true /\ flag_in_range st_c 9 = true /\ flag_in_range st_c 10 = false
  /\ (let '(v', b, s) := run_catch rs_term (s2b "foo") 8 true [1; 2] v_c in
      (s_path (v_st v'), b, s) = ([s2b "root"; s2b "foo"], snd (nd "foo" [ILoad (s2b "aa") 10; IHalt; IInCmp (s2b "_") (s2b "0")]), SOk))
  /\ run_catch rs_term (s2b "foo") 8 false [1; 2] v_c = (v_c, [1; 2], SOk)
  /\ run_catch rs_term (s2b "foo") 9 true [1; 2] v_c = (v_c, [1; 2], SOk)
  /\ (let '(v', b, s) := run_catch rs_term (s2b "foo") 9 false [1; 2] v_c in s_path (v_st v') = [s2b "root"; s2b "foo"]).
Proof. vm_compute. repeat split; reflexivity. Qed.

Example C06_croak_nonvacuous :
  (* not handling input: TERMINATE *)
  (let '(v', b, s) := run 10 rs_term [] None (encode (ICroak 8 true) ++ encode IHalt) v_c in
   (getf (v_st v') FLAG_TERMINATE, b, s, s_path (v_st v')) = (true, [], SOk, [s2b "root"]))
  (* handling input (READIN set): MOVE _catch, which halts *)
  /\ (let v_r := vset_st v_c (set_input_raw (setf st_c FLAG_READIN) (Some (s2b "x"))) in
      let '(v', b, s) := run 10 rs_term [] None (encode (ICroak 8 true) ++ encode IHalt) v_r in
      (getf (v_st v') FLAG_TERMINATE, s, s_path (v_st v'), p_err (v_pg v'))
      = (false, SOk, [s2b "root"; s2b "_catch"], Some (s2b "invalid input: 'x'")))
  (* no match: the next instruction (HALT) runs *)
  /\ (let '(v', b, s) := run 10 rs_term [] None (encode (ICroak 8 false) ++ encode IHalt) v_c in
      (getf (v_st v') FLAG_TERMINATE, getf (v_st v') FLAG_WAIT, s) = (false, true, SOk)).
Proof. vm_compute. repeat split; reflexivity. Qed.

(* a function asking for every reserved flag, a client flag and an out-of-range one *)
Example C06_external_nonvacuous :
  (let '(v', _, s) := refresh (rs_greedy [0; 1; 2; 3; 4; 5; 6; 7; 9] [8]) None (s2b "gg") v_c in
   (map (getf (v_st v')) [0; 1; 2; 3; 4; 5; 6; 7; 8; 9], s)
   = ([false; false; false; false; false; false; true; true; false; true], SOk))
  /\ (let '(_, _, s) := refresh (rs_greedy [10] []) None (s2b "gg") v_c in s) = SPanic 21
  /\ (let '(_, _, s) := refresh (rs_greedy [4294967296] []) None (s2b "gg") v_c in s) = SPanic 21
  /\ (let '(v', _, s) := refresh (rs_greedy [] [0; 1; 2; 3; 4; 5]) None (s2b "gg") (vset_st v_c (setf (setf st_c 0) 4)) in
      (getf (v_st v') 0, getf (v_st v') 4, s)) = (true, true, SOk).
Proof. vm_compute. repeat split; reflexivity. Qed.

Print Assumptions C06_catch_iff_match.
Print Assumptions C06_out_of_range_panics.
Print Assumptions C06_croak_iff_match.
Print Assumptions C06_croak_then_dead_check.
Print Assumptions C06_croak_no_match_run.
Print Assumptions C06_preamble_keeps_other_flags.
Print Assumptions C06_external_cannot_touch_reserved.
Print Assumptions C06_load_reserved.
Print Assumptions C06_reload_reserved.
Print Assumptions C06_run_reserved.
Print Assumptions C06_reserved_never_changes.
Print Assumptions C06_loadfail_needs_failure.
Print Assumptions C06_first_reserved.
Print Assumptions C06_reserved_requests_ignored_run.
Print Assumptions C06_reserved_requests_ignored_request.
Print Assumptions C06_reserved_requests_ignored_request_long.
Print Assumptions C06_history_reserved_clear.
Print Assumptions C06_history_loadfail.
Print Assumptions C06_external_can_set_client_terminate_lang.
Print Assumptions C06_writeable_out_of_range_panics.
Print Assumptions C06_terminate_blocks_run.
Print Assumptions C06_blocked_request.
Print Assumptions C06_blocked_until_cleared.
Print Assumptions C06_blocked_request_weak.
Print Assumptions C06_terminated_stays_blocked.
Print Assumptions C06_blocked_refuted_dirty.
Print Assumptions C06_blocked_request_long.
Print Assumptions C06_blocked_until_cleared_long.
Print Assumptions C06_blocked_long_nonvacuous.
Print Assumptions C06_accepted_is_not_refused.
Print Assumptions C06_blocked_refuted_first.
Print Assumptions C06_blocked_nonvacuous.
Print Assumptions C06_reset_on_empty_restarts.
Print Assumptions C06_catch_nonvacuous.
Print Assumptions C06_croak_nonvacuous.
Print Assumptions C06_external_nonvacuous.
