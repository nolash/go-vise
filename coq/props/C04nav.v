(* C04 (component level) — Navigation stack and page index follow the documented move table:
   one call of vm/input.go:applyTarget (and vm/runner.go:Rewind, state.Down/Up/Next/Previous)
   against the table of doc/texinfo/navigation.texi, for all targets, states and caches.
   The engine-level history theorem (moves coming from MOVE, INCMP, CATCH) is built on these. *)
From Vise Require Import Bytes Errors Consts CacheModel StateModel NavModel CacheProofs NavProofs.
Local Open Scope N_scope.

(* Full statement (false for the code as it is, see _refuted_up_at_entry):
     forall t st ca st' ca' sym, 1 <= cache_levels ca ->
       apply_target t st ca = (st', ca', sym, SOk) ->
       nav_spec (pos_of st) t = Some (pos_of st') /\ ...
   The guard up_at_entry excludes exactly: target "_" while the stack holds the entry node only. *)
Theorem C04_apply_target_refines_nav_spec_partial : forall t st ca st' ca' sym,
  1 <= cache_levels ca ->
  up_at_entry (pos_of st) t = false ->
  apply_target t st ca = (st', ca', sym, SOk) ->
  (* the new position is the documented one *)
  nav_spec (pos_of st) t = Some (pos_of st')
  (* the returned symbol is the node now current *)
  /\ sym = where_sym st'
  (* code, flags, bit size, language and input are untouched *)
  /\ st' = set_path_idx st (s_path st') (s_idx st')
  (* the cache moved as many levels as the stack *)
  /\ (nav_inv st ca -> cache_levels ca' + len (s_path st) = cache_levels ca + len (s_path st')).
Proof.
  intros t st ca st' ca' sym Hl Hg H. apply levels_ne in Hl.
  (* position, symbol and state are the first three parts of apply_ok_exact, nav_code being nav_spec under the guard *)
  destruct (apply_ok_exact Hl H) as (Hc & Hs & Hst & _).
  rewrite (nav_code_guard _ _ Hg) in Hc. split; [exact Hc|]. split; [exact Hs|]. split; [exact Hst|].
  intros Hinv. apply (apply_levels Hinv H).
Qed.

(* "_" at the entry node: the text says it fails; applyTarget returns nil, the stack is empty *)
Theorem C04_apply_target_refines_nav_spec_refuted_up_at_entry :
  exists t st ca st' ca' sym,
    1 <= cache_levels ca /\ nav_inv st ca /\ up_at_entry (pos_of st) t = true
    /\ apply_target t st ca = (st', ca', sym, SOk) /\ nav_spec (pos_of st) t = None
    /\ s_path st' = [].
Proof.
  exists t_up, (set_path_idx (new_state 0) [s2b "root"] 0), (cache_push (new_cache 0)).
  eexists. eexists. eexists. vm_compute. repeat split. discriminate.
Qed.

(* Unguarded: what a successful call does, exactly.  nav_code is nav_spec with the one row
   ("_" on a one-element stack gives the empty stack, index 0) changed. *)
Theorem C04_apply_target_exact : forall t st ca st' ca' sym,
  1 <= cache_levels ca ->
  apply_target t st ca = (st', ca', sym, SOk) ->
  nav_code (pos_of st) t = Some (pos_of st')
  /\ sym = where_sym st'
  /\ st' = set_path_idx st (s_path st') (s_idx st')
  /\ ca' = (if valid_sym_b t then cache_push ca
            else pops (List.length (s_path st) - List.length (s_path st')) ca).
Proof. exact (fun t st ca st' ca' sym Hl => apply_ok_exact (proj2 (levels_ne ca) Hl)). Qed.

(* cache depth = stack depth + 1 is an invariant of every call, whatever its outcome *)
Theorem C04_levels_lockstep : forall t st ca st' ca' sym r,
  nav_inv st ca -> apply_target t st ca = (st', ca', sym, r) ->
  nav_inv st' ca' /\ cache_levels ca' + len (s_path st) = cache_levels ca + len (s_path st').
Proof. exact @apply_levels. Qed.

(* ... and so are the bounds: stack length <= MaxLevel + 1, index < 2^16 *)
Theorem C04_wf_preserved : forall t st ca st' ca' sym r,
  wf_nav st ca -> apply_target t st ca = (st', ca', sym, r) -> wf_nav st' ca'.
Proof. exact @apply_wf. Qed.

Theorem C04_failures_exact : forall st ca,
  1 <= cache_levels ca ->
  (* every call that fails (error or panic) leaves state and cache as they were *)
  (forall t st' ca' sym r, apply_target t st ca = (st', ca', sym, r) -> r <> SOk -> st' = st /\ ca' = ca)
  (* "<" on the first page: IndexError *)
  /\ (s_path st <> [] -> s_idx st = 0 ->
      apply_target t_prev st ca = (st, ca, where_sym st, SErr EIndex (Some msg_index)))
  (* no entry node yet: "_", "<", ">" fail *)
  /\ (s_path st = [] ->
      apply_target t_up st ca = (st, ca, [], SErr EGen None)
      /\ apply_target t_prev st ca = (st, ca, [], SErr EGen None)
      /\ apply_target t_next st ca = (st, ca, [], SErr EGen None))
  (* "_" AT the entry node does not fail: nil error, empty stack, symbol "" *)
  /\ (forall e, s_path st = [e] ->
      exists ca', cache_pop ca = Ok ca' /\ apply_target t_up st ca = (set_path_idx st [] 0, ca', [], SOk))
  (* malformed target *)
  /\ (forall t, valid_target_b t = false -> apply_target t st ca = (st, ca, where_sym st, SErr EGen None))
  (* depth limit *)
  /\ (forall t, valid_sym_b t = true -> MaxLevel + 1 <= len (s_path st) ->
      apply_target t st ca = (st, ca, t, SErr EGen None))
  (* a move to the node the session is already at is refused *)
  /\ (forall t, valid_sym_b t = true -> where_sym st = t ->
      apply_target t st ca = (st, ca, t, SErr EGen None))
  (* ">" never fails once there is a node; the index wraps at 2^16 *)
  /\ (s_path st <> [] ->
      apply_target t_next st ca = (set_path_idx st (s_path st) (w16 (s_idx st + 1)), ca, where_sym st, SOk)).
Proof.
  intros st ca Hl. pose proof Hl as Hne. apply levels_ne in Hne.
  split; [intros t st' ca' sym r H Hr; exact (apply_fail_unchanged Hne H Hr)|].
  split; [apply fail_prev_at_zero|].
  split; [intros Hp; split; [apply fail_up_empty; exact Hp|apply fail_lateral_empty; exact Hp]|].
  split; [intros e Hp; destruct (apply_up_at_entry st ca e Hp Hl) as (ca' & H1 & H2 & _); exists ca'; auto|].
  split; [intros t; apply apply_invalid|].
  split; [intros t; apply fail_depth|].
  split; [intros t; apply fail_same|apply next_never_fails].
Qed.

(* applyTarget never panics, for any target, state and cache (no well-formedness needed):
   State.Down's "maxlevel" and "down into same node" panics are both behind applyTarget's own
   checks (depth limit; target = current node: go-vise b32c1a0); Pop and Rewind do not panic *)
Theorem C04_no_panic : forall t st ca, is_spanic (snd (apply_target t st ca)) = false.
Proof. exact apply_never_panics. Qed.

(* History form.  nav_run applies a list of targets one after the other (state and cache as
   each call left them) and logs those that returned nil.  Full statement (false for the code as it is):
     nav_fold nav_spec (pos_of st) log = Some (pos_of st2)   for every list of targets. *)
Theorem C04_fold_partial : forall ts st ca st2 ca2 log,
  1 <= cache_levels ca -> nav_run st ca ts = (st2, ca2, log) ->
  up_free (pos_of st) log = true ->
  nav_fold nav_spec (pos_of st) log = Some (pos_of st2).
Proof.
  intros ts st ca st2 ca2 log Hl H Hg. rewrite (fold_spec_code _ _ Hg). apply (nav_run_code ts _ _ _ _ _ Hl H).
Qed.

Theorem C04_fold_refuted_up_at_entry :
  exists ts st ca st2 ca2 log,
    wf_nav st ca /\ nav_run st ca ts = (st2, ca2, log) /\ up_free (pos_of st) log = false
    /\ nav_fold nav_spec (pos_of st) log = None.
Proof.
  exists [s2b "root"; t_up], (new_state 0), (new_cache 0).
  eexists. eexists. eexists. vm_compute. repeat split; try discriminate; reflexivity.
Qed.

Theorem C04_fold_code : forall ts st ca st2 ca2 log,
  1 <= cache_levels ca -> nav_run st ca ts = (st2, ca2, log) ->
  nav_fold nav_code (pos_of st) log = Some (pos_of st2).
Proof. exact nav_run_code. Qed.

Theorem C04_fold_wf : forall ts st ca st2 ca2 log,
  wf_nav st ca -> nav_run st ca ts = (st2, ca2, log) -> wf_nav st2 ca2.
Proof.
  intros ts st ca st2 ca2 log Hw H.
  (* wf_nav is kept by every call (apply_wf) and keeps a cache frame: nav_run_fold carries it through the run *)
  refine (proj1 (nav_run_fold wf_nav _ (@apply_wf) ts st ca st2 ca2 log Hw H)).
  intros st0 ca0 [Hinv _]. apply (nav_inv_frames _ _ Hinv).
Qed.

(* the pattern sources the hand-written matchers transliterate, and what the matchers accept *)
Theorem C04_regex_pinned :
  input_regex_src = "^\+?[a-zA-Z0-9].*$"%string
  /\ ctrl_regex_src = "^[><_^.]$"%string
  /\ sym_regex_src = "^[a-zA-Z0-9][a-zA-Z0-9_]+$"%string.
Proof. exact (conj input_regex_pinned (conj ctrl_regex_pinned sym_regex_pinned)). Qed.

Theorem C04_matchers_char : forall s,
  (valid_input_b s = true <->
     exists c r, (s = c :: r \/ s = 43 :: c :: r) /\ is_alnum c = true /\ Forall (fun x => x <> 10) r)
  /\ (valid_sym_b s = true <->
     s = catch_sym \/
     exists c r, s = c :: r /\ r <> [] /\ is_alnum c = true /\ Forall (fun x => is_symchar x = true) r)
  /\ (valid_ctrl_b s = true <-> s = t_up \/ s = t_next \/ s = t_prev \/ s = t_top \/ s = t_same)
  /\ (valid_target_b s = true <-> valid_sym_b s = true \/ valid_ctrl_b s = true)
  /\ (valid_sym_b s = true -> valid_ctrl_b s = false).
Proof.
  exact (fun s => conj (valid_input_char s) (conj (valid_sym_char s) (conj (valid_ctrl_char s)
                  (conj (valid_target_char s) (sym_not_ctrl s))))).
Qed.

(* non-vacuity: the example table of navigation.texi, followed by a failing "<", a descent into
   the current node (refused), a malformed target and a second rewind *)
Example C04_nonvacuous :
  let ts := [s2b "foo"; s2b "bar"; s2b "baz"; t_next; t_next; t_prev; t_same; t_up; s2b "baz"; t_top;
             t_prev; s2b "foo"; s2b "x"; t_next; t_top] in
  let '(st2, ca2, log) := nav_run (new_state 0) (new_cache 0) ts in
  wf_nav (new_state 0) (new_cache 0)
  /\ log = [s2b "foo"; s2b "bar"; s2b "baz"; t_next; t_next; t_prev; t_same; t_up; s2b "baz"; t_top; t_next; t_top]
  /\ up_free (pos_of (new_state 0)) log = true
  /\ pos_of st2 = ([s2b "foo"], 1) /\ cache_levels ca2 = 2
  /\ nav_fold nav_spec ([], 0) log = Some ([s2b "foo"], 1)
  /\ nav_fold nav_spec ([], 0) (firstn 9 log) = Some ([s2b "foo"; s2b "bar"; s2b "baz"], 0).
Proof. vm_compute. repeat split; discriminate. Qed.

Print Assumptions C04_apply_target_refines_nav_spec_partial.
Print Assumptions C04_apply_target_refines_nav_spec_refuted_up_at_entry.
Print Assumptions C04_apply_target_exact.
Print Assumptions C04_levels_lockstep.
Print Assumptions C04_wf_preserved.
Print Assumptions C04_failures_exact.
Print Assumptions C04_no_panic.
Print Assumptions C04_fold_partial.
Print Assumptions C04_fold_refuted_up_at_entry.
Print Assumptions C04_fold_code.
Print Assumptions C04_fold_wf.
Print Assumptions C04_regex_pinned.
Print Assumptions C04_matchers_char.
