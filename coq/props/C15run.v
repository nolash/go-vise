(* C15run — Malformed bytecode is rejected with an error, never a crash or a silent accept:
   the VM's OWN decoding path (vm/runner.go: Vm.Run, the run* handlers and their Parse* calls), as
   modelled by VmModel.run (op_split, parse_args, exec_instr).  props/C15.v covers the decoder and the
   disassembler; this file covers what Run does with bytes that do or do not decode.
   Quantification: ALL resources rs, menu separators sep, context languages lang, machines v, byte
   strings code, fuel.  Differential driver: go/cmd/vh/vmrun.go with corr/VmRunCorr.v.

   Vocabulary (definitions in proofs/VmDecodeProofs.v, SymbolProofs.v):
     run_prelude v      the loop's preamble, executed BEFORE the opcode is parsed (runner.go order:
                        TERMINATE test; ResetFlag LANG; ResetFlag WAIT and, if it was set, ResetFlag INMATCH
                        + page reset; SetFlag DIRTY; opSplit)
     only_prelude v v'  v' differs from v by that preamble only (and the page's error/taint):
                        v_log, v_w, v_ca, s_path, s_idx, s_input, s_lang, s_code equal; every flag other than
                        LANG, WAIT, INMATCH, DIRTY equal; LANG = WAIT = false; INMATCH = (if WAIT was set then
                        false else as before); DIRTY = true when index 4 is inside the flag field
     diverts v          getf LOADFAIL && not at _catch: the condition under which runErrCheck replaces an
                        error by "MOVE _catch" and status OK
     decode_error_surfaces v code   (decidable guard)  op_split code fails, or diverts v = false
     run_step / reaches the loop as an iterated step; reaches c c' = the run passes from c to c'
     next_decodes v b   exists i r, decode_one b = Ok (i, r) /\ strict_one b = Some (i, r)
                        /\ (i = INoop -> diverts v = true)
     malformed_diverted the step dropped an instruction whose arguments do not parse (class K-C15-loadfail)
     loadfail_free rs v (guard) no function of rs can fail and LOADFAIL is clear in v; decidable for
                        applications (loadfail_free_b) and trivially true for function-less resources
     panic_cause rs st i n   (n = 20 /\ CATCH/CROAK flag of i outside the flag field of st)
                        \/ ((n = 21 \/ n = 22) /\ some function result of rs names a writeable flag outside it)
     code_total rs      the code getter never panics;  funcs_flags_ok rs st: all function-result flags in range
     decoded_flags_ok   every instruction that decodes at a configuration the run reaches has its
                        CATCH/CROAK flag inside the flag field (per-instruction decidable guard instr_flags_okb;
                        executable check for a concrete case: traj_flags_okb)

   (a) FULL STRENGTH (false of the model and of the code):  TERMINATE clear /\ decode_one code = Err e
         ->  run (S fuel) … code v  ends with status SErr.
       Refuted by C15_run_rejects_malformed_next_refuted_loadfail: with LOADFAIL set (and not at _catch) a
       truncated INCMP is dropped, the VM moves to _catch and Run returns nil (confirmed on the real Vm.Run).
       Proved instead:
       C15_run_rejects_malformed_next_partial: under decode_error_surfaces, the run ends at once with
         SErr EGen None (never SOk, never SPanic), the machine satisfies only_prelude (no event, no function
         call, cache and position unchanged, flags as listed), and the code handed back is the whole code
         (opcode does not split) or the code minus its two opcode bytes (arguments do not parse; the page
         error is set to the unmodelled parse message: taint).
       C15_run_rejects_nonstrict_next: the same for every code the STRICT grammar rejects.
       C15_run_malformed_diverted: outside the guard the exact behaviour: the run continues with
         MOVE _catch on set_page_err (run_prelude v) None.
   (b) FULL STRENGTH (false: same class): run … = (v', rest, SOk) -> every configuration passed through
       has a strictly decodable next instruction.  Proved:
       C15_every_step_decodes_or_diverted (no guard, no fuel): one iteration hands over to the next only after
         an instruction that decodes (decoder and strict grammar) or by a malformed_diverted step.
       C15_run_ok_steps_decodable_or_diverted (no guard): every configuration of a successful run either has
         TERMINATE set (then it is the last one, v' = it, rest = []: pending code dropped unread), or its next
         instruction decodes by decoder AND strict grammar, or its step is a malformed_diverted one.
       C15_run_ok_only_on_decodable_partial: under loadfail_free, every configuration has TERMINATE set (last)
         or a strictly decodable next instruction that is not NOOP.
   (c) C15_run_panic_cause: (cache has a frame, code getter total) a panic of ANY run on ANY bytes is raised
         by EXECUTING an instruction that decoded (decoder and strict grammar) at a reached configuration, with
         panic_cause;  C15_run_panics_only_flag_range: hence n is 20, 21 or 22 — never a decoder site (1, 2, 3);
       C15_run_never_panics_any_bytes: under funcs_flags_ok and decoded_flags_ok no run on any byte string
         panics.  (A failed decode is an error — (a) — not a panic.) *)
From Vise Require Import Bytes Errors Consts EngConsts Codec CacheModel StateModel NavModel RenderModel VmModel
  EngineModel CorrBase EngineCorr VmRunCorr SymbolProofs VmDecodeProofs.
From Vise Require FlagProofs.
Local Open Scope N_scope.

(* the model's decoding IS Codec.decode_one *)
Theorem C15_run_decodes_with_decode_one : forall b i r,
  decode_one b = Ok (i, r) <-> exists op b1, op_split b = Ok (op, b1) /\ parse_args op b1 = Ok (i, r).
Proof. exact CodecProofs.decode_one_ok_split. Qed.

Theorem C15_run_decode_error_split : forall b e,
  decode_one b = Err e ->
  op_split b = Err e \/ exists op b1, op_split b = Ok (op, b1) /\ parse_args op b1 = Err e.
Proof. exact CodecProofs.decode_one_err_split. Qed.

Theorem C15_strict_reject_is_decode_error : forall b, strict_one b = None -> exists e, decode_one b = Err e.
Proof. intros b Hs. rewrite CodecProofs.decode_one_exact, Hs. eexists. reflexivity. Qed.

Theorem C15_run_rejects_malformed_next_partial : forall fuel rs sep lang code v e,
  getf (v_st v) FLAG_TERMINATE = false ->
  decode_one code = Err e ->
  decode_error_surfaces v code = true ->
  exists v' rest,
    run (S fuel) rs sep lang code v = (v', rest, SErr EGen None)
    /\ only_prelude v v'
    /\ ((op_split code = Err EGen /\ rest = code /\ v' = run_prelude v)
        \/ (exists op, op_split code = Ok (op, rest) /\ parse_args op rest = Err EGen
            /\ v' = set_page_err (run_prelude v) None)).
Proof. exact run_rejects_malformed_next. Qed.

Theorem C15_run_rejects_nonstrict_next : forall fuel rs sep lang code v,
  getf (v_st v) FLAG_TERMINATE = false ->
  strict_one code = None ->
  decode_error_surfaces v code = true ->
  exists v' rest, run (S fuel) rs sep lang code v = (v', rest, SErr EGen None) /\ only_prelude v v'.
Proof.
  intros fuel rs sep lang code v Ht Hs Hg. destruct (C15_strict_reject_is_decode_error _ Hs) as [e Hd].
  destruct (run_rejects_malformed_next fuel rs sep lang code v e Ht Hd Hg) as (v' & rest & H1 & H2 & _).
  eauto.
Qed.

Theorem C15_run_malformed_diverted : forall fuel rs sep lang code v op b1 e,
  getf (v_st v) FLAG_TERMINATE = false ->
  op_split code = Ok (op, b1) -> parse_args op b1 = Err e ->
  diverts v = true ->
  run (S fuel) rs sep lang code v
  = run fuel rs sep (eff_lang lang (v_st v)) move_catch_code (set_page_err (run_prelude v) None).
Proof.
  intros fuel rs sep lang code v op b1 e Ht Ho Hp Hdv.
  rewrite run_S, (run_step_args_err _ _ _ Ht Ho Hp), Hdv. reflexivity.
Qed.

(* refutation of the full-strength (a) and (b): LOADFAIL set, position root, truncated INCMP 00 08 01 —
   the bytes neither decode nor are accepted by the strict grammar, the guard is false, and the run
   reports success from _catch *)
Example C15_run_rejects_malformed_next_refuted_loadfail :
  getf (v_st (vr_init loadfail_case)) FLAG_TERMINATE = false
  /\ decode_one (vr_code loadfail_case) = Err EGen
  /\ strict_one (vr_code loadfail_case) = None
  /\ decode_error_surfaces (vr_init loadfail_case) (vr_code loadfail_case) = false
  /\ (let '(v, b, s) := vr_model loadfail_case in (s, b, s_path (v_st v), v_taint v))
     = (SOk, [], [s2b "root"; s2b "_catch"], true).
Proof. vm_compute. auto 6. Qed.

(* step level, no fuel involved: the loop never hands over to a next iteration after bytes that do not
   decode, except by the diversion *)
Theorem C15_every_step_decodes_or_diverted : forall rs sep lang b v l1 b1 v1,
  run_step rs sep lang b v = Next l1 b1 v1 ->
  next_decodes v b \/ malformed_diverted lang b v l1 b1 v1.
Proof.
  intros rs sep lang b v l1 b1 v1 Hs. destruct (getf (v_st v) FLAG_TERMINATE) eqn:Ht.
  { rewrite (run_step_terminated _ _ _ _ _ Ht) in Hs. discriminate Hs. }
  destruct (step_decodes rs sep lang b v Ht) as [Hn|(l & b' & v' & E & Hm)].
  - rewrite Hs. discriminate.
  - left. exact Hn.
  - rewrite Hs in E. injection E as <- <- <-. right. exact Hm.
Qed.

Theorem C15_run_ok_steps_decodable_or_diverted : forall rs sep fuel lang code v v' rest,
  run fuel rs sep lang code v = (v', rest, SOk) ->
  forall l1 b1 v1, reaches rs sep (lang, code, v) (l1, b1, v1) ->
    (getf (v_st v1) FLAG_TERMINATE = true /\ v' = v1 /\ rest = [])
    \/ next_decodes v1 b1
    \/ (exists l2 b2 v2, run_step rs sep l1 b1 v1 = Next l2 b2 v2 /\ malformed_diverted l1 b1 v1 l2 b2 v2).
Proof.
  intros rs sep. induction fuel as [|fuel IH]; intros lang code v v' rest H l1 b1 v1 Hr; [discriminate H|].
  rewrite run_S in H. inversion Hr as [c0|lang0 b0 v0 l3 b3 v3 c0 Hs Hr']; subst.
  - destruct (getf (v_st v1) FLAG_TERMINATE) eqn:Ht.
    + left. rewrite (run_step_terminated _ _ _ _ _ Ht) in H. injection H as <- <-. auto.
    + right. apply (step_decodes _ _ _ _ _ Ht). intros vx bx e m E. rewrite E in H. discriminate H.
  - rewrite Hs in H. eapply IH; eassumption.
Qed.

Theorem C15_run_ok_only_on_decodable_partial : forall rs sep fuel lang code v v' rest,
  loadfail_free rs v ->
  run fuel rs sep lang code v = (v', rest, SOk) ->
  forall l1 b1 v1, reaches rs sep (lang, code, v) (l1, b1, v1) ->
    (getf (v_st v1) FLAG_TERMINATE = true /\ v' = v1 /\ rest = [])
    \/ (exists i r, decode_one b1 = Ok (i, r) /\ strict_one b1 = Some (i, r) /\ i <> INoop).
Proof.
  intros rs sep fuel lang code v v' rest Hlf H l1 b1 v1 Hr.
  pose proof (loadfail_free_no_divert _ _ (loadfail_free_reaches Hlf Hr)) as Hnd.
  destruct (C15_run_ok_steps_decodable_or_diverted rs sep fuel lang code v v' rest H l1 b1 v1 Hr)
    as [Ht|[(i & r & Hd & Hs & Hn)|(l2 & b2 & v2 & _ & Hm)]].
  - left. exact Ht.
  - right. exists i, r. split; [exact Hd|]. split; [exact Hs|]. intros E. specialize (Hn E). congruence.
  - pose proof (malformed_diverted_diverts Hm). congruence.
Qed.

(* the guard is decidable for applications, and holds for function-less resources *)
Theorem C15_loadfail_free_decidable : forall a v, loadfail_free_b a v = true -> loadfail_free (app_rsrc a) v.
Proof.
  unfold loadfail_free_b, loadfail_free. intros a v H. apply andb_prop in H. destruct H as [H1 H2]. split.
  - apply FlagProofs.no_fail_app. destruct (existsb _ (a_funcs a)); [discriminate H1|reflexivity].
  - destruct (getf (v_st v) FLAG_LOADFAIL); [discriminate H2|reflexivity].
Qed.
Theorem C15_loadfail_free_surfaces : forall rs v code, loadfail_free rs v -> decode_error_surfaces v code = true.
Proof.
  intros rs v code Hlf. unfold decode_error_surfaces. rewrite (loadfail_free_no_divert _ _ Hlf).
  destruct (op_split code) as [[op b1]| |]; reflexivity.
Qed.
Theorem C15_loadfail_free_driver : forall v, getf (v_st v) FLAG_LOADFAIL = false -> loadfail_free empty_rsrc v.
Proof. exact (fun v => loadfail_free_nofunc empty_rsrc v empty_rsrc_nofunc). Qed.

(* the resource the vmrun driver uses (vr_rsrc: empty_rsrc with one entry function, "lds", that cannot fail) *)
Theorem C15_loadfail_free_driver_lds : forall v, getf (v_st v) FLAG_LOADFAIL = false -> loadfail_free vr_rsrc v.
Proof.
  intros v Hl. split; [|exact Hl]. intros (sym & script & fr & Hf & Hin & Hfail).
  rewrite (vr_rsrc_func _ _ Hf) in Hin. destruct Hin as [<-|[]]. discriminate Hfail.
Qed.
Theorem C15_driver_lds_guards : code_total vr_rsrc /\ forall st, funcs_flags_ok vr_rsrc st.
Proof. (* vr_rsrc has the code getter of empty_rsrc *) exact (conj empty_rsrc_total vr_rsrc_funcs_flags_ok). Qed.

Theorem C15_run_panic_cause : forall rs sep fuel lang code v v' rest n,
  c_frames (v_ca v) <> [] -> code_total rs ->
  run fuel rs sep lang code v = (v', rest, SPanic n) ->
  exists l1 b1 v1 i r,
    reaches rs sep (lang, code, v) (l1, b1, v1)
    /\ decode_one b1 = Ok (i, r) /\ strict_one b1 = Some (i, r)
    /\ panic_cause rs (v_st v) i n.
Proof. exact @run_panic_cause. Qed.

Theorem C15_run_panics_only_flag_range : forall rs sep fuel lang code v v' rest n,
  c_frames (v_ca v) <> [] -> code_total rs ->
  run fuel rs sep lang code v = (v', rest, SPanic n) -> n = 20 \/ n = 21 \/ n = 22.
Proof.
  intros rs sep fuel lang code v v' rest n Hne Hct H.
  destruct (run_panic_cause Hne Hct H) as (l1 & b1 & v1 & i & r & _ & _ & _ & Hc).
  destruct Hc as [[-> _]|[[->| ->] _]]; auto.
Qed.

Theorem C15_run_never_panics_any_bytes : forall rs sep fuel lang code v,
  c_frames (v_ca v) <> [] -> code_total rs -> funcs_flags_ok rs (v_st v) ->
  decoded_flags_ok rs sep lang code v ->
  forall n, snd (run fuel rs sep lang code v) <> SPanic n.
Proof.
  intros rs sep fuel lang code v Hne Hct Hfn Hdec n Hs.
  destruct (run fuel rs sep lang code v) as [[v' rest] s] eqn:H. cbn [snd] in Hs. subst s.
  destruct (run_panic_cause Hne Hct H) as (l1 & b1 & v1 & i & r & Hr & Hd & _ & Hc).
  destruct Hc as [[_ Hf]|[_ (key & script & fr & H1 & H2 & H3)]].
  - rewrite (Hdec _ _ _ _ _ Hr Hd) in Hf. discriminate Hf.
  - rewrite (Hfn _ _ _ H1 H2) in H3. discriminate H3.
Qed.

(* the guards are decidable: per instruction (instr_flags_okb), along a concrete run (traj_flags_okb),
   and for applications (code getter total, function flags by funcs_flags_okb) *)
Theorem C15_decoded_flags_ok_checkable : forall m rs sep lang code v,
  traj_flags_okb m rs sep (v_st v) lang code v = true -> decoded_flags_ok rs sep lang code v.
Proof. intros m rs sep lang code v. exact (traj_flags_okb_sound m rs sep (v_st v) lang code v). Qed.
Theorem C15_code_total_app : forall a, code_total (app_rsrc a).
Proof. intros a sym. cbn [app_rsrc rs_code]. destruct (alookup sym (a_code a)); reflexivity. Qed.
Theorem C15_funcs_flags_ok_decidable : forall a st, funcs_flags_okb a st = true -> funcs_flags_ok (app_rsrc a) st.
Proof.
  intros a st H key script fr Hf Hin. unfold funcs_flags_okb in H. rewrite forallb_forall in H.
  specialize (H _ (BytesProofs.alookup_in_pair _ _ _ Hf)). cbn [snd] in H. rewrite forallb_forall in H. exact (H _ Hin).
Qed.

(* the seeded change C15-m3: INMATCH and READIN set (flags [0;1]), input "1", at root, truncated INCMP
   00 08 01.  The hypotheses of (a) hold; the model answers an error, position and log unchanged, flags
   READIN|INMATCH|DIRTY (0x13), the code after the opcode handed back *)
Example C15_m3_scenario :
  getf (v_st (vr_init m3_case)) FLAG_TERMINATE = false
  /\ decode_one (vr_code m3_case) = Err EGen
  /\ decode_error_surfaces (vr_init m3_case) (vr_code m3_case) = true
  /\ (let '(v, b, s) := vr_model m3_case in
      (s, b, s_path (v_st v), s_idx (v_st v), v_log v, flag_bytes (s_flags (v_st v))))
     = (SErr EGen None, [1], [s2b "root"], 0, [], [19; 0]).
Proof. vm_compute. auto 6. Qed.

(* (a) applied to its code and machine, for every fuel; stated on empty_rsrc (the scenario runs vr_rsrc:
   (a) holds for every resource, and no function is called) *)
Theorem C15_m3_rejected_all_fuel : forall fuel,
  exists v' rest,
    run (S fuel) empty_rsrc [] None (vr_code m3_case) (vr_init m3_case) = (v', rest, SErr EGen None)
    /\ only_prelude (vr_init m3_case) v'.
Proof.
  intros fuel.
  destruct (run_rejects_malformed_next fuel empty_rsrc [] None (vr_code m3_case) (vr_init m3_case) EGen)
    as (v' & rest & H1 & H2 & _); [vm_compute; reflexivity ..|].
  eauto.
Qed.

(* a valid program MOVE foo / HALT runs to success; both configurations it passes through have a
   strictly decodable next instruction; all guards of (b) and (c) hold *)
Example C15_valid_run :
  (let '(v, b, s) := vr_model valid_case in (s, b, s_path (v_st v), v_log v))
  = (SOk, [], [s2b "root"; s2b "foo"], [EvInstr op_HALT; EvMove 0 (s2b "foo") (s2b "foo"); EvInstr op_MOVE])
  /\ strict_one (vr_code valid_case) = Some (IMove (s2b "foo"), encode IHalt)
  /\ option_map (fun '(_, b, _) => strict_one b) (iter_step 1 empty_rsrc [] (None, vr_code valid_case, vr_init valid_case))
     = Some (Some (IHalt, []))
  /\ getf (v_st (vr_init valid_case)) FLAG_LOADFAIL = false
  /\ traj_flags_okb 10 empty_rsrc [] (v_st (vr_init valid_case)) None (vr_code valid_case) (vr_init valid_case) = true.
Proof. vm_compute. auto 6. Qed.

(* (c) applied to it, on empty_rsrc as the Example's traj_flags_okb *)
Theorem C15_valid_never_panics : forall fuel n,
  snd (run fuel empty_rsrc [] None (vr_code valid_case) (vr_init valid_case)) <> SPanic n.
Proof.
  intros fuel. apply C15_run_never_panics_any_bytes.
  - vm_compute. discriminate.
  - exact empty_rsrc_total.
  - apply funcs_flags_ok_nofunc. exact empty_rsrc_nofunc.
  - apply (C15_decoded_flags_ok_checkable 10). vm_compute. reflexivity.
Qed.

(* the panic of (c) exists: a COMPLETE "CATCH foo 200 1" on a 16-bit flag field panics at site 20
   (State.GetFlag) while executing; its per-instruction guard is false *)
Example C15_flag_range_panic :
  (let '(v, b, s) := vr_model flag_case in (s, v_log v)) = (SPanic 20, [EvInstr op_CATCH])
  /\ decode_one (vr_code flag_case) = Ok (ICatch (s2b "foo") 200 true, encode IHalt)
  /\ instr_flags_okb (v_st (vr_init flag_case)) (ICatch (s2b "foo") 200 true) = false
  /\ traj_flags_okb 10 empty_rsrc [] (v_st (vr_init flag_case)) None (vr_code flag_case) (vr_init flag_case) = false.
Proof. vm_compute. auto 6. Qed.

Print Assumptions C15_run_decodes_with_decode_one.
Print Assumptions C15_run_decode_error_split.
Print Assumptions C15_strict_reject_is_decode_error.
Print Assumptions C15_run_rejects_malformed_next_partial.
Print Assumptions C15_run_rejects_nonstrict_next.
Print Assumptions C15_run_malformed_diverted.
Print Assumptions C15_run_rejects_malformed_next_refuted_loadfail.
Print Assumptions C15_every_step_decodes_or_diverted.
Print Assumptions C15_run_ok_steps_decodable_or_diverted.
Print Assumptions C15_run_ok_only_on_decodable_partial.
Print Assumptions C15_loadfail_free_decidable.
Print Assumptions C15_loadfail_free_surfaces.
Print Assumptions C15_loadfail_free_driver.
Print Assumptions C15_loadfail_free_driver_lds.
Print Assumptions C15_driver_lds_guards.
Print Assumptions C15_run_panic_cause.
Print Assumptions C15_run_panics_only_flag_range.
Print Assumptions C15_run_never_panics_any_bytes.
Print Assumptions C15_decoded_flags_ok_checkable.
Print Assumptions C15_code_total_app.
Print Assumptions C15_funcs_flags_ok_decidable.
Print Assumptions C15_m3_scenario.
Print Assumptions C15_m3_rejected_all_fuel.
Print Assumptions C15_valid_run.
Print Assumptions C15_valid_never_panics.
Print Assumptions C15_flag_range_panic.
