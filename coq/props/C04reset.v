(* C04 (engine rewinds) — what the engine's two rewinds do to the position, exactly.

   "Rewinding returns to the entry node with page index 0 and nothing else on the stack" has two
   places in engine/db.go that the move table does not cover (they are not applyTarget calls):
     * DefaultEngine.Reset(ctx, true), taken by Exec on the EMPTY input when ResetOnEmptyInput is
       configured (the model tests `len input =? 0`: there is no trimming - a blank input " " is
       refused by the input pattern instead, see the Example): early return only when there is NO
       entry node yet (Depth() == -1, s_path = []);
     * DefaultEngine.init, for a new engine object around a stored session WITHOUT pending code and
       not terminated (the previous request failed): the stale position is unwound when Depth() > -1,
       i.e. at ANY depth including the entry node itself, before MOVE <entry node> is queued.
   Both unwind EVERY level (eng_reset_inner: path [], index 0, one cache level under the session
   invariant nav_inv = "cache levels = stack depth + 1"), then MOVE <entry node> runs from the empty
   stack and is therefore never refused by applyTarget's "already at node" check.
   Guards: cache_ok ca (c_frames ca <> [], implied by nav_inv; the exact equations carry it although they hold
   of any cache), nav_inv for the statements about cache levels, root_ok c (the entry node's name is a node
   symbol the codec round-trips), no entry function for Init.  All resources (applications), configurations,
   engines, fuel.
   C04_init_unwinds_stale_position and C04_reset_on_empty_at_entry_page are the cases at depth 0, the session AT
   its entry node: an init that unwound only for `Depth() > 0`, resp. a Reset that returned early for
   `Depth() < 1`, would falsify them (seeded/C04-m5, seeded/C04-m6). *)
From Vise Require Import Bytes Errors Consts EngConsts Codec CacheModel StateModel NavModel NavSpec RenderModel
  VmModel EngineModel NavProofs VmProofs RoutingProofs RoutingProofs2.
Local Open Scope N_scope.

Theorem C04_engine_reset_exact : forall v,
  s_path (v_st v) <> [] -> c_frames (v_ca v) <> [] ->
  eng_reset_inner v = (unwound_vm v, SOk).
Proof. intros v H _. apply EngineProofs.eng_reset_inner_eq, H. Qed.

Theorem C04_unwound_state : forall st,
  s_path (unwound_state st) = [] /\ s_idx (unwound_state st) = 0 /\ s_code (unwound_state st) = s_code st
  /\ s_input (unwound_state st) = s_input st /\ s_lang (unwound_state st) = s_lang st
  /\ getf (unwound_state st) FLAG_TERMINATE = false /\ getf (unwound_state st) FLAG_DIRTY = false
  /\ (forall i, i <> FLAG_TERMINATE -> i <> FLAG_DIRTY -> getf (unwound_state st) i = getf st i).
Proof.
  intros st. repeat split;
    [apply EngineProofs.getf_reset_state_term|apply getf_resetf_same|exact (EngineProofs.getf_reset_state st)].
Qed.

Theorem C04_unwound_one_level : forall st ca,
  nav_inv st ca -> cache_levels (pops (List.length (s_path st)) ca) = 1.
Proof. exact unwound_levels. Qed.

(* Engine.Reset(ctx, true): code := MOVE <entry node>, then Engine.reset - at every depth >= 0 *)
Theorem C04_reset_force_exact : forall c e,
  s_path (v_st (e_v e)) <> [] -> c_frames (v_ca (e_v e)) <> [] ->
  eng_reset_force c e = (eset_v e (reset_vm c (e_v e)), SOk).
Proof. intros c e H _. apply eng_reset_force_exact, H. Qed.

(* a request with the empty input under ResetOnEmptyInput, at any position with a non-empty stack, rewinds to
   the empty stack, then executes MOVE <entry node> and from there only the entry node's own code.
   e1 is the engine Init returns (see C04_init_steady for a long-lived engine). *)
Theorem C04_reset_on_empty_returns_to_entry : forall fuel rs c e e1 code e' cont s,
  c_reset_empty c = true -> root_ok c -> rs_code rs (cfg_root c) = Ok code ->
  eng_init (S fuel) rs c e [] = (e1, true, SOk) ->
  s_path (v_st (e_v e1)) <> [] -> nav_inv (v_st (e_v e1)) (v_ca (e_v e1)) ->
  eng_exec (S fuel) rs c e [] = (e', cont, s) ->
  (* (a) the rewind: code replaced by MOVE root, stack empty, index 0, one cache level *)
  (let vr := reset_vm c (e_v e1) in
   s_code (v_st vr) = encode (IMove (cfg_root c)) /\ pos_of (v_st vr) = ([], 0) /\ cache_levels (v_ca vr) = 1)
  (* (b) the first instruction executed is MOVE root - not an INCMP of the old page's pending code -
         and it arrives at [root], index 0, two cache levels *)
  /\ exists vM new,
       pos_of (v_st vM) = ([cfg_root c], 0) /\ cache_levels (v_ca vM) = 2
       /\ v_log vM = (if rs_observed rs then [EvCode (cfg_root c)] else []) ++
                    EvMove 0 (cfg_root c) (cfg_root c) :: EvInstr op_MOVE :: v_log (e_v e1)
       (* (c) from there on only the root's own code runs: the final position is the fold of the table
              over the moves it logs; [root] at index 0 if it logs none (the root's code halts) *)
       /\ v_log (e_v e') = new ++ v_log vM
       /\ nav_fold nav_code ([cfg_root c], 0) (log_moves new) = Some (pos_of (v_st (e_v e')))
       /\ (log_moves new = [] -> pos_of (v_st (e_v e')) = ([cfg_root c], 0)).
Proof.
  intros fuel rs c e e1 code e' cont s Hr [Hv Hw] Hcode Hi Hne Hinv He.
  destruct (reset_vm_facts c (e_v e1)) as (F1 & F2 & F3 & F4 & _ & F6 & _).
  split; [split; [exact F1|split; [unfold pos_of; rewrite F2, F3; reflexivity|apply F6; exact Hinv]]|].
  rewrite (reset_on_empty_exec Hr Hi Hne) in He.
  (* exec runs MOVE root, not the pending code of the old page *)
  assert (Hc0 : s_code (v_st (e_v (reset_engine c e1))) = encode (IMove (cfg_root c))) by exact F1.
  apply eng_exec_inner_quiet in He; [|rewrite Hc0; apply EngineProofs.encode_nonempty].
  destruct He as (Q & _). cbv zeta in Q. rewrite Hc0 in Q.
  set (v0 := vset_st (e_v (reset_engine c e1)) _) in Q.
  destruct (run_move_from_empty fuel rs (c_sep c) (s_lang (v_st v0)) (cfg_root c) v0 code Hv Hw F2 F4 Hcode) as (R & P & C & L).
  rewrite R in Q. set (vM := moved_vm _ _ _ _) in *.
  assert (HcM : cache_ok (v_ca vM)) by (rewrite C; apply CacheProofs.cache_push_frames).
  pose proof (run_post_follows fuel rs (c_sep c) (fst (run_prelude (s_lang (v_st v0)) v0)) vM (vM, code, SOk) (pf_refl _ HcM)) as F.
  destruct (pf_quiet_r _ _ _ F Q) as (_ & new & Lf & Nf). rewrite P in Nf.
  exists vM, new. split; [exact P|].
  (* v0 is the rewound machine with input and code changed: its cache is reset_vm's *)
  change (v_ca v0) with (v_ca (reset_vm c (e_v e1))) in C.
  split; [rewrite C, CacheProofs.push_levels, (F6 Hinv); reflexivity|].
  split; [exact L|]. split; [exact Lf|]. split; [exact Nf|].
  intros Hm. rewrite Hm in Nf. cbn [nav_fold] in Nf. congruence.
Qed.

(* Exec on the empty input IS exec on the rewound engine (the equation behind the theorem) *)
Theorem C04_reset_on_empty_exec : forall fuel rs c e e1,
  c_reset_empty c = true -> eng_init fuel rs c e [] = (e1, true, SOk) ->
  s_path (v_st (e_v e1)) <> [] -> c_frames (v_ca (e_v e1)) <> [] ->
  eng_exec fuel rs c e [] = eng_exec_inner fuel rs c (reset_engine c e1).
Proof. intros * Hr Hi H _. exact (reset_on_empty_exec Hr Hi H). Qed.

(* Init of a long-lived engine in its steady state changes nothing but the per-request marks *)
Theorem C04_init_steady : forall fuel rs c e input,
  e_initd e = true -> getf (v_st (e_v e)) FLAG_DIRTY = false -> e_exit e = [] -> e_exiting e = false ->
  eng_init fuel rs c e input = (mkEng (e_v e) true [] false false, true, SOk).
Proof.
  intros fuel rs c e input Hi Hd Hx He. rewrite EngineProofs.eng_init_initd by (try (intros _; split); assumption).
  unfold EngineProofs.stuck, EngineProofs.cleared. rewrite Hx, EngineProofs.exit_over_nil, andb_false_r, Hi. reflexivity.
Qed.

(* the corollary AT the entry node, on page k > 0 *)
Theorem C04_reset_on_empty_at_entry_page : forall fuel rs c e code k e' cont s,
  c_reset_empty c = true -> root_ok c -> rs_code rs (cfg_root c) = Ok code ->
  e_initd e = true -> getf (v_st (e_v e)) FLAG_DIRTY = false -> e_exit e = [] -> e_exiting e = false ->
  s_path (v_st (e_v e)) = [cfg_root c] -> s_idx (v_st (e_v e)) = k -> 0 < k ->
  nav_inv (v_st (e_v e)) (v_ca (e_v e)) ->
  eng_exec (S fuel) rs c e [] = (e', cont, s) ->
  (* the rewind is NOT skipped at depth 0: position ([], 0), one cache level, code = MOVE root
     (whatever INCMP lines were pending) *)
  (let vr := reset_vm c (e_v e) in
   s_code (v_st vr) = encode (IMove (cfg_root c)) /\ pos_of (v_st vr) = ([], 0) /\ cache_levels (v_ca vr) = 1)
  /\ exists vM new,
       pos_of (v_st vM) = ([cfg_root c], 0) /\ cache_levels (v_ca vM) = 2
       /\ v_log vM = (if rs_observed rs then [EvCode (cfg_root c)] else []) ++
                    EvMove 0 (cfg_root c) (cfg_root c) :: EvInstr op_MOVE :: v_log (e_v e)
       /\ v_log (e_v e') = new ++ v_log vM
       /\ nav_fold nav_code ([cfg_root c], 0) (log_moves new) = Some (pos_of (v_st (e_v e')))
       (* root@k -> root@0 when the root's code halts without moving *)
       /\ (log_moves new = [] -> pos_of (v_st (e_v e')) = ([cfg_root c], 0)).
Proof.
  intros fuel rs c e code k e' cont s Hr Hroot Hcode Hi Hd Hx Hex Hp Hk Hk0 Hinv He.
  apply (C04_reset_on_empty_returns_to_entry fuel rs c e _ code e' cont s Hr Hroot Hcode (C04_init_steady _ _ _ _ _ Hi Hd Hx Hex));
    cbn [e_v]; [rewrite Hp; discriminate|exact Hinv|exact He].
Qed.

Theorem C04_init_unwinds_stale_position : forall fuel rs c e input,
  c_first c = None -> e_initd e = false -> e_execd e = false ->
  stale (v_st (e_v e)) -> c_frames (v_ca (e_v e)) <> [] -> len input <= INPUT_LIMIT ->
  (* whatever the depth (>= 1 element on the stack, the entry node itself included) *)
  eng_init fuel rs c e input = (mkEng (init_unwound_vm c (e_v e) input) true [] false false, true, SOk)
  /\ (let v' := init_unwound_vm c (e_v e) input in
      s_code (v_st v') = encode (IMove (cfg_root c)) /\ pos_of (v_st v') = ([], 0)
      /\ v_ca v' = pops (List.length (s_path (v_st (e_v e)))) (v_ca (e_v e))
      /\ (nav_inv (v_st (e_v e)) (v_ca (e_v e)) -> cache_levels (v_ca v') = 1)
      /\ v_log v' = v_log (e_v e) /\ getf (v_st v') FLAG_TERMINATE = false
      (* the injected move is not refused: it arrives at [root], index 0 *)
      /\ (valid_sym_b (cfg_root c) = true ->
          apply_target (cfg_root c) (v_st v') (v_ca v') =
          (set_path_idx (v_st v') [cfg_root c] 0, cache_push (v_ca v'), cfg_root c, SOk))).
Proof.
  intros fuel rs c e input Hf Hi Hx Hst Hc Hlen. split; [apply eng_init_stale; assumption|].
  cbv zeta. unfold init_unwound_vm, unwound_vm. cbn [v_st v_ca v_log vset_st vset_ca].
  split; [reflexivity|]. split; [reflexivity|]. split; [reflexivity|].
  split; [exact (unwound_levels _ _)|]. split; [reflexivity|]. split; [apply EngineProofs.getf_reset_state_term|].
  intros Hv. apply apply_named_from_empty; [exact Hv|reflexivity].
Qed.

(* ... whereas on the stale position itself, when that is the entry node, MOVE <entry node> is
   refused ("already at node"): nothing moves, the page index stays *)
Theorem C04_stale_at_entry_refuses_root : forall c st ca,
  valid_sym_b (cfg_root c) = true -> s_path st = [cfg_root c] ->
  apply_target (cfg_root c) st ca = (st, ca, cfg_root c, SErr EGen None).
Proof.
  intros c st ca Hv Hp. apply fail_down_refused; [exact Hv|]. unfold down_refused, where_sym. rewrite Hp. cbn [last].
  rewrite BytesProofs.bytes_eqb_refl. apply orb_true_r.
Qed.

(* MOVE t from the empty stack: pushes t, index 0, one cache level more; its code is what runs next *)
Theorem C04_move_from_empty : forall fuel rs sep lang t v code,
  valid_sym_b t = true -> wf_sym t -> s_path (v_st v) = [] -> getf (v_st v) FLAG_TERMINATE = false ->
  rs_code rs t = Ok code ->
  let vI := vlog (snd (run_prelude lang v)) (EvInstr op_MOVE) in
  run (S fuel) rs sep lang (encode (IMove t)) v =
  run_post fuel rs sep (fst (run_prelude lang v)) (moved_vm rs sep t vI, code, SOk)
  /\ pos_of (v_st (moved_vm rs sep t vI)) = ([t], 0)
  /\ v_ca (moved_vm rs sep t vI) = cache_push (v_ca v)
  /\ v_log (moved_vm rs sep t vI) = (if rs_observed rs then [EvCode t] else []) ++ EvMove 0 t t :: EvInstr op_MOVE :: v_log v.
Proof. exact run_move_from_empty. Qed.

(* corpus cases of go/cmd/vh/engine.go.  reset-on-empty-at-entry-page (ResetOnEmptyInput, OutputSize 30):
   "", 11, 11, "", 11, " ", x => root@0, root@1, root@2, root@0 (the rewind at the entry node), root@1, root@1 (" " is refused by
   the input pattern: no trimming), root/foo@0 *)
Example C04_reset_on_empty_corpus :
  fst (long_positions (app_rsrc roe_app) roe_cfg (new_engine roe_cfg None [] [])
                      [[]; s2b "11"; s2b "11"; []; s2b "11"; s2b " "; s2b "x"])
  = [([s2b "root"], 0); ([s2b "root"], 1); ([s2b "root"], 2); ([s2b "root"], 0); ([s2b "root"], 1);
     ([s2b "root"], 1); ([s2b "root"; s2b "foo"], 0)]
  /\ map (option_map fst) (fst (pers_positions (app_rsrc roe_app) roe_cfg (mkPw None [] [] false)
                      [[]; s2b "11"; s2b "11"; []; s2b "11"; s2b " "; s2b "x"]))
  = [Some ([s2b "root"], 0); Some ([s2b "root"], 1); Some ([s2b "root"], 2); Some ([s2b "root"], 0);
     Some ([s2b "root"], 1); Some ([s2b "root"], 1); Some ([s2b "root"; s2b "foo"], 0)].
Proof. vm_compute. split; reflexivity. Qed.

(* the hypotheses of C04_reset_on_empty_at_entry_page hold of the engine at root@2, and its conclusion
   is root@0 with the first new events MOVE / EvMove root *)
Example C04_reset_on_empty_at_entry_page_nonvacuous :
  let e := snd (long_positions (app_rsrc roe_app) roe_cfg (new_engine roe_cfg None [] []) [[]; s2b "11"; s2b "11"]) in
  c_reset_empty roe_cfg = true /\ valid_sym_b (cfg_root roe_cfg) = true
  /\ is_ok (rs_code (app_rsrc roe_app) (cfg_root roe_cfg)) = true
  /\ e_initd e = true /\ getf (v_st (e_v e)) FLAG_DIRTY = false /\ e_exit e = [] /\ e_exiting e = false
  /\ pos_of (v_st (e_v e)) = ([cfg_root roe_cfg], 2)
  /\ cache_levels (v_ca (e_v e)) = len (s_path (v_st (e_v e))) + 1
  (* pending: INCMP > 11; INCMP < 22; INCMP foo * - the wildcard would match the empty input *)
  /\ s_code (v_st (e_v e)) = incmp_block [(s2b ">", s2b "11"); (s2b "<", s2b "22"); (s2b "foo", s2b "*")]
  /\ (let '(e', cont, s) := eng_exec 300 (app_rsrc roe_app) roe_cfg e [] in
      s = SOk /\ cont = true /\ pos_of (v_st (e_v e')) = ([s2b "root"], 0)
      /\ cache_levels (v_ca (e_v e')) = 2
      /\ log_fired (v_log (e_v e')) = log_fired (v_log (e_v e))
      /\ log_moves (v_log (e_v e')) = log_moves (v_log (e_v e)) ++ [s2b "root"]).
Proof. vm_compute. repeat split. Qed.

(* restart-after-error, persisted operation: request "" fails at the entry node (LOAD aa 5 answers
   7 bytes): the record is root@0 WITHOUT pending code = a stale position of depth exactly 1; the next
   request's new engine unwinds it and MOVE root succeeds (the function now answers "ok"): the session is
   at root@0 with the INCMP pending, and the third request moves to foo *)
Example C04_restart_after_error_corpus :
  fst (pers_positions (app_rsrc rae_app) rae_cfg (mkPw None [] [] false) [[]; s2b "1"; s2b "1"])
  = [Some ([s2b "root"], 0, []);
     Some ([s2b "root"], 0, incmp_block [(s2b "foo", s2b "1")]);
     Some ([s2b "root"; s2b "foo"], 0, incmp_block [(s2b "_", s2b "0")])].
Proof. vm_compute. reflexivity. Qed.

(* the hypotheses of C04_init_unwinds_stale_position hold of the new engine around that record, and
   Init leaves path [], index 0, code MOVE root, one cache level *)
Example C04_init_unwinds_stale_position_nonvacuous :
  let p := snd (pers_positions (app_rsrc rae_app) rae_cfg (mkPw None [] [] false) [[]]) in
  let e := new_engine rae_cfg (pw_store p) (pw_w p) (pw_log p) in
  c_first rae_cfg = None /\ e_initd e = false /\ e_execd e = false
  /\ s_code (v_st (e_v e)) = [] /\ getf (v_st (e_v e)) FLAG_TERMINATE = false
  /\ s_path (v_st (e_v e)) = [cfg_root rae_cfg]
  /\ cache_levels (v_ca (e_v e)) = 2
  /\ (let '(e1, cont, s) := eng_init 300 (app_rsrc rae_app) rae_cfg e (s2b "1") in
      s = SOk /\ cont = true /\ pos_of (v_st (e_v e1)) = ([], 0) /\ cache_levels (v_ca (e_v e1)) = 1
      /\ s_code (v_st (e_v e1)) = encode (IMove (s2b "root")))
  (* without the unwinding the injected move would be refused *)
  /\ snd (apply_target (cfg_root rae_cfg) (v_st (e_v e)) (v_ca (e_v e))) = SErr EGen None.
Proof. vm_compute. repeat split. Qed.

Print Assumptions C04_engine_reset_exact.
Print Assumptions C04_unwound_state.
Print Assumptions C04_unwound_one_level.
Print Assumptions C04_reset_force_exact.
Print Assumptions C04_reset_on_empty_returns_to_entry.
Print Assumptions C04_reset_on_empty_exec.
Print Assumptions C04_init_steady.
Print Assumptions C04_reset_on_empty_at_entry_page.
Print Assumptions C04_init_unwinds_stale_position.
Print Assumptions C04_stale_at_entry_refuses_root.
Print Assumptions C04_move_from_empty.
