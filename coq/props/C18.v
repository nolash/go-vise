(* C18 — The selected language reaches every lookup and survives the session.

   Statement (properties.jsonl): "Once a language is selected - by configuration or by an external
   function that returns a valid ISO-639 code together with the LANG flag - every later template,
   menu-label and external-function lookup of that session is made in that language, including
   after the session has been saved and resumed, and a lookup with no translation returns the
   default-language entry.  An unknown code leaves the language unchanged."  For all programs that
   switch language at arbitrary points, all histories, partial translation sets, long-lived and
   persisted operation.

   Where the language lives in the model: `s_lang` of the state (persisted) is the SESSION
   language; the `lang` parameter of `run` / `vm_render` is the "Language" value of the Go context.
   `eng_exec_inner` and `eng_flush` start from `s_lang`; inside the run loop the prelude of every
   instruction replaces the context value by `s_lang` when FLAG_LANG is set and the state has a
   language (`eff_lang lang st` is the value the instruction about to run will see) and clears the
   flag.  Function lookups are the `EvFunc sym lang input` ghost events, renders the
   `EvRender sym idx lang` events; `page_render` is handed `rs_tpl rs lang` and `rs_menu rs lang`.
   `reaches rs sep c c'`: the run loop started in configuration c = (context language, code, machine)
   passes through c' (`run (S fuel) = match run_step with Done r => r | Next l b v => run fuel l b v`,
   lemma run_S; `iter_step` computes such configurations).
   `lang_inv lang st`: FLAG_LANG is pending, or lang is the session language, or the session has
   none — true whenever a run is started with lang = s_lang st, as the engine does.

   One clause is false of the code (K-C18-emptylang): an EMPTY result with LANG resets the session
   language to none — "An unknown code leaves the language unchanged" is violated, and inside that
   run the context keeps the old language while the session has none.  Stated as _partial under
   the guard "the code is not empty" / "the session has a language", with _refuted witnesses. *)
From Vise Require Import Bytes Errors Consts EngConsts Codec CacheModel StateModel NavModel NavSpec
  RenderModel VmModel EngineModel SymbolProofs.
From Vise Require EngineProofs.
Local Open Scope N_scope.

(* one iteration: every function call it makes carries the language current at that instruction
   (eff_lang), it logs no render; and the session language can only change together with a LANG
   flag left set for the next instruction to consume *)
Theorem C18_calls_carry_instruction_language : forall rs sep lang b v v',
  (exists b' s, run_step rs sep lang b v = Done (v', b', s)) \/ (exists l1 b1, run_step rs sep lang b v = Next l1 b1 v') ->
  (exists new, v_log v' = new ++ v_log v
     /\ Forall (fun e => match e with EvFunc _ l _ => l = eff_lang lang (v_st v) | EvRender _ _ _ => False | _ => True end) new)
  /\ (s_lang (v_st v') <> s_lang (v_st v) -> getf (v_st v') FLAG_LANG = true).
Proof.
  intros rs sep lang b v v' H. destruct (run_step_ok rs sep lang b v) as [Hl Hs].
  destruct H as [(b' & s & H)|(l1 & b1 & H)]; rewrite H in Hl, Hs; cbn [step_machine] in Hs; (split; [exact Hl|intros Hne; destruct Hs; congruence]).
Qed.

(* what a function result does to the session language: nothing unless it left LANG set; then
   exactly SetLanguage(result) *)
Theorem C18_switch_exact : forall rs lang key v v' content,
  refresh rs lang key v = (v', content, SOk) ->
  s_lang (v_st v') = if getf (v_st v') FLAG_LANG then new_lang lang_lookup (s_lang (v_st v)) content
                     else s_lang (v_st v).
Proof. intros rs lang key v v' content H. apply (refresh_spec _ _ _ _ _ _ _ H). Qed.

(* every instruction of a run started in the session language executes in the session's current
   language, or the session has none *)
Theorem C18_run_lang_follows_session : forall rs sep lang b v l' b' v',
  lang_inv lang (v_st v) -> reaches rs sep (lang, b, v) (l', b', v') ->
  eff_lang l' (v_st v') = s_lang (v_st v') \/ s_lang (v_st v') = None.
Proof.
  intros rs sep lang b v l' b' v' Hi Hr. apply lang_inv_eff.
  apply (reaches_invariant rs sep (fun l _ v => lang_inv l (v_st v)) (lang_inv_step rs sep) _ _ _ _ _ _ Hi Hr).
Qed.

(* Full statement (false, see the refutation): "at every instruction of a run started in the
   session language, the context language IS the session language".
   Partial, guard = the session has a language at that instruction: then that instruction — hence
   every function call it makes — runs in it.  In particular after a switch to L all later
   instructions of the run use L for as long as the session stays in L. *)
Theorem C18_lang_reaches_lookups_run_partial : forall rs sep lang b v l' b' v' L,
  lang_inv lang (v_st v) -> reaches rs sep (lang, b, v) (l', b', v') ->
  s_lang (v_st v') = Some L -> eff_lang l' (v_st v') = Some L.
Proof.
  intros rs sep lang b v l' b' v' L Hi Hr HL. destruct (C18_run_lang_follows_session _ _ _ _ _ _ _ _ Hi Hr) as [H|H]; congruence.
Qed.

(* whole run, any fuel (also when it runs out): every function call event appended was made by an
   instruction of a configuration the run passed through, in that instruction's language, which is
   the session's language at that point or the session had none; no render event *)
Theorem C18_run_function_calls : forall rs sep fuel lang b v,
  lang_inv lang (v_st v) ->
  exists new, v_log (fst (fst (run fuel rs sep lang b v))) = new ++ v_log v
    /\ Forall (fun e => match e with
                        | EvFunc _ l _ => exists l2 b2 v2, reaches rs sep (lang, b, v) (l2, b2, v2)
                                            /\ l = eff_lang l2 (v_st v2)
                                            /\ (l = s_lang (v_st v2) \/ s_lang (v_st v2) = None)
                        | EvRender _ _ _ => False
                        | _ => True end) new.
Proof.
  intros rs sep fuel lang b v Hi. eapply grows_impl; [|apply run_events_lemma]. intros e He. destruct e; auto.
  destruct He as (l2 & b2 & v2 & Hr & ->). exists l2, b2, v2. split; [exact Hr|]. split; [reflexivity|].
  eapply C18_run_lang_follows_session; eassumption.
Qed.

(* K-C18-emptylang inside a run: session and run in nor; RELOAD lang1 answers "" with LANG; at the
   next instruction the session has no language and the context still says nor *)
Theorem C18_lang_reaches_lookups_refuted_emptylang :
  exists rs sep lang b v l' b' v',
    lang = Some (s2b "nor") /\ s_lang (v_st v) = lang /\ lang_inv lang (v_st v)
    /\ reaches rs sep (lang, b, v) (l', b', v')
    /\ s_lang (v_st v') = None /\ eff_lang l' (v_st v') = Some (s2b "nor").
Proof.
  assert (Hx : (fst (fst ex_lang_conf), s_lang (v_st (snd ex_lang_conf))) = (Some (s2b "nor"), Some (s2b "nor")))
    by (vm_compute; reflexivity).
  assert (Hy : option_map (fun c => (s_lang (v_st (snd c)), eff_lang (fst (fst c)) (v_st (snd c))))
                 (iter_step 1 (app_rsrc ex_app_lang) [] ex_lang_conf) = Some (None, Some (s2b "nor")))
    by (vm_compute; reflexivity).
  destruct ex_lang_conf as [[lang b] v]. cbn [fst snd] in Hx. injection Hx as -> Hv.
  destruct (iter_step 1 _ [] _) as [[[l' b'] v']|] eqn:Hi; [|discriminate]. injection Hy as H1 H2.
  exists (app_rsrc ex_app_lang), [], (Some (s2b "nor")), b, v, l', b', v'.
  repeat split; [exact Hv|right; left; symmetry; exact Hv|exact (iter_step_reaches 1 _ _ _ _ Hi)|exact H1|exact H2].
Qed.

(* Exec: the main run is started in the session language (exec_start), so every function call it
   logs satisfies the run-level theorem *)
Theorem C18_lang_reaches_lookups_exec : forall fuel rs c e,
  s_code (v_st (e_v e)) <> [] ->
  exists new, v_log (e_v (fst (fst (eng_exec_inner fuel rs c e)))) = new ++ v_log (e_v e)
    /\ Forall (fun ev => match ev with
                         | EvFunc _ l _ => exists l2 b2 v2, reaches rs (c_sep c) (exec_start c e) (l2, b2, v2)
                                             /\ l = eff_lang l2 (v_st v2)
                                             /\ (l = s_lang (v_st v2) \/ s_lang (v_st v2) = None)
                         | EvRender _ _ _ => False
                         | _ => True end) new.
Proof.
  intros fuel rs c e Hne. rewrite EngineProofs.eng_exec_inner_log by exact Hne.
  exact (C18_run_function_calls rs (c_sep c) fuel _ (s_code (v_st (e_v e))) (vset_st (e_v e) (set_code (v_st (e_v e)) [])) (lang_inv_start _)).
Qed.

(* the entry function of WithFirst runs through the same loop (first_start is the configuration
   runFirst starts from: one level down, at "_first"); eng_init calls it with the session language *)
Theorem C18_lang_reaches_lookups_first : forall fuel c lang e script,
  c_first c = Some script -> lang_inv lang (v_st (e_v e)) ->
  exists new, v_log (e_v (fst (fst (run_first fuel c lang e)))) = new ++ v_log (e_v e)
    /\ Forall (fun ev => match ev with
                         | EvFunc _ l _ => exists c0 l2 b2 v2, first_start lang e = Some c0
                                             /\ reaches (first_rsrc script) [] c0 (l2, b2, v2)
                                             /\ l = eff_lang l2 (v_st v2)
                                             /\ (l = s_lang (v_st v2) \/ s_lang (v_st v2) = None)
                         | EvRender _ _ _ => False
                         | _ => True end) new.
Proof.
  intros fuel c lang e script Hc Hi. unfold run_first, first_start. rewrite Hc.
  destruct (st_down (v_st (e_v e)) first_sym) as [st1|er|n] eqn:Hd; [|apply grows_refl..].
  destruct (NavProofs.st_down_keeps _ _ _ Hd) as [El Ef].
  set (v1 := mkVm st1 (cache_push (v_ca (e_v e))) (page_with_menu (page_reset new_page) (vm_new_menu []))
                  (v_w (e_v e)) (v_log (e_v e)) (v_taint (e_v e))).
  assert (Hi1 : lang_inv lang (v_st v1)).
  { unfold lang_inv, lang_follows, getf in *. cbn [v_st v1]. rewrite El, Ef. exact Hi. }
  pose proof (C18_run_function_calls (first_rsrc script) [] fuel lang first_code v1 Hi1) as G.
  eapply grows_impl; cycle 1.
  - (* whatever runFirst does with the result of the run (by its status, the code left, TERMINATE, the cache's last
       value), the engine it returns has the log of the machine the run returned *)
    destruct (run fuel (first_rsrc script) [] lang first_code v1) as [[v2 b] s]. cbn [fst] in G.
    destruct s; [destruct b; [destruct (getf (v_st v2) FLAG_TERMINATE)|]|..];
      try (destruct (cache_last (v_ca v2)) as [ex ca2]); exact G.
  - intros ev Hev. destruct ev; try exact Hev. destruct Hev as (l2 & b2 & v2 & Hr).
    exists (lang, first_code, v1), l2, b2, v2. split; [reflexivity|exact Hr].
Qed.

(* Flush: every render event (the page, and the second render after a BrowseError) carries the
   session language at flush time *)
Theorem C18_lang_reaches_lookups_flush : forall fuel rs c e,
  exists new, v_log (e_v (fst (fst (eng_flush fuel rs c e)))) = new ++ v_log (e_v e)
              /\ Forall (fun ev => match ev with EvRender _ _ l => l = s_lang (v_st (e_v e)) | _ => True end) new.
Proof.
  intros fuel rs c e. destruct (proj1 (EngineProofs.eng_flush_cases fuel rs c e)) as [->|[->|[_ ->]]]; [apply grows_refl|..];
    cbn [e_v eset_v]; rewrite ?eng_reset_inner_log; apply vm_render_events.
Qed.

(* ... and the lookups cannot see any other language: two resources that agree on code,
   functions and on the template / menu lookups IN THE SESSION LANGUAGE give the same Flush
   (engine, output, status), whatever they hold for other languages *)
Theorem C18_flush_noninterference : forall fuel rs rs' c e,
  rs_agree_on (s_lang (v_st (e_v e))) rs rs' -> eng_flush fuel rs c e = eng_flush fuel rs' c e.
Proof. exact eng_flush_noninterference. Qed.

Theorem C18_flush_noninterference_app : forall fuel a a' c e,
  app_agree_on (s_lang (v_st (e_v e))) a a' ->
  eng_flush fuel (app_rsrc a) c e = eng_flush fuel (app_rsrc a') c e.
Proof. intros fuel a a' c e H. apply eng_flush_noninterference, app_agree_rs, H. Qed.

(* the run loop does not look at templates or menu labels at all *)
Theorem C18_run_ignores_templates : forall rs rs' sep, rs_same_code rs rs' ->
  forall fuel lang b v, run fuel rs sep lang b v = run fuel rs' sep lang b v.
Proof. exact run_ext. Qed.

(* the snapshot keeps the language; Finish saves the engine's; a new engine around a stored
   session starts from the stored one *)
Theorem C18_language_survives :
  (forall st ca, s_lang (fst (snap_of st ca)) = s_lang st)
  /\ (forall e sn, eng_finish e = Some sn -> s_lang (fst sn) = s_lang (v_st (e_v e)))
  /\ (forall c st ca w lg, s_lang (v_st (e_v (new_engine c (Some (st, ca)) w lg))) = s_lang st).
Proof.
  repeat split. intros e sn. unfold eng_finish. destruct (e_initd e); [|discriminate]. intros H. injection H as <-. reflexivity.
Qed.

(* a persisted request that ends regularly stores the language the session has after Flush *)
Theorem C18_persisted_request_stores_language : forall fuel rs c p input,
  let e := new_engine c (pw_store p) (pw_w p) (pw_log p) in
  let '(e1, cont, s) := eng_exec fuel rs c e input in
  match s with
  | SPanic _ | SFuel => True
  | _ =>
    let '(e2, out, f) := eng_flush fuel rs c e1 in
    match f with
    | FPanic _ | FFuel => True
    | _ => e_initd e2 = true ->
           exists st' ca', pw_store (fst (request_persisted fuel rs c p input)) = Some (st', ca')
                           /\ s_lang st' = s_lang (v_st (e_v e2))
    end
  end.
Proof.
  intros fuel rs c p input. cbv zeta. unfold request_persisted.
  destruct (eng_exec fuel rs c _ input) as [[e1 cont] s].
  destruct s; try exact I;
    (destruct (eng_flush fuel rs c e1) as [[e2 out] f]; destruct f; try exact I;
     intros Hi; unfold eng_finish; rewrite Hi; cbn [fst pw_store];
     exists (set_input_raw (v_st (e_v e2)) None), (v_ca (e_v e2)); (split; reflexivity)).
Qed.

(* once a session exists the configured language is ignored: the whole request (store, world,
   log, response) is the same for every c_lang *)
Theorem C18_session_language_overrides_config : forall fuel rs c l p input sn,
  pw_store p = Some sn ->
  request_persisted fuel rs (cfg_set_lang c l) p input = request_persisted fuel rs c p input.
Proof.
  intros fuel rs c l p input sn Hs. unfold request_persisted. rewrite Hs. cbv zeta.
  change (new_engine (cfg_set_lang c l) (Some sn)) with (new_engine c (Some sn)).
  rewrite eng_exec_cfg_lang. destruct (eng_exec fuel rs c _ input) as [[e1 cont] s].
  destruct s; try reflexivity; rewrite eng_flush_cfg_lang; reflexivity.
Qed.

Theorem C18_lookup_order :
  (forall tbl key l v, alookup (key ++ us ++ l) tbl = Some v -> lookup_lang tbl key (Some l) = Some v)
  /\ (forall tbl key l, alookup (key ++ us ++ l) tbl = None -> lookup_lang tbl key (Some l) = alookup key tbl)
  /\ (forall tbl key, lookup_lang tbl key None = alookup key tbl).
Proof. unfold lookup_lang. repeat split; intros; rewrite ?H; reflexivity. Qed.

(* templates: translation, else default entry, else not found; menu labels: translation, else
   default entry, else the title itself *)
Theorem C18_fallback_to_default : forall a l,
  (forall sym t, alookup (sym ++ us ++ l) (a_tpl a) = Some t -> rs_tpl (app_rsrc a) (Some l) sym = Ok t)
  /\ (forall sym t, alookup (sym ++ us ++ l) (a_tpl a) = None -> alookup sym (a_tpl a) = Some t ->
        rs_tpl (app_rsrc a) (Some l) sym = Ok t)
  /\ (forall sym, alookup (sym ++ us ++ l) (a_tpl a) = None -> alookup sym (a_tpl a) = None ->
        rs_tpl (app_rsrc a) (Some l) sym = Err ENotFound)
  /\ (forall title t, alookup ((title ++ menu_suffix) ++ us ++ l) (a_menu a) = Some t -> rs_menu (app_rsrc a) (Some l) title = Ok t)
  /\ (forall title t, alookup ((title ++ menu_suffix) ++ us ++ l) (a_menu a) = None -> alookup (title ++ menu_suffix) (a_menu a) = Some t ->
        rs_menu (app_rsrc a) (Some l) title = Ok t)
  /\ (forall title, alookup ((title ++ menu_suffix) ++ us ++ l) (a_menu a) = None -> alookup (title ++ menu_suffix) (a_menu a) = None ->
        rs_menu (app_rsrc a) (Some l) title = Ok title).
Proof.
  intros a l. unfold app_rsrc. cbn [rs_tpl rs_menu]. unfold lookup_lang.
  repeat split; intros; repeat match goal with H : alookup _ _ = _ |- _ => rewrite H; clear H end; reflexivity.
Qed.

(* Full statement: "for every code the lookup does not resolve, SetLanguage leaves the state
   unchanged" — false for the empty code.  For ARBITRARY lookup functions: *)
Theorem C18_invalid_code_keeps_language_partial : forall (lk : bytes -> option bytes) st code,
  code <> [] -> lk code = None -> st_set_language lk st code = st.
Proof. intros lk st code Hne Hl. unfold st_set_language. rewrite Hl. destruct code; [congruence|reflexivity]. Qed.

Theorem C18_valid_code_switches : forall (lk : bytes -> option bytes) st code c3,
  lk code = Some c3 -> s_lang (st_set_language lk st code) = Some c3.
Proof. intros lk st code c3 Hl. rewrite st_set_language_lang. unfold new_lang. rewrite Hl. reflexivity. Qed.

(* every lookup that does not resolve "" (the real one does not: lang_table) resets the language *)
Theorem C18_empty_code_resets_language : forall (lk : bytes -> option bytes) st,
  lk [] = None -> s_lang (st_set_language lk st []) = None.
Proof. intros lk st Hl. rewrite st_set_language_lang. unfold new_lang. rewrite Hl. reflexivity. Qed.
Theorem C18_real_lookup_rejects_empty : lang_lookup [] = None.
Proof. vm_compute. reflexivity. Qed.

Theorem C18_invalid_result_keeps_language_partial : forall rs lang key v v' content,
  refresh rs lang key v = (v', content, SOk) ->
  content <> [] -> lang_lookup content = None -> s_lang (v_st v') = s_lang (v_st v).
Proof.
  intros rs lang key v v' content H Hne Hl. rewrite (C18_switch_exact _ _ _ _ _ _ H). destruct (getf (v_st v') FLAG_LANG); [|reflexivity].
  unfold new_lang. rewrite Hl. destruct content; [congruence|reflexivity].
Qed.
Theorem C18_valid_result_switches : forall rs lang key v v' content c3,
  refresh rs lang key v = (v', content, SOk) ->
  getf (v_st v') FLAG_LANG = true -> lang_lookup content = Some c3 -> s_lang (v_st v') = Some c3.
Proof.
  intros rs lang key v v' content c3 H Hf Hl. rewrite (C18_switch_exact _ _ _ _ _ _ H), Hf. unfold new_lang. rewrite Hl. reflexivity.
Qed.

(* K-C18-emptylang on the engine (corpus case lang-empty of go/cmd/vh/engine.go): request 1
   selects nor ("rot"); request 2 (RELOAD lang1 answers "" with LANG) leaves the session WITHOUT a
   language: foo and, later, root come out in the default language, in both modes.  The third
   answer, the unknown code "xx" (request 4), changes nothing.  Inside request 2 the function
   `other` is still called in nor while the page is rendered in the default language. *)
Theorem C18_invalid_code_refuted_empty :
  (let '(e1, r1) := request_long ex_fuel (app_rsrc ex_app_lang) ex_cfg1 (ex_e0 ex_cfg1) [] in
   let '(e2, r2) := request_long ex_fuel (app_rsrc ex_app_lang) ex_cfg1 e1 (s2b "1") in
   s_lang (v_st (e_v e1)) = Some (s2b "nor") /\ r_out r1 = s2b "rot"
   /\ s_lang (v_st (e_v e2)) = None /\ r_out r2 = s2b "foo")
  /\ (let '(e, outs) := ex_long (app_rsrc ex_app_lang) ex_cfg1 (ex_e0 ex_cfg1) [[]; s2b "1"; s2b "0"; s2b "1"; s2b "0"] in
      outs = [s2b "rot"; s2b "foo"; s2b "root"; s2b "foo"; s2b "root"]
      /\ ex_calls (v_log (e_v e)) =
         [EvFunc (s2b "lang1") None (Some []); EvRender (s2b "root") 0 (Some (s2b "nor"));
          EvFunc (s2b "lang1") (Some (s2b "nor")) (Some (s2b "1")); EvFunc (s2b "other") (Some (s2b "nor")) (Some (s2b "1"));
          EvRender (s2b "foo") 0 None; EvRender (s2b "root") 0 None;
          EvFunc (s2b "lang1") None (Some (s2b "1")); EvFunc (s2b "other") None (Some (s2b "1"));
          EvRender (s2b "foo") 0 None; EvRender (s2b "root") 0 None])
  /\ (let '(p, outs) := ex_pers (app_rsrc ex_app_lang) ex_cfg1 ex_p0 [[]; s2b "1"; s2b "0"; s2b "1"; s2b "0"] in
      outs = [s2b "rot"; s2b "foo"; s2b "root"; s2b "foo"; s2b "root"]
      /\ option_map (fun sn => s_lang (fst sn)) (pw_store p) = Some None).
Proof. vm_compute. repeat split; reflexivity. Qed.

(* a configured code that resolves: the fresh state is in that language with FLAG_LANG set, and so
   is the engine built around no stored session; 2032 client flags is where the uint8 byte size
   of the flag field wraps to 0 *)
Theorem C18_config_language : forall c l3,
  c_flagcount c <= 2032 -> lang_lookup (c_lang c) = Some l3 ->
  s_lang (fresh_state c) = Some l3 /\ getf (fresh_state c) FLAG_LANG = true
  /\ forall w lg, s_lang (v_st (e_v (new_engine c None w lg))) = Some l3.
Proof.
  intros c l3 Hb Hl. apply byte_size_small in Hb.
  assert (E : s_lang (st_set_language lang_lookup (new_state (c_flagcount c)) (c_lang c)) = Some l3)
    by (rewrite st_set_language_lang; unfold new_lang; rewrite Hl; reflexivity).
  unfold new_engine, fresh_state. cbn [e_v v_st]. rewrite E. split; [exact E|]. split; [|intros; exact E].
  apply VmProofs.getf_setf_same. rewrite VmProofs.st_set_language_flags. unfold new_state. cbn [s_flags].
  rewrite VmProofs.length_falses. unfold FLAG_LANG. Lia.lia.
Qed.

(* a switch in the middle of a node (2-letter code "no" -> nor), translations for a subset only:
   the function called right after the switch, the template (translated), one menu label
   (translated), one without any entry (the title itself) and, on the next request, a function and
   a template without translation (default entry) all see nor — in both modes, and identically
   for two applications that differ only in their swa entries *)
Example C18_switch_history :
  let a := ex_app_switch (s2b "mzizi") (s2b "endelea") in
  let a' := ex_app_switch (s2b "X") [] in
  let '(e, outs) := ex_long (app_rsrc a) ex_cfg1 (ex_e0 ex_cfg1) [[]; s2b "1"] in
  let '(p, outs_p) := ex_pers (app_rsrc a) ex_cfg1 ex_p0 [[]; s2b "1"] in
  let '(e', outs') := ex_long (app_rsrc a') ex_cfg1 (ex_e0 ex_cfg1) [[]; s2b "1"] in
  outs = [s2b "rot" ++ [10] ++ s2b "1:videre" ++ [10] ++ s2b "2:stay"; s2b "foo"]
  /\ outs_p = outs /\ outs' = outs
  /\ ex_calls (v_log (e_v e)) =
     [EvFunc (s2b "lang1") None (Some []); EvFunc (s2b "other") (Some (s2b "nor")) (Some []);
      EvRender (s2b "root") 0 (Some (s2b "nor")); EvFunc (s2b "third") (Some (s2b "nor")) (Some (s2b "1"));
      EvRender (s2b "foo") 0 (Some (s2b "nor"))]
  /\ ex_calls (pw_log p) = ex_calls (v_log (e_v e))
  /\ option_map (fun sn => s_lang (fst sn)) (pw_store p) = Some (Some (s2b "nor")).
Proof. vm_compute. repeat split; reflexivity. Qed.

(* the hypotheses of the run-level theorems: the main run of the first request starts with
   lang = s_lang = None; after one iteration (LOAD lang1 answered "no" with LANG) the session is
   in nor, the flag is pending and the instruction about to run sees nor *)
Example C18_run_hypotheses :
  let rs := app_rsrc (ex_app_switch [] []) in
  let '(e, cont, s) := eng_init ex_fuel rs ex_cfg1 (ex_e0 ex_cfg1) [] in
  let c0 := exec_start ex_cfg1 e in
  fst (fst c0) = s_lang (v_st (snd c0))
  /\ option_map (fun c => (fst (fst c), s_lang (v_st (snd c)), getf (v_st (snd c)) FLAG_LANG, eff_lang (fst (fst c)) (v_st (snd c))))
       (iter_step 2 rs [] c0)
     = Some (None, Some (s2b "nor"), true, Some (s2b "nor")).
Proof. vm_compute. repeat split; reflexivity. Qed.

(* configuration: "no" resolves to nor and the very first page is in nor; "zzzz" does not resolve
   and the session has no language; a later engine configured for "sw" around the stored nor
   session keeps serving nor *)
Example C18_config_cases :
  lang_lookup (s2b "no") = Some (s2b "nor") /\ lang_lookup (s2b "zzzz") = None
  /\ (let '(e, outs) := ex_long (app_rsrc ex_app_plain) (ex_cfg_lang "no") (ex_e0 (ex_cfg_lang "no")) [[]; s2b "1"] in
      outs = [s2b "rot" ++ [10] ++ s2b "1:videre"; s2b "foo"]
      /\ ex_calls (v_log (e_v e)) = [EvFunc (s2b "other") (Some (s2b "nor")) (Some []);
                                     EvRender (s2b "root") 0 (Some (s2b "nor")); EvRender (s2b "foo") 0 (Some (s2b "nor"))])
  /\ (let '(e, outs) := ex_long (app_rsrc ex_app_plain) (ex_cfg_lang "zzzz") (ex_e0 (ex_cfg_lang "zzzz")) [[]] in
      outs = [s2b "root" ++ [10] ++ s2b "1:go on"] /\ s_lang (v_st (e_v e)) = None)
  /\ (let '(p1, r1) := request_persisted ex_fuel (app_rsrc ex_app_plain) (ex_cfg_lang "no") ex_p0 [] in
      let '(p2, r2) := request_persisted ex_fuel (app_rsrc ex_app_plain) (ex_cfg_lang "sw") p1 (s2b "1") in
      let '(p3, r3) := request_persisted ex_fuel (app_rsrc ex_app_plain) (ex_cfg_lang "sw") p2 (s2b "0") in
      r_out r3 = s2b "rot" ++ [10] ++ s2b "1:videre"
      /\ option_map (fun sn => s_lang (fst sn)) (pw_store p3) = Some (Some (s2b "nor"))).
Proof. vm_compute. repeat split; reflexivity. Qed.

(* entry function configured, language "no" configured: the very first call of _first (one per
   engine: once in long-lived, once per request in persisted operation) carries nor *)
Example C18_first_function :
  (let '(e, outs) := ex_long (app_rsrc ex_app_plain) ex_cfg_first (ex_e0 ex_cfg_first) [[]; s2b "1"] in
   ex_calls (v_log (e_v e)) =
     [EvFunc first_sym (Some (s2b "nor")) (Some []); EvFunc (s2b "other") (Some (s2b "nor")) (Some []);
      EvRender (s2b "root") 0 (Some (s2b "nor")); EvRender (s2b "foo") 0 (Some (s2b "nor"))])
  /\ (let '(p, outs) := ex_pers (app_rsrc ex_app_plain) ex_cfg_first ex_p0 [[]; s2b "1"] in
      ex_calls (pw_log p) =
        [EvFunc first_sym (Some (s2b "nor")) (Some []); EvFunc (s2b "other") (Some (s2b "nor")) (Some []);
         EvRender (s2b "root") 0 (Some (s2b "nor")); EvFunc first_sym (Some (s2b "nor")) (Some (s2b "1"));
         EvRender (s2b "foo") 0 (Some (s2b "nor"))]).
Proof. vm_compute. repeat split; reflexivity. Qed.

(* the two applications of C18_switch_history have the same code and functions and resolve the template key "root"
   alike in nor and differently in swa.  One key only: app_agree_on asks the same of every key and does not hold of
   them (the key "root_swa" itself resolves to the swa entries in every language) *)
Example C18_agree_example :
  let a := ex_app_switch (s2b "mzizi") (s2b "endelea") in
  let a' := ex_app_switch (s2b "X") [] in
  a_code a = a_code a' /\ a_funcs a = a_funcs a'
  /\ forallb (fun k => match lookup_lang (a_tpl a) k (Some (s2b "nor")), lookup_lang (a_tpl a') k (Some (s2b "nor")) with
                       | Some x, Some y => bytes_eqb x y | None, None => true | _, _ => false end
                       && negb (match lookup_lang (a_tpl a) k (Some (s2b "swa")), lookup_lang (a_tpl a') k (Some (s2b "swa")) with
                                | Some x, Some y => bytes_eqb x y | None, None => true | _, _ => false end))
             [s2b "root"] = true.
Proof. vm_compute. repeat split; reflexivity. Qed.

Print Assumptions C18_calls_carry_instruction_language.
Print Assumptions C18_switch_exact.
Print Assumptions C18_lang_reaches_lookups_run_partial.
Print Assumptions C18_run_lang_follows_session.
Print Assumptions C18_run_function_calls.
Print Assumptions C18_lang_reaches_lookups_refuted_emptylang.
Print Assumptions C18_lang_reaches_lookups_exec.
Print Assumptions C18_lang_reaches_lookups_first.
Print Assumptions C18_lang_reaches_lookups_flush.
Print Assumptions C18_flush_noninterference.
Print Assumptions C18_flush_noninterference_app.
Print Assumptions C18_run_ignores_templates.
Print Assumptions C18_language_survives.
Print Assumptions C18_persisted_request_stores_language.
Print Assumptions C18_session_language_overrides_config.
Print Assumptions C18_lookup_order.
Print Assumptions C18_fallback_to_default.
Print Assumptions C18_invalid_code_keeps_language_partial.
Print Assumptions C18_valid_code_switches.
Print Assumptions C18_empty_code_resets_language.
Print Assumptions C18_real_lookup_rejects_empty.
Print Assumptions C18_invalid_result_keeps_language_partial.
Print Assumptions C18_valid_result_switches.
Print Assumptions C18_invalid_code_refuted_empty.
Print Assumptions C18_config_language.
