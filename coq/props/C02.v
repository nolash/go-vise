(* C02 — Paginated sink content is complete, ordered and navigable (render level). *)
From Coq Require Import Lia.
From Vise Require Import Bytes Errors CacheModel RenderModel RenderProofs.
Local Open Scope N_scope.

(* FULL STATEMENT (false on the current code, see the refutations below):
     forall vs rem ms r n cs, vs <> [] -> join_sink vs rem ms [0] = (Ok (r, n), cs) ->
       the rows shown on pages 0..n-1 (Sizer.GetAt), concatenated, are vs; every such page is
       delivered; pages past n are errors; and every page, with the browse entries it carries,
       fits `remaining`.
   It is proved for all row lists, all `remaining`, all label sizes under the decidable guards
     rows_ok    := no row is empty (K-C02-emptyrow), no row holds a NUL byte (K-C02-nul; the
                   in-page separator) or an LF (never the case for rows from strings.Split);
     budget_ok  := next + prev + 4 + longest row <= remaining < 2^31 (K-C02-budget);
   and the fixed-width limits  len vs < 2^16 (uint16 page count) and total size < 2^32 (uint32
   cursors), which are not findings but the stated range of the paginator. *)

(* pages 0..n-1 are delivered, show every row exactly once and in order (page i is the i-th
   block of a partition of vs into contiguous non-empty blocks), one cursor per page, and
   every index from n on is an error *)
Theorem C02_pages_partition_partial : forall vs remaining ms r n cs,
  vs <> [] -> rows_ok vs = true -> rows_size vs < 4294967296 -> len vs < 65536 ->
  join_sink vs remaining ms [0] = (Ok (r, n), cs) ->
  (forall i, i < n -> is_ok (sink_page r cs i) = true)
  /\ List.concat (map (fun i => shown_rows r cs (N.of_nat i)) (seq 0 (N.to_nat n))) = vs
  /\ len cs = n
  /\ (exists pages : list (list bytes),
        List.concat pages = vs /\ len pages = n /\ Forall (fun p => p <> []) pages
        /\ forall i p, nth_error pages i = Some p -> shown_rows r cs (N.of_nat i) = p)
  /\ (forall i, n <= i -> sink_page r cs i = Err EGen).
Proof. exact join_sink_partition. Qed.

(* rows ["", "aaaa"]: the empty first row is dropped *)
Theorem C02_pages_partition_refuted_emptyrow :
  exists vs remaining ms, vs <> [] /\ rows_ok vs = false /\ partition_ok vs remaining ms = false.
Proof. exists [[]; s2b "aaaa"], 38, (0, 7, 7, 14). split; [discriminate|]. vm_compute. auto. Qed.

(* rows ["a\000b", "cc"]: the NUL is displayed as a line break, so the page shows three rows *)
Theorem C02_pages_partition_refuted_nul :
  exists vs remaining ms, vs <> [] /\ rows_ok vs = false /\ partition_ok vs remaining ms = false.
Proof. exists [[97; 0; 98]; s2b "cc"], 30, (0, 7, 7, 14). split; [discriminate|]. vm_compute. auto. Qed.

(* template text, error prefix, non-sink values and the ordinary menu lines are on every page
   that renders, and the browse lines are exactly: "next" iff i+1 < n, "previous" iff 0 < i *)
Theorem C02_static_parts_repeat : forall c gt gm pg sym i out pg' z0 m,
  p_sizer pg = Some z0 -> p_menu pg = Some m ->
  m_sink m = false -> m_keep m = true -> m_sep m <> [] ->
  b_next_avail (m_browse m) = true -> b_prev_avail (m_browse m) = true ->
  page_render c gt gm pg sym i = (Ok out, pg') ->
  exists src items vals' body lines blines n,
    gt sym = Ok src
    /\ tpl_parse (tpl_source (p_err pg) (p_extra pg) src) = Some items
    /\ tpl_exec items vals' = Ok body
    /\ (forall k, k <> [] -> k <> menu_sink_key -> cache_reserved c k <> Ok 0 ->
          (forall z', p_sizer pg' = Some z' -> k <> z_sink z') ->
          alookup k vals' = alookup k (p_map pg))
    /\ menu_lines (title_for gm m) (m_sep m) (m_items m) = Some lines
    /\ (n = 0 -> i = 0 /\ blines = [])
    /\ (0 < n -> i < n /\
          menu_lines (title_for gm m) (m_sep m) (browse_items (m_browse m) (i + 1 <? n) (0 <? i)) = Some blines)
    /\ out = body ++ opt_menu (join_with [nl] (lines ++ blines)).
Proof. exact page_render_static. Qed.

(* Menu.Render of a paged menu: next shown at i <-> i+1 < n, previous <-> 0 < i *)
Theorem C02_browse_entries : forall gm m i txt m',
  b_next_avail (m_browse m) = true -> b_prev_avail (m_browse m) = true ->
  0 < m_page_count m -> m_sep m <> [] ->
  menu_render_st gm m i = (Ok txt, m') ->
  i < m_page_count m
  /\ exists lines blines,
       menu_lines (title_for gm m) (m_sep m) (m_items m) = Some lines
       /\ menu_lines (title_for gm m) (m_sep m)
            (browse_items (m_browse m) (i + 1 <? m_page_count m) (0 <? i)) = Some blines
       /\ txt = join_with [nl] (lines ++ blines).
Proof.
  intros gm m i txt m' Hn Hp Hpc Hsep Hr. destruct (menu_render_inv Hr Hn Hp Hsep) as [Hi H].
  split; [lia|exact H].
Qed.

(* asking for a page past the end (n pages; any i >= n, i > 0) of a page that has a menu — the
   VM always attaches one — is an error ... *)
Theorem C02_past_end_is_error : forall c gt gm pg sym i vals pg1 m1,
  (forall k, is_panic (gt k) = false) ->
  page_prepare c gt gm pg sym i = (Ok vals, pg1) -> p_menu pg1 = Some m1 ->
  m_page_count m1 <= i -> 0 < i ->
  exists e, fst (page_render c gt gm pg sym i) = Err e.
Proof. exact page_render_past_end. Qed.

(* ... and no index, page, template or menu reaches a Go panic site of Page.Render *)
Theorem C02_render_never_panics : forall c gt gm pg sym idx,
  (forall k, is_panic (gt k) = false) -> (forall k, is_panic (gm k) = false) ->
  is_panic (fst (page_render c gt gm pg sym idx)) = false.
Proof. exact page_render_no_panic. Qed.

(* every offered page renders — the paginator (joinSink/GetAt): under budget_ok joinSink
   succeeds and every page plus the browse entries it carries (as measured by Menu.Sizes, one
   LF each) fits `remaining`.  The lift to Page.Render follows below. *)
Theorem C02_offered_page_renders_partial : forall vs remaining ms,
  vs <> [] -> rows_ok vs = true -> rows_size vs < 4294967296 -> len vs < 65536 ->
  budget_ok vs remaining ms = true ->
  exists r n cs (pages : list (list bytes)),
    join_sink vs remaining ms [0] = (Ok (r, n), cs)
    /\ List.concat pages = vs /\ len pages = n
    /\ (forall i p, nth_error pages i = Some p ->
          sink_page r cs (N.of_nat i) = Ok (join_with [nl] p)
          /\ len (join_with [nl] p) + nav ms (N.of_nat i) n <= remaining).
Proof.
  intros vs remaining ms Hvs Hok Hsz Hlen Hb.
  (* sink_pages without its bound on n and without what it says past the end *)
  destruct (join_sink_budget vs remaining ms Hvs Hok Hsz Hlen Hb) as (r & n & cs & pages & Hj & Hcat & Hlp & _ & Hpg & _).
  exists r, n, cs, pages. auto.
Qed.

(* rows a, cccc with 11 bytes left: page 1 ("cccc" + the previous entry) needs 12 *)
Theorem C02_offered_page_renders_refuted_budget :
  exists vs remaining ms, rows_ok vs = true /\ budget_ok vs remaining ms = false
    /\ partition_ok vs remaining ms = true /\ pages_fit vs remaining ms = false.
Proof. exists [s2b "a"; s2b "cccc"], 11, (0, 7, 7, 14). vm_compute. auto. Qed.

(* the same witness through Page.Render: template "T\n{{.foo}}", size 13 — page 0 offers
   "11:next", page 1 answers "limit exceeded" *)
Theorem C02_offered_page_renders_refuted_budget_page :
  exists c gt gm pg sym,
    fst (page_render c gt gm pg sym 0) = Ok (s2b "T" ++ [nl] ++ s2b "a" ++ [nl] ++ s2b "11:next")
    /\ fst (page_render c gt gm pg sym 1) = Err EGen.
Proof.
  exists wit_budget_cache, wit_budget_tpl, (fun k => Ok k), wit_budget_page, (s2b "node").
  vm_compute. auto.
Qed.

(* every offered page renders — through Page.Render, symbol sink.  For a page as the VM builds it
   (sizer attached before the Map, fresh cursors, ordinary menu, both browse entries) with exactly
   one zero-size symbol k mapped (single_sink), a template of the placeholder fragment that
   mentions k exactly once, rows_ok, the guard excluding K-C02-labelsize (separator ":", browse
   labels resolve to themselves) and budget_ok computed from the pre-render s (the page without
   the sink): every index below the page count n of joinSink renders Ok — so every offered
   next/previous entry leads to a page that renders — and every index from n on is an error. *)
Theorem C02_offered_page_renders_page_partial : forall c gt gm pg sym z0 m k v src a b s pg3,
  p_sizer pg = Some z0 -> z_crsrs z0 = [] -> z_sink z0 = k -> 0 < z_out z0 -> z_out z0 < 4294967296 ->
  p_menu pg = Some m -> m_sink m = false -> m_keep m = true -> m_page_count m = 0 ->
  b_next_avail (m_browse m) = true -> b_prev_avail (m_browse m) = true ->
  m_sep m = default_sep ->
  title_for gm m (b_next_title (m_browse m)) = Ok (b_next_title (m_browse m)) ->
  title_for gm m (b_prev_title (m_browse m)) = Ok (b_prev_title (m_browse m)) ->
  k <> [] -> single_sink c k (p_map pg) -> alookup k (p_map pg) = Some v ->
  (forall x, is_panic (gt x) = false) ->
  gt sym = Ok src -> tpl_parse (tpl_source (p_err pg) (p_extra pg) src) = Some (a ++ TVar k :: b) ->
  tmentions k a = false -> tmentions k b = false ->
  page_render_inner gt gm (page_set_sizer pg (Some (sizer_add_cursor z0 0))) sym (blank k (p_map pg)) 0 = (Ok s, pg3) ->
  len s < 4294967296 ->
  rows_ok (split_on nl v) = true -> rows_size (split_on nl v) < 4294967296 -> len (split_on nl v) < 65536 ->
  budget_ok (split_on nl v) (z_out z0 - len s) (browse_sizes (m_browse m)) = true ->
  exists n r cs,
    join_sink (split_on nl v) (z_out z0 - len s) (browse_sizes (m_browse m)) [0] = (Ok (r, n), cs)
    /\ 0 < n
    /\ (forall i, i < n -> exists out pg', page_render c gt gm pg sym i = (Ok out, pg'))
    /\ (forall i, n <= i -> exists e, fst (page_render c gt gm pg sym i) = Err e).
Proof.
  intros.
  (* of page_render_exact's conclusion: joinSink's answer, len pages = n, 0 < n, each page renders, past the end *)
  edestruct page_render_exact as (n & r & cs & pages & xa & xb & lines & Hj & _ & Hlp & Hn & _ & _ & Hok & Herr); [eassumption..|].
  exists n, r, cs. split; [exact Hj|]. split; [exact Hn|]. split; [|exact Herr].
  intros i Hi. destruct (BytesProofs.nth_error_below pages i) as [p En]; [rewrite Hlp; exact Hi|].
  destruct (Hok _ _ En) as [pg' Hp]. rewrite N2Nat.id in Hp. eexists. exists pg'. exact Hp.
Qed.

(* the same for the menu as sink (MSINK): the sink rows are the resolved menu lines; the template
   text around the appended "\n{{._menu}}" instantiates to xa / xb with the page's values *)
Theorem C02_offered_page_renders_msink_partial : forall c gt gm pg sym z0 m src a b xa xb lines,
  p_sizer pg = Some z0 -> z_crsrs z0 = [] -> 0 < z_out z0 -> z_out z0 < 4294967296 ->
  p_menu pg = Some m -> m_sink m = true -> m_page_count m <= 1 ->
  b_next_avail (m_browse m) = true -> b_prev_avail (m_browse m) = true ->
  m_sep m = default_sep ->
  title_for gm m (b_next_title (m_browse m)) = Ok (b_next_title (m_browse m)) ->
  title_for gm m (b_prev_title (m_browse m)) = Ok (b_prev_title (m_browse m)) ->
  NoDup (map fst (p_map pg)) -> no_sink c (p_map pg) ->
  menu_lines (title_for gm m) (m_sep m) (m_items m) = Some lines -> lines <> [] ->
  (forall x, is_panic (gt x) = false) ->
  gt sym = Ok src ->
  tpl_parse (tpl_source (p_err pg) menu_sink_extra src) = Some (a ++ TVar menu_sink_key :: b) ->
  (forall w, (forall nm, nm <> menu_sink_key -> alookup nm w = alookup nm (p_map pg)) ->
     tpl_exec a w = Ok xa /\ tpl_exec b w = Ok xb) ->
  len xa + len xb <= z_out z0 ->
  rows_ok lines = true -> rows_size lines < 4294967296 -> len lines < 65536 ->
  budget_ok lines (z_out z0 - (len xa + len xb)) (browse_sizes (m_browse m)) = true ->
  exists n r cs (pages : list (list bytes)),
    join_sink lines (z_out z0 - (len xa + len xb)) (browse_sizes (m_browse m)) [0] = (Ok (r, n), cs)
    /\ List.concat pages = lines /\ len pages = n /\ 0 < n
    /\ (forall i p, nth_error pages i = Some p ->
          exists pg', page_render c gt gm pg sym (N.of_nat i)
            = (Ok ((xa ++ join_with [nl] p ++ xb)
                   ++ opt_menu (join_with [nl] (browse_lines (m_browse m) default_sep
                                                  (N.of_nat i + 1 <? n) (0 <? N.of_nat i)))), pg'))
    /\ (forall i, i < n -> exists out pg', page_render c gt gm pg sym i = (Ok out, pg'))
    /\ (forall i, n <= i -> exists e, fst (page_render c gt gm pg sym i) = Err e).
Proof. intros. eapply page_offered_renders_msink; eassumption. Qed.

(* non-vacuity: six rows over four pages satisfy every hypothesis of the partial theorems *)
Example C02_nonvacuous :
  let vs := map s2b ["aaaa"; "bbbb"; "cccc"; "dddd"; "eeee"; "ffff"]%string in
  rows_ok vs = true /\ budget_ok vs 24 (0, 7, 7, 14) = true
  /\ (exists r cs, join_sink vs 24 (0, 7, 7, 14) [0] = (Ok (r, 4), cs))
  /\ partition_ok vs 24 (0, 7, 7, 14) = true /\ pages_fit vs 24 (0, 7, 7, 14) = true
  (* ... and through Page.Render: size 32, template "T\n{{.foo}}", one menu item; the pre-render is
     8 bytes, budget_ok holds with 24 bytes left, pages 0..3 render and pages 4, 5 are errors *)
  /\ fst (page_render_inner wit_budget_tpl (fun k => Ok k)
            (page_set_sizer wit_pages_page (Some (sizer_add_cursor (new_sizer 32) 0))) (s2b "node")
            (blank (s2b "foo") (p_map wit_pages_page)) 0) = Ok (s2b "T" ++ [nl; nl] ++ s2b "1:one")
  /\ map (fun i => is_ok (fst (page_render wit_pages_cache wit_budget_tpl (fun k => Ok k) wit_pages_page (s2b "node") i)))
         [0; 1; 2; 3; 4; 5] = [true; true; true; true; false; false].
Proof. vm_compute. repeat split; eauto. Qed.

Print Assumptions C02_pages_partition_partial.
Print Assumptions C02_pages_partition_refuted_emptyrow.
Print Assumptions C02_pages_partition_refuted_nul.
Print Assumptions C02_static_parts_repeat.
Print Assumptions C02_browse_entries.
Print Assumptions C02_past_end_is_error.
Print Assumptions C02_render_never_panics.
Print Assumptions C02_offered_page_renders_partial.
Print Assumptions C02_offered_page_renders_page_partial.
Print Assumptions C02_offered_page_renders_msink_partial.
Print Assumptions C02_offered_page_renders_refuted_budget.
Print Assumptions C02_offered_page_renders_refuted_budget_page.
