(* C12 — Saving session state to the filesystem store is crash-atomic.

   Crash = death of the process between or inside the system calls of a save (the kernel's
   view of the directory survives; no power loss, no fsync is claimed).  The record format is
   abstract: 'valid b' = Persister.Deserialize accepts b.  What is assumed about it appears as
   hypotheses of the theorems (valid old, valid new; valid [] = false for the refutation) and is
   checked on every generated record by the harness. *)
From Vise Require Import Bytes Errors Consts FsCrash FsCrashProofs.
Local Open Scope N_scope.

(* At EVERY crash state of the operation list that Put performs (put_ops: writeFileAtomic, go-vise
   23e710e; temp file, write, chmod, close, rename) — before/after each
   operation and after every partial transfer of the write, for all byte strings — the session's
   record is the complete previous one or the complete new one, and no other file has changed
   (tmp, the temp file's name, is the only other name that is touched). *)
Theorem C12_save_atomic : forall fs p old new tmp fs',
  alookup tmp fs = None -> tmp <> p -> alookup p fs = Some old ->
  In fs' (crash_states fs (put_ops tmp p new)) ->
  (alookup p fs' = Some old \/ alookup p fs' = Some new)
  /\ (forall q, q <> p -> q <> tmp -> alookup q fs' = alookup q fs).
Proof.
  intros fs p old new tmp fs' _ Hne Hold Hin.
  destruct (put_crash_general fs p tmp [new] fs' Hne Hin) as [H1 H2].
  rewrite concat_single, Hold in H1. now split.
Qed.

(* the same for any split of the value over several write(2) calls *)
Theorem C12_save_atomic_chunked : forall fs p old chunks tmp fs',
  alookup tmp fs = None -> tmp <> p -> alookup p fs = Some old ->
  In fs' (crash_states fs (put_ops_chunked tmp p chunks)) ->
  (alookup p fs' = Some old \/ alookup p fs' = Some (List.concat chunks))
  /\ (forall q, q <> p -> q <> tmp -> alookup q fs' = alookup q fs).
Proof.
  intros fs p old chunks tmp fs' _ Hne Hold Hin.
  destruct (put_crash_general fs p tmp chunks fs' Hne Hin) as [H1 H2].
  rewrite Hold in H1. now split.
Qed.

Theorem C12_first_save : forall fs p new tmp fs',
  alookup tmp fs = None -> tmp <> p -> alookup p fs = None ->
  In fs' (crash_states fs (put_ops tmp p new)) ->
  (alookup p fs' = None \/ alookup p fs' = Some new)
  /\ (forall q, q <> p -> q <> tmp -> alookup q fs' = alookup q fs).
Proof.
  intros fs p new tmp fs' _ Hne Hnone Hin.
  destruct (put_crash_general fs p tmp [new] fs' Hne Hin) as [H1 H2].
  rewrite concat_single, Hnone in H1. now split.
Qed.

(* a later start (Persister.Load + ensurePersist) continues the session from the previous or
   from the new record; it never silently starts a new session *)
Theorem C12_recover_never_fresh : forall (valid : bytes -> bool) fs p alt old new tmp fs',
  alookup tmp fs = None -> tmp <> p -> alookup p fs = Some old ->
  valid old = true -> valid new = true ->
  In fs' (crash_states fs (put_ops tmp p new)) ->
  recover valid fs' p alt = Continued old \/ recover valid fs' p alt = Continued new.
Proof.
  intros valid fs p alt old new tmp fs' Hf Hne Hold Hvo Hvn Hin.
  destruct (C12_save_atomic fs p old new tmp fs' Hf Hne Hold Hin) as [[H|H] _];
    [left|right]; now apply recover_present.
Qed.

(* a completed save leaves the new record and no temp file; a failed save (error path of
   writeFileAtomic) changes nothing at any crash state and leaves no temp file if the process
   survives *)
Theorem C12_completed_save : forall fs p tmp chunks,
  tmp <> p ->
  let fs' := run_ops fs (put_ops_chunked tmp p chunks) in
  alookup p fs' = Some (List.concat chunks) /\ alookup tmp fs' = None
  /\ (forall q, q <> p -> q <> tmp -> alookup q fs' = alookup q fs).
Proof. exact put_completes. Qed.

Theorem C12_failed_save_keeps_everything : forall fs tmp written chmodded fs',
  In fs' (crash_states fs (put_ops_failed tmp written chmodded)) ->
  forall q, q <> tmp -> alookup q fs' = alookup q fs.
Proof.
  intros fs tmp written chmodded fs' Hin q. revert Hin. apply crash_only_tmp. unfold put_ops_failed.
  constructor; [reflexivity|]. apply Forall_app. split; [apply writes_only_tmp|].
  destruct chmodded; repeat constructor.
Qed.

Theorem C12_failed_save_no_garbage : forall fs tmp written chmodded,
  alookup tmp (run_ops fs (put_ops_failed tmp written chmodded)) = None.
Proof.
  intros fs tmp written chmodded. unfold put_ops_failed, run_ops.
  change [Close tmp; Remove tmp] with ([Close tmp] ++ [Remove tmp]).
  rewrite app_comm_cons, !app_assoc, fold_left_app. apply BytesProofs.alookup_aremove_same.
Qed.

(* A temp file left behind by a crash is never read as a record:
   - its name differs from the record name of every key of every data type (type byte <> 0xfe);
   - it differs from the legacy (type-less) name of every session key that does not itself
     start with ".tmp-"  [a session key that does is outside this theorem: Get's legacy-name
     fallback then reads the temp file — notes/integration_fscrash.md, finding 1];
   - hence every other session recovers exactly as before the crash;
   - and the directory scan of Dump lists the same keys with or without it. *)
Theorem C12_leftover_tmp_harmless :
  (forall typ sk suffix, typ < 256 -> typ <> 254 -> record_name typ sk <> tmp_name suffix)
  /\ (forall typ sk suffix, is_prefix tmp_prefix sk = false -> alt_name typ sk <> tmp_name suffix)
  /\ (forall (valid : bytes -> bool) fs p new tmp fs' q altq,
        tmp <> p -> In fs' (crash_states fs (put_ops tmp p new)) ->
        q <> p -> q <> tmp -> altq <> p -> altq <> tmp ->
        recover valid fs' q altq = recover valid fs q altq)
  /\ (forall typ sidp pfx l1 suffix l2,
        typ < 208 -> (forall n, In n l1 -> bytes_leb n (tmp_name suffix) = true) ->
        dump_keys typ sidp pfx (l1 ++ tmp_name suffix :: l2) = dump_keys typ sidp pfx (l1 ++ l2)).
Proof.
  exact (conj record_name_not_tmp (conj alt_name_not_tmp (conj recover_other_session dump_ignores_tmp))).
Qed.

(* every sampled crash point the harness materialises is one of the enumerated crash states *)
Theorem C12_sampled_points_are_crash_states : forall ops fs i k,
  In (crash_state_at fs ops i k) (crash_states fs ops).
Proof. exact crash_state_at_in. Qed.

(* Why the check would catch a regression: the operation list put_ops_old (open O_TRUNC, write, close:
   ioutil.WriteFile, which go-vise 23e710e replaces by writeFileAtomic) has, for every store, record and new
   value, a crash state in which the record is empty; the later start then begins a fresh session and overwrites
   the record.  Every prefix of the new value is likewise the record's content at some crash state. *)
Theorem C12_old_oplist_refuted : forall (valid : bytes -> bool) fs p alt new freshrec tmp',
  valid [] = false -> tmp' <> p ->
  (exists fs', In fs' (crash_states fs (put_ops_old p new))
     /\ alookup p fs' = Some [] /\ recover valid fs' p alt = FreshStarted)
  /\ (exists fs', In fs' (crash_states fs (put_ops_old p new))
     /\ recover valid fs' p alt = FreshStarted
     /\ alookup p (recover_store valid freshrec tmp' fs' p alt) = Some freshrec)
  /\ (forall pre, In pre (prefixes new) -> In (aset p pre fs) (crash_states fs (put_ops_old p new))).
Proof.
  intros valid fs p alt new freshrec tmp' Hv Hne.
  exact (conj (old_oplist_empty_record valid fs p alt new Hv)
        (conj (old_oplist_loses_session valid fs p alt new freshrec tmp' Hv Hne)
              (old_oplist_partial_record fs p new))).
Qed.

Theorem C12_old_oplist_not_atomic :
  ~ (forall fs p old new fs', alookup p fs = Some old ->
       In fs' (crash_states fs (put_ops_old p new)) ->
       alookup p fs' = Some old \/ alookup p fs' = Some new).
Proof.
  intros H.
  specialize (H [([64], [1])] [64] [1] [2] [([64], [])] eq_refl).
  destruct H as [H|H]; [|discriminate H|discriminate H].
  cbn. right. now left.
Qed.

(* The operations OpenWrite / OpenCreate / WriteAt exist in the model only so that a deviating
   observed system-call sequence can be given crash states.  The simplest such deviation —
   overwriting an equally long record in place — is not atomic: *)
Theorem C12_inplace_overwrite_refuted :
  exists fs p old new fs',
    alookup p fs = Some old /\ len old = len new
    /\ In fs' (crash_states fs [OpenWrite p; WriteAt p 0 new; Close p])
    /\ alookup p fs' = Some (take 1 new ++ drop 1 old)
    /\ alookup p fs' <> Some old /\ alookup p fs' <> Some new.
Proof.
  exists [([64], [1; 1])], [64], [1; 1], [2; 2], [([64], [2; 1])].
  split; [reflexivity|]. split; [reflexivity|]. split.
  - cbn. right. right. right. now left.
  - split; [reflexivity|]. split; cbn; discriminate.
Qed.

(* non-vacuity: a store with two sessions; saving a 3-byte record for "@a" has 10 crash states
   (4 of them inside the write), the hypotheses of C12_save_atomic hold, the record takes both
   values among them, and "@b" is the same in all of them *)
Example C12_nonvacuous :
  let fs := [(s2b "@a", s2b "old"); (s2b "@b", s2b "other")] in
  let tmp := tmp_name (s2b "1") in
  let cs := crash_states fs (put_ops tmp (s2b "@a") (s2b "new")) in
  alookup tmp fs = None /\ len cs = 10
  /\ map (alookup (s2b "@a")) cs = List.repeat (Some (s2b "old")) 9 ++ [Some (s2b "new")]
  /\ forallb (fun fs' => match alookup (s2b "@b") fs' with Some b => bytes_eqb b (s2b "other") | None => false end) cs = true
  /\ map (alookup tmp) [nth 1 cs []; nth 4 cs []; nth 9 cs []] = [Some []; Some (s2b "ne"); None].
Proof. vm_compute. repeat split. Qed.

Print Assumptions C12_save_atomic.
Print Assumptions C12_save_atomic_chunked.
Print Assumptions C12_first_save.
Print Assumptions C12_recover_never_fresh.
Print Assumptions C12_completed_save.
Print Assumptions C12_failed_save_keeps_everything.
Print Assumptions C12_failed_save_no_garbage.
Print Assumptions C12_leftover_tmp_harmless.
Print Assumptions C12_sampled_points_are_crash_states.
Print Assumptions C12_old_oplist_refuted.
Print Assumptions C12_old_oplist_not_atomic.
Print Assumptions C12_inplace_overwrite_refuted.
