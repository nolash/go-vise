(* C20 / C06 / C01 at the level of the interactive driver engine.Loop (engine/loop.go).

   engine.Loop is the driver the examples and the `dev/interactive` tool use: it serves ONE
   long-lived engine from a reader, one request per input line, and writes every response followed by
   a line feed.  The request-level theorems (props/C01.v every response fits; props/C06.v blocked
   while TERMINATE is set; props/C20.v graceful end, C20_graceful_end_long) speak about
   request_long.  The theorems below reduce Loop to it, for ALL resources, configurations, engines,
   fuel, initial values and reader contents (no guard, no well-formedness hypothesis):

   C20loop_output_is_requests     the bytes Loop writes are the concatenation, over the requests it
                                  makes, of resp_chunk: the Flush output followed by LF when Flush
                                  succeeded with a non-empty output; the bare output of a failed
                                  Flush; nothing for a request whose Exec failed (Loop returns before
                                  Flush).  The requests made are loop_prefix of the responses of
                                  request_long along  initial :: the trimmed complete lines: up to and
                                  including the first that does not go on (cont = false, an Exec
                                  error, a Flush error other than ErrFlushNoExec on the first request).
                                  The value returned is prefix_stat (nil on cont = false and on EOF;
                                  the first Exec's error as it is; "unexpected termination" for a
                                  later one; a Flush error as it is).
                                  C20loop_requests_are_prefix: the requests made are the first so many of
                                  these responses.  C20loop_long_resps_are_long_responses: the responses on
                                  Loop's one fuel are SizeProofs.long_responses with that fuel at every
                                  request, so that the history theorems of props/C01.v speak of them.
   C20loop_requests_are_driver_requests   each request made is literally
                                  snd (request_long fuel rs c e_k input_k) with e_k the engine of the
                                  request driver after the first k inputs (eng_after) — a long_reach
                                  engine whenever the initial one is — and all earlier requests went
                                  on.  This is what lets every request-level theorem transfer
                                  (C01_reachable_engines, C01_flush_fits, C20_graceful_end_long,
                                  C06 blocked ... take such an engine as their hypothesis).
   C20loop_engine_is_requests     the engine Loop ends with (hence what the deferred Finish saves,
                                  loop_saved) is the request driver's engine after the requests made,
                                  unless the last Exec failed with an error (then Loop has NOT flushed;
                                  request_long has).  C20loop_stored_is_requests: over a persister, the record
                                  that one Finish stores is the session of that engine.
   C20loop_every_chunk_fits       C01: from any engine satisfying the page invariant PgInv (new_engine:
                                  C01_page_invariant_established; the harness engine:
                                  C20loop_harness_engine_inv) and 0 < OutputSize, the Flush output of
                                  EVERY request Loop makes is within OutputSize in the arithmetic of
                                  the code (uint32), and the chunk written for it is that output, that
                                  output plus one LF, or nothing.  Corollary of
                                  SizeProofs.long_responses_fit32 (C01_every_response_fits_from).
   C20loop_written_bound_partial  absolute form under the named guard of C01_flush_fits (every output
                                  below 4 GiB; it cannot be dropped: C01_check_refuted_uint32wrap):
                                  every chunk is at most OutputSize + 1 bytes and the total written is
                                  at most (#requests) * (OutputSize + 1).
   C20loop_stops_at_end           C06/C20: if on the reader content r1 (ending with LF) some request
                                  does not go on, then appending ANYTHING to r1 changes nothing: same
                                  bytes written, same value returned, same engine (state, cache, world,
                                  ghost log — so nothing was executed).  C20loop_stops_at_cont_false:
                                  the special case "a request reported cont = false".  C20loop_rest_stops:
                                  the same of the for loop alone, on lists of lines.
   C20loop_drops_unterminated_tail   EOF behaviour: bytes after the last LF are never executed
                                  (bufio.ReadString returns them together with io.EOF and Loop returns
                                  on io.EOF first).  C20loop_ignores_tail: for EVERY reader content Loop
                                  behaves as on its part up to the last LF; C20loop_reader_decomposition;
                                  C20loop_lines_of_concatenation (the lines of r1 ++ r2 when r1 ends with LF).
                                  OBSERVATION, not a defect: no property of properties.jsonl speaks about
                                  how Loop reads its input (C06, C07, C20 quantify over request
                                  histories); a user who types a last line and closes the input
                                  without a newline gets no response for it, silently, and Loop
                                  returns nil.
   C20loop_trim_space_ends        what reaches Exec for a line neither starts nor ends with an ASCII
                                  white-space byte and is a segment of the line.

   The model of Loop (model/LoopModel.v: eng_loop, loop_lines, trim_space) is tied to the real
   engine.Loop by the differential driver `vh loop` (go/cmd/vh/loop.go, corr/LoopCorr.v). *)
From Coq Require Import Lia.
From Vise Require Import Bytes Errors Consts EngConsts Codec CacheModel StateModel NavModel RenderModel VmModel EngineModel
  LoopModel CorrBase EngineCorr RenderProofs SizeProofs LoopProofs.
Local Open Scope N_scope.

Theorem C20loop_output_is_requests : forall rs c fuel e initial reader,
  let resps := long_resps fuel rs c e (loop_inputs initial reader) in
  fst (fst (eng_loop rs c fuel e initial reader)) = List.concat (map resp_chunk (loop_prefix true resps))
  /\ snd (fst (eng_loop rs c fuel e initial reader)) = prefix_stat true resps.
Proof. exact loop_output_is_requests. Qed.

Theorem C20loop_long_resps_are_long_responses : forall fuel rs c inputs e,
  long_resps fuel rs c e inputs = long_responses rs c e (map (pair fuel) inputs).
Proof. exact long_resps_long_responses. Qed.

Theorem C20loop_requests_are_driver_requests : forall rs c fuel e initial reader k r,
  let inputs := loop_inputs initial reader in
  nth_error (loop_prefix true (long_resps fuel rs c e inputs)) k = Some r ->
  exists i, nth_error inputs k = Some i
    /\ r = snd (request_long fuel rs c (eng_after fuel rs c e (firstn k inputs)) i)
    /\ (long_reach rs c e -> long_reach rs c (eng_after fuel rs c e (firstn k inputs)))
    /\ all_go_on true (firstn k (loop_prefix true (long_resps fuel rs c e inputs))) = true.
Proof. exact loop_requests_are_driver_requests. Qed.

Theorem C20loop_requests_are_prefix : forall l first,
  loop_prefix first l = firstn (List.length (loop_prefix first l)) l.
Proof.
  induction l as [|r l IH]; intros first; [reflexivity|].
  cbn [loop_prefix]. destruct (resp_goes_on first r); [|reflexivity].
  cbn [List.length firstn]. rewrite <- IH. reflexivity.
Qed.

Theorem C20loop_engine_is_requests : forall rs c fuel e initial reader,
  let inputs := loop_inputs initial reader in
  let made := loop_prefix true (long_resps fuel rs c e inputs) in
  Forall no_exec_error made ->
  snd (eng_loop rs c fuel e initial reader) = eng_after fuel rs c e (firstn (List.length made) inputs).
Proof. exact loop_engine_is_requests. Qed.

(* Loop over a persister (store without a record): the record in the store afterwards is the
   request driver's session after the last request Loop made — one Finish, on every exit *)
Theorem C20loop_stored_is_requests : forall rs c fuel initial reader,
  let e := loop_persisted_init c in
  let inputs := loop_inputs initial reader in
  let made := loop_prefix true (long_resps fuel rs c e inputs) in
  let e_last := eng_after fuel rs c e (firstn (List.length made) inputs) in
  Forall no_exec_error made -> e_initd e_last = true ->
  loop_stored c (eng_loop rs c fuel e initial reader) = Some (snap_of (v_st (e_v e_last)) (v_ca (e_v e_last))).
Proof.
  intros rs c fuel initial reader e inputs made e_last Hne Hi.
  pose proof (loop_engine_is_requests rs c fuel e initial reader Hne) as He. fold inputs made e_last in He.
  rewrite <- He in Hi |- *. apply loop_stored_is_final_session, Hi.
Qed.

Theorem C20loop_every_chunk_fits : forall rs c fuel e initial reader,
  PgInv c (e_v e) -> 0 < c_out c ->
  let made := loop_prefix true (long_resps fuel rs c e (loop_inputs initial reader)) in
  fst (fst (eng_loop rs c fuel e initial reader)) = List.concat (map resp_chunk made)
  /\ Forall (fun r => w32 (len (r_out r)) <= c_out c
                      /\ (resp_chunk r = [] \/ resp_chunk r = r_out r \/ resp_chunk r = r_out r ++ [LF])) made.
Proof. exact loop_every_chunk_fits. Qed.

Theorem C20loop_written_bound_partial : forall rs c fuel e initial reader,
  PgInv c (e_v e) -> 0 < c_out c ->
  let made := loop_prefix true (long_resps fuel rs c e (loop_inputs initial reader)) in
  Forall (fun r => len (r_out r) < 4294967296) made ->
  Forall (fun r => len (resp_chunk r) <= c_out c + 1) made
  /\ len (fst (fst (eng_loop rs c fuel e initial reader))) <= len made * (c_out c + 1).
Proof. exact loop_written_bound_partial. Qed.

Theorem C20loop_harness_engine_inv : forall c, PgInv c (e_v (long_init c)).
Proof.
  intros c. unfold long_init.
  destruct (c_lang c); [apply new_engine_inv|].
  destruct (s_lang (v_st (e_v (new_engine c None [] [])))); apply new_engine_inv.
Qed.

Theorem C20loop_stops_at_end : forall rs c fuel e initial r1 r2,
  ends_nl r1 ->
  all_go_on true (long_resps fuel rs c e (loop_inputs initial r1)) = false ->
  eng_loop rs c fuel e initial (r1 ++ r2) = eng_loop rs c fuel e initial r1.
Proof. exact loop_stops_at_end. Qed.

Theorem C20loop_stops_at_cont_false : forall rs c fuel e initial r1 r2 r,
  ends_nl r1 ->
  In r (long_resps fuel rs c e (loop_inputs initial r1)) -> r_cont r = false ->
  eng_loop rs c fuel e initial (r1 ++ r2) = eng_loop rs c fuel e initial r1.
Proof.
  intros rs c fuel e initial r1 r2 r Hnl Hin Hc. apply loop_stops_at_end; [exact Hnl|]. eapply stop_not_all_go_on; eassumption.
Qed.

Theorem C20loop_rest_stops : forall fuel rs c l1 l2 e,
  all_go_on false (long_resps fuel rs c e l1) = false ->
  loop_rest fuel rs c e (l1 ++ l2) = loop_rest fuel rs c e l1.
Proof. intros fuel rs c l1 l2 e. rewrite !loop_rest_reqs. apply loop_reqs_stops. Qed.

Theorem C20loop_drops_unterminated_tail : forall rs c fuel e initial r tail,
  ends_nl r -> ~ In LF tail ->
  fst (loop_lines (r ++ tail)) = fst (loop_lines r)
  /\ eng_loop rs c fuel e initial (r ++ tail) = eng_loop rs c fuel e initial r.
Proof. exact loop_drops_unterminated_tail. Qed.

Theorem C20loop_reader_decomposition : forall reader,
  let complete := List.concat (fst (split_lines reader)) in
  let tail := snd (split_lines reader) in
  reader = complete ++ tail /\ ends_nl complete /\ ~ In LF tail.
Proof. exact loop_reader_decomposition. Qed.

Theorem C20loop_ignores_tail : forall rs c fuel e initial reader,
  eng_loop rs c fuel e initial reader
  = eng_loop rs c fuel e initial (List.concat (fst (split_lines reader))).
Proof. exact loop_ignores_tail. Qed.

Theorem C20loop_lines_of_concatenation : forall r1 r2,
  ends_nl r1 ->
  loop_lines (r1 ++ r2) = (fst (loop_lines r1) ++ fst (loop_lines r2), snd (loop_lines r2)).
Proof. exact loop_lines_app. Qed.

Theorem C20loop_trim_space_ends : forall s,
  (forall b r, trim_space s = b :: r -> ascii_space_b b = false)
  /\ (forall b r, trim_space s = r ++ [b] -> ascii_space_b b = false)
  /\ exists p q, s = p ++ trim_space s ++ q.
Proof. exact trim_space_ends. Qed.

(* root halts and offers "1" -> end1; end1 loads " see you" and halts (graceful end).
   Reader "1\n0\n": two requests; the session ends at the second; "0" is never executed.
   (ghost log: 13 events in all three runs) *)
Example C20loop_nonvacuous_graceful_end :
  wit_loop_run None ("1" ++ lf_s ++ "0" ++ lf_s)
    = (s2b "root" ++ [LF] ++ s2b "bye see you" ++ [LF], LOk, [], 13%nat)
  /\ wit_loop_run None ("1" ++ lf_s) = wit_loop_run None ("1" ++ lf_s ++ "0" ++ lf_s)
  /\ wit_loop_run None ("1" ++ lf_s ++ "!bad" ++ lf_s ++ "1") = wit_loop_run None ("1" ++ lf_s).
Proof. vm_compute. repeat split; reflexivity. Qed.

(* the hypotheses of C20loop_stops_at_cont_false / C20loop_stops_at_end on that run *)
Example C20loop_nonvacuous_stop_hypotheses :
  let resps := long_resps 3000 (app_rsrc wit_loop_app) wit_loop_cfg (new_engine wit_loop_cfg None [] [])
                          (loop_inputs None (s2b ("1" ++ lf_s))) in
  ends_nl (s2b ("1" ++ lf_s))
  /\ resps = [mkResp true SOk (s2b "root") FOk; mkResp false SOk (s2b "bye see you") FOk]
  /\ all_go_on true resps = false
  /\ loop_prefix true resps = resps /\ prefix_stat true resps = LOk
  /\ PgInv wit_loop_cfg (e_v (new_engine wit_loop_cfg None [] [])) /\ 0 < c_out wit_loop_cfg
  /\ forallb (fun r => len (r_out r) <=? c_out wit_loop_cfg) resps = true.
Proof.
  intros resps.
  assert (E : resps = [mkResp true SOk (s2b "root") FOk; mkResp false SOk (s2b "bye see you") FOk])
    by (vm_compute; reflexivity).
  clearbody resps. subst resps.
  split; [right; exists (s2b "1"); reflexivity|]. repeat split; reflexivity.
Qed.

(* the unterminated tail: "1" without a line feed is dropped — the session stays at the root;
   with the line feed it is executed *)
Example C20loop_nonvacuous_tail_dropped :
  wit_loop_run None "1" = (s2b "root" ++ [LF], LOk, [s2b "root"], 5%nat)
  /\ wit_loop_run None "" = wit_loop_run None "1"
  /\ loop_lines (s2b "1") = ([], true)
  /\ loop_lines (s2b ("  " ++ tab_s ++ "1 " ++ cr_s ++ lf_s ++ lf_s ++ "7 7" ++ lf_s ++ "0"))
     = ([s2b "1"; []; s2b "7 7"], true)
  /\ wit_loop_run None ("  " ++ tab_s ++ "1 " ++ cr_s ++ lf_s ++ "0")
     = (s2b "root" ++ [LF] ++ s2b "bye see you" ++ [LF], LOk, [], 13%nat).
Proof. vm_compute. repeat split; reflexivity. Qed.

(* errors: a refused initial value is returned as it is and nothing is written; a refused line is
   an "unexpected termination" after the first page; an unmatched input is NOT an error: the
   catch node answers and the session goes on *)
Example C20loop_nonvacuous_errors :
  wit_loop_run (Some (s2b "!bad")) ("1" ++ lf_s) = ([], LErr EGen, [], 0%nat)
  /\ wit_loop_run None ("!bad" ++ lf_s ++ "1" ++ lf_s) = (s2b "root" ++ [LF], LTerm EGen, [s2b "root"], 5%nat)
  /\ fst (fst (fst (wit_loop_run None ("x" ++ lf_s ++ "x" ++ lf_s ++ "1" ++ lf_s))))
     = s2b "root" ++ [LF] ++ s2b "invalid input: 'x'" ++ [LF] ++ s2b "catch" ++ [LF] ++ s2b "root" ++ [LF]
       ++ s2b "bye see you" ++ [LF].
Proof. vm_compute. repeat split; reflexivity. Qed.

(* a Flush error ends Loop: corpus menu-sink at size 30, browsing past the last page; every
   chunk written is within 30 + 1 bytes *)
Example C20loop_nonvacuous_flush_error :
  let '(w, st, e) := eng_loop (app_rsrc wit_menu_sink) wit_cfg30 3000 (new_engine wit_cfg30 None [] []) None
                              (s2b ("11" ++ lf_s ++ "11" ++ lf_s ++ "22" ++ lf_s ++ "11" ++ lf_s ++ "11" ++ lf_s ++ "11" ++ lf_s)) in
  st = LErr EGen /\ len w = 29 + 1 + 24 + 1 + 17 + 1 + 24 + 1 + 17 + 1
  /\ map (fun r => len (resp_chunk r))
         (loop_prefix true (long_resps 3000 (app_rsrc wit_menu_sink) wit_cfg30 (new_engine wit_cfg30 None [] [])
                                       (loop_inputs None (s2b ("11" ++ lf_s ++ "11" ++ lf_s ++ "22" ++ lf_s ++ "11" ++ lf_s ++ "11" ++ lf_s ++ "11" ++ lf_s)))))
     = [30; 25; 18; 25; 18; 0].
Proof. vm_compute. repeat split; reflexivity. Qed.

(* strings.TrimSpace: Unicode white space is removed (NBSP, U+3000, U+2028), look-alikes are not
   (a lone C2; a truncated E2 80; a lone A0) *)
Example C20loop_nonvacuous_trim_space :
  trim_space [194;160;49;227;128;128;10] = [49]
  /\ trim_space [49;194;10] = [49;194]
  /\ trim_space [226;128;49;160;10] = [226;128;49;160]
  /\ trim_space [32;226;128;168;9;10] = []
  /\ trim_space (s2b (" 7 7 " ++ cr_s ++ lf_s)) = s2b "7 7".
Proof. vm_compute. repeat split; reflexivity. Qed.

(* the stored record after a session the engine ended (graceful end on the second line): no position,
   one empty cache scope, no pending code; after EOF on the first page: at the root with its code pending *)
Example C20loop_nonvacuous_stored :
  let run (reader : string) := eng_loop (app_rsrc wit_loop_app) wit_loop_cfg 3000 (loop_persisted_init wit_loop_cfg) None (s2b reader) in
  option_map (fun sn => (s_path (fst sn), c_frames (snd sn), s_code (fst sn))) (loop_stored wit_loop_cfg (run ("1" ++ lf_s ++ "0" ++ lf_s)%string))
    = Some ([], [[]], [])
  /\ option_map (fun sn => (s_path (fst sn), c_frames (snd sn))) (loop_stored wit_loop_cfg (run ""%string))
    = Some ([s2b "root"], [[]; []])
  /\ e_initd (snd (run ("1" ++ lf_s)%string)) = true.
Proof. vm_compute. repeat split; reflexivity. Qed.

Print Assumptions C20loop_output_is_requests.
Print Assumptions C20loop_stored_is_requests.
Print Assumptions C20loop_nonvacuous_stored.
Print Assumptions C20loop_long_resps_are_long_responses.
Print Assumptions C20loop_requests_are_driver_requests.
Print Assumptions C20loop_requests_are_prefix.
Print Assumptions C20loop_engine_is_requests.
Print Assumptions C20loop_every_chunk_fits.
Print Assumptions C20loop_written_bound_partial.
Print Assumptions C20loop_harness_engine_inv.
Print Assumptions C20loop_stops_at_end.
Print Assumptions C20loop_stops_at_cont_false.
Print Assumptions C20loop_rest_stops.
Print Assumptions C20loop_drops_unterminated_tail.
Print Assumptions C20loop_reader_decomposition.
Print Assumptions C20loop_ignores_tail.
Print Assumptions C20loop_lines_of_concatenation.
Print Assumptions C20loop_trim_space_ends.
Print Assumptions C20loop_nonvacuous_graceful_end.
Print Assumptions C20loop_nonvacuous_stop_hypotheses.
Print Assumptions C20loop_nonvacuous_tail_dropped.
Print Assumptions C20loop_nonvacuous_errors.
Print Assumptions C20loop_nonvacuous_flush_error.
Print Assumptions C20loop_nonvacuous_trim_space.
