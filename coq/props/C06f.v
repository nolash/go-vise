(* C06 (flag field) — Signal flags steer control flow: what CATCH and CROAK test is a SET OF FLAG INDICES.

   Full statement (state/flag.go, state/state.go: NewState, SetFlag, ResetFlag, GetFlag, MatchFlag; model:
   StateModel.new_state / set_flag / reset_flag / get_flag / match_flag, validated against the code by
   corr/FlagCorr.v):

   For every flag count with count + 8 <= 2040 (a bit field of at most 255 bytes) and EVERY sequence of
   SetFlag / ResetFlag / GetFlag / MatchFlag calls with arbitrary indices i : N on NewState(count):
     - flags 0 .. count+7 exist; a call on any other index panics and changes nothing;
     - a flag reads as set exactly when it was set and not reset since (the reference fl_ref_step over
       a list of indices, which does not use the model);
     - SetFlag / ResetFlag answer "the bit changed";  MatchFlag(i, mode) = (mode == GetFlag(i));
     - an operation on i changes no other flag and nothing else of the state;
     - the exported bytes State.Flags have (count + 15) / 8 bytes and bit i (least significant bit of
       byte i/8 first) is set exactly when i is in the set.
   It is FALSE of the code beyond that range: NewState's byte size is a uint8, from count = 2033 on it wraps
   and existing flags panic on the slice index (C06_flag_field_refuted_bytesize_wrap; finding
   K-C08-flagcount), hence the guard count + 8 <= 2040 = FlagCorr.fl_in_scope. *)
From Coq Require Import Lia.
From Vise Require Import Bytes Errors Consts StateModel CorrBase FlagCorr FlagFieldProofs.
Local Open Scope N_scope.

(* answers: fl_model_answers = what fl_model_step returns in sequence from the given state,
   fl_ref_answers = what the set-of-indices reference expects (FPanic outside 0 .. count+7) *)
Theorem C06_flag_field_is_a_set : forall count ops, count + 8 <= 2040 ->
  fl_model_answers (new_state count) ops = fl_ref_answers count [] ops.
Proof. intros count ops Hle. exact (proj1 (FR_ops count ops _ [] Hle (FR_new count Hle))). Qed.

Theorem C06_flag_field_is_a_set_bytes : forall count ops, count + 8 <= 2040 ->
  len (flag_bytes (s_flags (fl_model_final (new_state count) ops))) = (count + 15) / 8 /\
  forall i, byte_bit (flag_bytes (s_flags (fl_model_final (new_state count) ops))) i
            = mem_n i (fl_ref_final count [] ops).
Proof. intros count ops Hle. exact (FR_bytes count _ _ (proj2 (FR_ops count ops _ [] Hle (FR_new count Hle)))). Qed.

(* in terms of FlagCorr's own runs, for arbitrary observed values: the model's verdict on the observed
   answers is the reference's verdict, and the final state holds the reference's final set *)
Theorem C06_model_run_is_ref_run : forall count ops, count + 8 <= 2040 ->
  fst (fl_model_run (new_state count) ops) = fst (fl_ref_run count [] ops) /\
  FR count (snd (fl_model_run (new_state count) ops)) (snd (fl_ref_run count [] ops)).
Proof. intros count ops Hle. apply FR_run; [exact Hle|apply FR_new; exact Hle]. Qed.

(* monitor and model tied: a case on which the model agrees with the code (answers and final bytes)
   satisfies the C06 monitor; so a monitor alarm on an in-scope case is a model/code mismatch *)
Theorem C06_corr_ok_implies_monitor_ok : forall c,
  fl_in_scope c = true -> fl_corr_ok c = true -> fl_c06_ok c = true.
Proof.
  intros c Hs Hc. unfold fl_c06_ok. rewrite Hs. cbn [negb].
  unfold fl_in_scope in Hs. assert (Hle : fl_count c + 8 <= 2040) by lia.
  unfold fl_corr_ok in Hc.
  pose proof (FR_run (fl_count c) (fl_ops c) _ [] Hle (FR_new _ Hle)) as [Hok HFR].
  destruct (fl_model_run (new_state (fl_count c)) (fl_ops c)) as [ok s].
  destruct (fl_ref_run (fl_count c) [] (fl_ops c)) as [ok' set].
  cbn [fst snd] in Hok, HFR. subst ok'.
  apply andb_prop in Hc as [Hokt Hbytes]. apply BytesProofs.bytes_eqb_eq in Hbytes.
  destruct (FR_bytes _ _ _ HFR) as [Hbl Hbb]. rewrite <- Hbytes.
  apply andb_true_intro. split; [apply andb_true_intro; split; [exact Hokt|]|].
  - rewrite Hbl. apply N.eqb_eq. f_equal. lia.
  - apply forallb_forall. intros i _. rewrite Hbb. apply eqb_reflx.
Qed.

Theorem C06_monitor_alarm_implies_mismatch : forall c,
  fl_in_scope c = true -> fl_c06_ok c = false -> fl_corr_ok c = false.
Proof.
  intros c Hs Ha. destruct (fl_corr_ok c) eqn:Ec; [|reflexivity].
  rewrite (C06_corr_ok_implies_monitor_ok c Hs Ec) in Ha. discriminate.
Qed.

(* MatchFlag: what CATCH / CROAK test (any state) *)
Theorem C06_match_flag_iff : forall s i mode,
  (forall b, get_flag s i = Ok b -> match_flag s i mode = Ok (Bool.eqb mode b)) /\
  (forall n, get_flag s i = Panic n -> match_flag s i mode = Panic n) /\
  (forall e, get_flag s i <> Err e).
Proof.
  intros s i mode. unfold match_flag. split; [|split].
  - intros b ->. reflexivity.
  - intros n ->. reflexivity.
  - intros e. unfold get_flag. destruct (flag_in_range s i); discriminate.
Qed.

Theorem C06_flag_ops_frame : forall s i s' b,
  set_flag s i = Ok (s', b) \/ reset_flag s i = Ok (s', b) ->
  same_but_flag_field s s' /\ forall j, j <> i -> get_flag s' j = get_flag s j.
Proof.
  intros s i s' b H. unfold set_flag, reset_flag in H.
  destruct (flag_in_range s i); [|destruct H as [H|H]; discriminate].
  destruct H as [H|H]; injection H as <- _; split; apply write_bit.
Qed.

Theorem C06_flag_ops_own : forall s i s' b,
  (set_flag s i = Ok (s', b) -> get_flag s' i = Ok true /\ get_flag s i = Ok (negb b)) /\
  (reset_flag s i = Ok (s', b) -> get_flag s' i = Ok false /\ get_flag s i = Ok b).
Proof.
  intros s i s' b. unfold set_flag, reset_flag.
  destruct (flag_in_range s i) eqn:Er; [|split; discriminate].
  split; intros H; injection H as <- <-; (split; [apply write_bit; exact Er|]);
    unfold get_flag; rewrite Er, ?negb_involutive; reflexivity.
Qed.

Theorem C06_flag_out_of_range_panics : forall s i, flag_in_range s i = false ->
  get_flag s i = Panic 20 /\ set_flag s i = Panic 21 /\ reset_flag s i = Panic 22 /\
  forall mode, match_flag s i mode = Panic 20.
Proof.
  intros s i H. unfold match_flag, get_flag, set_flag, reset_flag. rewrite H. cbn [obind].
  repeat split; reflexivity.
Qed.

(* for every i : N.  i = 2^32 - 1: the uint32 test bitIndex+1 > BitSize wraps to 0 > BitSize and passes,
   the slice index panics instead (second conjunct of flag_in_range) *)
Theorem C06_reachable_in_range : forall count ops i, count + 8 <= 2040 ->
  flag_in_range (fl_model_final (new_state count) ops) i = (i <? count + 8).
Proof.
  intros count ops i Hle. apply (FR_in_range count _ (fl_ref_final count [] ops) i Hle).
  exact (proj2 (FR_ops count ops _ [] Hle (FR_new count Hle))).
Qed.

Print Assumptions C06_flag_field_is_a_set.
Print Assumptions C06_flag_field_is_a_set_bytes.
Print Assumptions C06_model_run_is_ref_run.
Print Assumptions C06_corr_ok_implies_monitor_ok.
Print Assumptions C06_monitor_alarm_implies_mismatch.
Print Assumptions C06_match_flag_iff.
Print Assumptions C06_flag_ops_frame.
Print Assumptions C06_flag_ops_own.
Print Assumptions C06_flag_out_of_range_panics.
Print Assumptions C06_reachable_in_range.

(* the corpus history on NewState(300): flag 264 is the last but 43 of 308, in byte 33 *)
Definition corpus_ops : list fop := [FSet 264; FGet 264; FGet 8; FMatch 264 true; FMatch 8 true].
Example C06_flag_field_corpus_history :
  300 + 8 <=? 2040 = true /\
  fl_model_answers (new_state 300) corpus_ops = [FB true; FB true; FB false; FB true; FB false] /\
  fl_ref_answers 300 [] corpus_ops = [FB true; FB true; FB false; FB true; FB false] /\
  fl_ref_final 300 [] corpus_ops = [264] /\
  len (flag_bytes (s_flags (fl_model_final (new_state 300) corpus_ops))) = 39 /\
  nth 33 (flag_bytes (s_flags (fl_model_final (new_state 300) corpus_ops))) 0 = 1.
Proof. vm_compute. repeat split; reflexivity. Qed.

(* set, set again, reset, reset again, edges of the range, the uint32 wrap index and beyond *)
Example C06_flag_field_edges :
  fl_model_answers (new_state 0)
    [FSet 7; FSet 7; FReset 7; FReset 7; FGet 7; FSet 8; FGet 8; FMatch 8 false;
     FGet 4294967295; FSet 4294967295; FGet 4294967296; FMatch 4294967303 true]
  = [FB true; FB false; FB true; FB false; FB false; FPanic; FPanic; FPanic;
     FPanic; FPanic; FPanic; FPanic]
  /\ flag_in_range (new_state 0) 4294967295 = false
  /\ (w32 (4294967295 + 1) <=? s_bitsize (new_state 0)) = true.
Proof. vm_compute. repeat split; reflexivity. Qed.

(* the largest count in scope: 255 bytes, the last flag 2039 works *)
Example C06_flag_field_largest :
  fl_in_scope (mkFl 2032 [] []) = true /\
  len (flag_bytes (s_flags (new_state 2032))) = 255 /\
  fl_model_answers (new_state 2032) [FSet 2039; FGet 2039; FSet 2040] = [FB true; FB true; FPanic].
Proof. vm_compute. repeat split; reflexivity. Qed.

(* a case the monitor accepts and the model agrees with (hypotheses of C06_corr_ok_implies_monitor_ok),
   and a case with a wrong observed answer that both reject *)
Example C06_monitor_case_ok :
  let c := mkFl 2 [(FSet 9, FB true); (FMatch 9 true, FB true); (FGet 10, FPanic)] [0; 2] in
  fl_in_scope c = true /\ fl_corr_ok c = true /\ fl_c06_ok c = true.
Proof. vm_compute. repeat split; reflexivity. Qed.
Example C06_monitor_case_alarm :
  let c := mkFl 2 [(FSet 9, FB true); (FMatch 9 true, FB false)] [0; 2] in
  fl_in_scope c = true /\ fl_c06_ok c = false /\ fl_corr_ok c = false.
Proof. vm_compute. repeat split; reflexivity. Qed.

Example C06_flag_ops_frame_witness :
  exists s', set_flag (new_state 8) 9 = Ok (s', true) /\ get_flag s' 9 = Ok true /\
             get_flag s' 8 = Ok false /\ get_flag s' 10 = Ok false /\ match_flag s' 9 false = Ok false.
Proof. eexists. vm_compute. repeat split; reflexivity. Qed.

(* the scope guard is necessary: beyond the range NewState's uint8 byte size wraps: count = 2041 gives BitSize 2049 and ONE flag byte
   (257 mod 256), so flag 8 exists for the reference (and for FlagBitSize) but SetFlag panics on the
   slice index.  K-C08-flagcount. *)
Example C06_flag_field_refuted_bytesize_wrap :
  (2041 + 8 <=? 2040) = false /\
  s_bitsize (new_state 2041) = 2049 /\
  len (s_flags (new_state 2041)) = 8 * 1 /\
  fl_model_answers (new_state 2041) [FSet 8] = [FPanic] /\
  fl_ref_answers 2041 [] [FSet 8] = [FB true] /\
  fl_model_answers (new_state 2041) [FSet 8] <> fl_ref_answers 2041 [] [FSet 8].
Proof. vm_compute. repeat split; try reflexivity. intros H; discriminate H. Qed.
(* the first count that wraps: 2033 (BitSize 2041, 256 bytes wrap to 0: no flag at all) *)
Example C06_flag_field_refuted_bytesize_wrap_first :
  len (s_flags (new_state 2033)) = 0 /\
  fl_model_answers (new_state 2033) [FGet 0] = [FPanic] /\
  fl_ref_answers 2033 [] [FGet 0] = [FB false].
Proof. vm_compute. repeat split; reflexivity. Qed.
