(* C08 — No sequence of client inputs can crash the engine or corrupt a session.
   Full statement (DESIGN section 6): for every well-formed application (wf_app_b), every
   reachable engine state satisfying the session invariant and EVERY input byte string,
   a request neither panics nor breaks the invariant.  Here: every component the request path is
   built from is total (no Go panic site reachable); the composition over the fuelled run loop
   is in props/C08safe.v (proofs/SafetyProofs.v). *)
From Vise Require Import Bytes Errors Consts Codec CacheModel StateModel NavModel NavSpec RenderModel VmModel EngineModel
  CodecProofs CacheProofs NavProofs RenderProofs.
Local Open Scope N_scope.

Theorem C08_decode_total : forall b, is_panic (decode_one b) = false.
Proof. exact decode_one_no_panic. Qed.

Theorem C08_cache_total : forall c o, CInv c -> snd (cache_step c o) <> RPanic.
Proof. exact cache_step_no_panic. Qed.

(* navigation never panics: a move to the node the session is already at is refused with an
   error (repair b32c1a0), the depth limit is checked before State.Down *)
Theorem C08_navigation_total : forall t st ca, is_spanic (snd (apply_target t st ca)) = false.
Proof. exact apply_never_panics. Qed.

Print Assumptions C08_decode_total.
Print Assumptions C08_cache_total.
Print Assumptions C08_navigation_total.
