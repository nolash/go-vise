(* C17 — Rejected input has no effect on the session.

   Full statement (properties.jsonl): input that the engine refuses — non-empty and failing the input
   pattern, or longer than the input limit — produces an error for that request only: position, flags,
   cached symbols and pending bytecode are unchanged, no code symbol of the application is executed, and
   the next acceptable input is handled exactly as if the refused one had never been sent; in both
   long-lived and persisted operation, for a refused input at ANY position of ANY history.  Asking for
   output before anything was executed is refused without side effects.

   The model violates the full statement in one class, and shows two wrinkles:

   * K-C17-first (guard `c_first c = None`): an entry function configured with WithFirst runs inside init,
     BEFORE input validation, and receives the refused bytes (C17_refuted_first).
   * The stored session after a refused request equals the stored session before only up to what the next
     engine's init does anyway (`norm_snap`: an empty pending code becomes "MOVE <root>", after unwinding
     a stale position).  Requests do not distinguish a stored session from its normal form
     (C17_request_norm_invariant), so this is not observable.
   * Long-lived engine only: if the refused input is the FIRST request of the session, init has completed
     once it was refused, and a later input that is both over-long and malformed is answered with
     "continue" instead of "stop" (both with an error, nothing else differs; C17_refuted_long_first_cont;
     same root cause as K-C07-longbad).  Hence the guard `forallb input_ok_b h2` in
     C17_as_if_never_sent_long_first_partial; no such guard is needed at later positions.

   Hypotheses of the long-lived theorems: the engine is initialised and `settled` (its last Flush rendered
   what there was to render and completed a pending session end: `e_execd` may still be true — Flush does
   not clear it — then DIRTY is clear and the engine is not exiting).  Every engine that came out of a
   request whose Flush answered FOk without taking the BrowseError fallback is settled (a Flush whose render
   fails while there is no exit value returns at once and leaves a pending session end pending);
   `delivered` additionally asks for an empty exit value. *)
From Vise Require Import Bytes Errors Consts EngConsts Codec CacheModel StateModel NavModel RenderModel VmModel EngineModel
  EngineProofs BisimProofs.
Local Open Scope N_scope.

(* the request fails; `cont` is true for a pattern failure and false for an over-long input that matches the
   pattern; the machine (state incl. pending code, cache, page, world counters, ghost log) is EXACTLY what it
   was, so no application symbol ran; the following Flush is refused without effect *)
Theorem C17_refused_long : forall fuel rs c e input,
  refused input -> e_initd e = true -> delivered e ->
  eng_exec fuel rs c e input = (mkEng (e_v e) true [] false false, negb (valid_input_b input), SErr EGen None)
  /\ eng_flush fuel rs c (mkEng (e_v e) true [] false false) = (mkEng (e_v e) true [] false false, [], FErr EFlushNoExec)
  /\ request_long fuel rs c e input
     = (mkEng (e_v e) true [] false false, mkResp (negb (valid_input_b input)) (SErr EGen None) [] (FErr EFlushNoExec)).
Proof. exact refused_long. Qed.

(* any settled engine: as above, or (exit value alone larger than the output size) the engine is stuck and
   stays exactly as it is *)
Theorem C17_refused_long_settled : forall fuel rs c e input,
  refused input -> e_initd e = true -> settled e ->
  request_long fuel rs c e input =
  if stuck c e then (e, mkResp false (SErr EGen None) [] (FErr EGen))
  else (cleared e, mkResp (negb (valid_input_b input)) (SErr EGen None) [] (FErr EFlushNoExec)).
Proof. exact refused_request_settled. Qed.

Theorem C17_next_request_unaffected : forall fuel rs c e bad input,
  refused bad -> e_initd e = true -> settled e ->
  request_long fuel rs c (fst (request_long fuel rs c e bad)) input = request_long fuel rs c e input.
Proof. exact refused_then_next. Qed.

Theorem C17_flush_before_exec_refused : forall fuel rs c e,
  e_execd e = false -> eng_flush fuel rs c e = (e, [], FErr EFlushNoExec).
Proof. exact flush_before_exec. Qed.

Theorem C17_refused_persisted_partial : forall fuel rs c p input,
  refused input -> c_first c = None ->
  request_persisted fuel rs c p input =
  (mkPw (if INPUT_LIMIT <? len input then store0_of c (pw_store p) else Some (norm_snap c (sess c (pw_store p))))
        (pw_w p) (pw_log p) (pw_taint p),
   mkResp (if INPUT_LIMIT <? len input then false else true) (SErr EGen None) [] (FErr EFlushNoExec)).
Proof. exact refused_persisted. Qed.

Theorem C17_norm_snap_idempotent : forall c sn, s_input (fst sn) = None -> norm_snap c (norm_snap c sn) = norm_snap c sn.
Proof. exact norm_snap_idem. Qed.

Theorem C17_request_norm_invariant : forall fuel rs c p q input,
  c_first c = None -> pw_ok c p -> pw_ok c q -> pw_eqv c p q ->
  let '(p', r) := request_persisted fuel rs c p input in
  let '(q', r') := request_persisted fuel rs c q input in
  r = r' /\ pw_eqv c p' q' /\ pw_ok c p' /\ pw_ok c q'.
Proof. exact request_persisted_eqv. Qed.

Theorem C17_as_if_never_sent_partial : forall fuel rs c h1 bad h2,
  c_first c = None -> refused_bool bad = true ->
  exists r1 rb r2,
    snd (serve_pers fuel rs c (mkPw None [] [] false) (h1 ++ [bad] ++ h2)) = r1 ++ [rb] ++ r2
    /\ snd (serve_pers fuel rs c (mkPw None [] [] false) (h1 ++ h2)) = r1 ++ r2
    /\ List.length r1 = List.length h1
    /\ r_out rb = [] /\ r_exec rb = SErr EGen None /\ r_flush rb = FErr EFlushNoExec
    /\ pw_eqv c (fst (serve_pers fuel rs c (mkPw None [] [] false) (h1 ++ [bad] ++ h2)))
                (fst (serve_pers fuel rs c (mkPw None [] [] false) (h1 ++ h2))).
Proof.
  intros fuel rs c h1 bad h2 Hf Hr. apply as_if_never_sent_pers; [exact Hf|apply pw_ok_initial|apply refused_bool_spec, Hr].
Qed.

Theorem C17_as_if_never_sent_long : forall fuel rs c e h1 bad h2,
  refused_bool bad = true ->
  e_initd (fst (serve_long fuel rs c e h1)) = true -> settled_b (fst (serve_long fuel rs c e h1)) = true ->
  exists r1 rb r2,
    snd (serve_long fuel rs c e (h1 ++ [bad] ++ h2)) = r1 ++ [rb] ++ r2
    /\ snd (serve_long fuel rs c e (h1 ++ h2)) = r1 ++ r2
    /\ List.length r1 = List.length h1
    /\ r_out rb = [] /\ r_exec rb = SErr EGen None
    /\ (h2 <> [] -> fst (serve_long fuel rs c e (h1 ++ [bad] ++ h2)) = fst (serve_long fuel rs c e (h1 ++ h2))).
Proof.
  intros fuel rs c e h1 bad h2 Hr Hi Hs. apply as_if_never_sent_long; [apply refused_bool_spec, Hr|exact Hi|apply settled_b_spec, Hs].
Qed.

Theorem C17_as_if_never_sent_long_first_partial : forall fuel rs c w lg bad h2,
  c_first c = None -> refused bad -> forallb input_ok_b h2 = true ->
  snd (serve_long fuel rs c (fst (request_long fuel rs c (new_engine c None w lg) bad)) h2)
  = snd (serve_long fuel rs c (new_engine c None w lg) h2).
Proof.
  intros fuel rs c w lg bad h2 Hf Hr Hall. rewrite first_refused_long by assumption. cbn [fst].
  destruct (INPUT_LIMIT <? len bad); [reflexivity|]. apply serve_long_e_init; assumption.
Qed.

Theorem C17_refuted_first :
  exists (a : app) (c : config) (h : list bytes) (bad : bytes),
    c_first c <> None /\ refused bad
    /\ got_input (pw_log (fst (serve_pers 1000 (app_rsrc a) c (mkPw None [] [] false) (h ++ [bad])))) bad = true
    /\ got_input (v_log (e_v (fst (request_long 1000 (app_rsrc a) c (new_engine c None [] []) bad)))) bad = true.
Proof.
  exists w_app, w_cfg_first, [[]], w_bad.
  split; [discriminate|]. split; [apply refused_bool_spec; reflexivity|]. vm_compute. split; reflexivity.
Qed.

Theorem C17_refuted_long_first_cont :
  exists (a : app) (c : config) (bad j : bytes),
    c_first c = None /\ refused bad /\ input_ok_b j = false
    /\ map r_cont (snd (serve_long 1000 (app_rsrc a) c (new_engine c None [] []) [bad; j])) = [true; true]
    /\ map r_cont (snd (serve_long 1000 (app_rsrc a) c (new_engine c None [] []) [j])) = [false].
Proof.
  exists w_app, w_cfg, (s2b "!x"%string), w_longbad.
  split; [reflexivity|]. split; [apply refused_bool_spec; vm_compute; reflexivity|].
  split; [vm_compute; reflexivity|]. split; vm_compute; reflexivity.
Qed.

(* the engine after "", "1" (at node foo, page delivered) meets the hypotheses; both kinds of refused input exist.
   Here and below [114; 111; 111; 116] is "root", [102; 111; 111] is "foo", [49] and [48] are "1" and "0" *)
Example C17_ex_hypotheses :
  let e := fst (serve_long 1000 (app_rsrc w_app) w_cfg (new_engine w_cfg None [] []) [[]; [49]]) in
  e_initd e = true /\ e_execd e = true /\ delivered_b e = true /\ settled_b e = true
  /\ s_path (v_st (e_v e)) = [[114; 111; 111; 116]; [102; 111; 111]]
  /\ refused_bool w_bad = true /\ valid_input_b w_bad = false
  /\ refused_bool w_long = true /\ valid_input_b w_long = true.
Proof. vm_compute. repeat split. Qed.

(* the refused input in the middle of a history, both drivers: same answers to the rest *)
Example C17_ex_history :
  map r_out (snd (serve_long 1000 (app_rsrc w_app) w_cfg (new_engine w_cfg None [] []) [[]; [49]; w_bad; w_long; [48]; [49]]))
  = [[114; 111; 111; 116]; [102; 111; 111]; []; []; [114; 111; 111; 116]; [102; 111; 111]]
  /\ map r_out (snd (serve_long 1000 (app_rsrc w_app) w_cfg (new_engine w_cfg None [] []) [[]; [49]; [48]; [49]]))
  = [[114; 111; 111; 116]; [102; 111; 111]; [114; 111; 111; 116]; [102; 111; 111]]
  /\ map r_out (snd (serve_pers 1000 (app_rsrc w_app) w_cfg (mkPw None [] [] false) [[]; [49]; w_bad; w_long; [48]; [49]]))
  = [[114; 111; 111; 116]; [102; 111; 111]; []; []; [114; 111; 111; 116]; [102; 111; 111]]
  /\ pw_store (fst (serve_pers 1000 (app_rsrc w_app) w_cfg (mkPw None [] [] false) [[]; [49]; w_bad]))
     = pw_store (fst (serve_pers 1000 (app_rsrc w_app) w_cfg (mkPw None [] [] false) [[]; [49]])).
Proof. vm_compute. repeat split. Qed.

(* norm_snap is not the identity: a session that ended (empty pending code, no position) *)
Example C17_ex_norm :
  let p := fst (serve_pers 1000 (app_rsrc w_app) w_cfg (mkPw None [] [] false) [w_long]) in
  pw_store (fst (request_persisted 1000 (app_rsrc w_app) w_cfg p w_bad)) <> pw_store p
  /\ pw_store (fst (request_persisted 1000 (app_rsrc w_app) w_cfg p w_bad)) = Some (norm_snap w_cfg (sess w_cfg (pw_store p))).
Proof. intros p. vm_compute. split; [discriminate|reflexivity]. Qed.

Print Assumptions C17_refused_long.
Print Assumptions C17_refused_long_settled.
Print Assumptions C17_next_request_unaffected.
Print Assumptions C17_flush_before_exec_refused.
Print Assumptions C17_refused_persisted_partial.
Print Assumptions C17_norm_snap_idempotent.
Print Assumptions C17_request_norm_invariant.
Print Assumptions C17_as_if_never_sent_partial.
Print Assumptions C17_as_if_never_sent_long.
Print Assumptions C17_as_if_never_sent_long_first_partial.
Print Assumptions C17_refuted_first.
Print Assumptions C17_refuted_long_first_cont.
