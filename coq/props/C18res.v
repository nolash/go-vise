(* C18 (resource part) — the engine model's resource tables are resource.DbResource over the memory
   store, and a lookup with no translation returns the default-language entry. *)
From Vise Require Import Bytes Errors Consts VmModel DbKey DbModel DbProofs ResModel ResProofs.
Local Open Scope N_scope.

(* VmModel.app_rsrc (what the VM model consults) = the model of resource/db.go
   (SetPrefix(type); mustSafe; Get(key) with the language of the context; GetMenu's "_menu" key and
   not-found => the title itself) over the memory store that buildResource loads (ResModel.load_app).
   Guards: wf_res_keys = no table holds a key twice (tables are read first-match, the store keeps the
   last Put); res_lang_ok = the language code has three bytes (an empty code means "no language" to
   ToDbKey but "sym_" to lookup_lang).
   FULL STATEMENT without wf_res_keys is false: C18_refuted_duplicate_key. *)
Theorem C18_resource_refines_db : forall a lang sym,
  wf_res_keys a = true -> res_lang_ok lang = true ->
  rs_tpl (app_rsrc a) lang sym = snd (db_get_template (load_app a) res_default_typs lang sym).
Proof.
  intros a lang sym Hw Hl. rewrite load_app_eq. unfold db_get_template.
  replace (N.land res_default_typs DATATYPE_TEMPLATE =? 0) with false by reflexivity. cbn [snd app_rsrc rs_tpl].
  rewrite (res_fn_lang a _ _ lang sym Hl (tpl_table a Hw)). reflexivity.
Qed.

Theorem C18_resource_menu_refines_db : forall a lang title,
  wf_res_keys a = true -> res_lang_ok lang = true ->
  rs_menu (app_rsrc a) lang title = snd (db_get_menu (load_app a) res_default_typs lang title).
Proof.
  intros a lang title Hw Hl. rewrite load_app_eq. unfold db_get_menu.
  replace (N.land res_default_typs DATATYPE_MENU =? 0) with false by reflexivity. cbn [snd app_rsrc rs_menu].
  rewrite (res_fn_lang a _ _ lang (title ++ menu_suffix) Hl (menu_table a Hw)).
  destruct (lookup_lang (a_menu a) (title ++ menu_suffix) lang); reflexivity.
Qed.

Theorem C18_resource_code_refines_db : forall a lang sym,
  wf_res_keys a = true ->
  rs_code (app_rsrc a) sym = snd (db_get_code (load_app a) res_default_typs lang sym).
Proof.
  intros a lang sym Hw. rewrite load_app_eq. unfold db_get_code.
  replace (N.land res_default_typs DATATYPE_BIN =? 0) with false by reflexivity. cbn [snd app_rsrc rs_code].
  destruct (loaded_lookup a Hw) as [Hc _]. rewrite res_fn_loaded. unfold kv_get. cbn [d_base d_store].
  assert (E : to_key (mkBase DATATYPE_BIN [] lang safe_lock true) sym = Ok (mkLk (DATATYPE_BIN :: sym) None))
    by (unfold to_key, to_db_key; cbn; rewrite app_nil_r; reflexivity).
  rewrite E. cbn [lk_translation lk_default]. rewrite Hc. destruct (alookup sym (a_code a)); reflexivity.
Qed.

(* Corollary through C10_mem_refines_spec: read against the C10 reference map
   (type, language, key) -> value of the same store written through SetLanguage + Put (load_ops_tr:
   a table key "sym_xyz" is the entry of symbol sym in language xyz; it produces the same store,
   ResProofs.load_tr_eq), a language-scoped lookup returns the translation if one was stored, else
   the default-language entry, else not-found (templates) / the title itself (menu labels).
   Guard: hist_ok of the lookup history = the C10 key guard: no symbol (after splitting off one
   language suffix) ends in "_" + three bytes.  Without it the reading is false:
   C18_refuted_suffix_collision. *)
Theorem C18_template_translation_then_default : forall a lang sym,
  wf_res_keys a = true -> res_lang_ok lang = true ->
  hist_ok spec_init (lookup_hist a DATATYPE_TEMPLATE lang sym) = true ->
  rs_tpl (app_rsrc a) lang sym
  = match ref_lookup (sp_map (ref_state (load_ops_tr a))) DATATYPE_TEMPLATE lang sym with
    | Some v => Ok v
    | None => Err ENotFound
    end.
Proof.
  intros a lang sym Hw Hl Hok. cbn [app_rsrc rs_tpl].
  rewrite (lookup_via_reference a _ _ lang sym Hl (tpl_table a Hw) Hok). reflexivity.
Qed.

Theorem C18_menu_translation_then_default_then_title : forall a lang title,
  wf_res_keys a = true -> res_lang_ok lang = true ->
  hist_ok spec_init (lookup_hist a DATATYPE_MENU lang (title ++ menu_suffix)) = true ->
  rs_menu (app_rsrc a) lang title
  = match ref_lookup (sp_map (ref_state (load_ops_tr a))) DATATYPE_MENU lang (title ++ menu_suffix) with
    | Some v => Ok v
    | None => Ok title
    end.
Proof.
  intros a lang title Hw Hl Hok. cbn [app_rsrc rs_menu].
  rewrite (lookup_via_reference a _ _ lang (title ++ menu_suffix) Hl (menu_table a Hw) Hok). reflexivity.
Qed.

(* refutation of the unguarded refinement: with a key stored twice the table answers with the first
   entry, the store with the last Put *)
Example C18_refuted_duplicate_key :
  exists a sym, wf_res_keys a = false
    /\ rs_tpl (app_rsrc a) None sym = Ok (s2b "A")
    /\ snd (db_get_template (load_app a) res_default_typs None sym) = Ok (s2b "B").
Proof.
  exists (mkApp [] [(s2b "foo", s2b "A"); (s2b "foo", s2b "B")] [] []), (s2b "foo"). vm_compute. repeat split.
Qed.

(* the language-suffix collision, shared by the model and the store (so the refinement holds, but
   the reference-map reading does not): the template stored for the symbol "foo_nor" is what
   language "nor" sees for the symbol "foo"; the guard of the corollary rejects the lookup of
   "foo_nor", and the reference map holds no default-language entry for it although the lookup
   succeeds *)
Example C18_refuted_suffix_collision :
  exists a, wf_res_keys a = true
    /\ rs_tpl (app_rsrc a) (Some (s2b "nor")) (s2b "foo") = Ok (s2b "X")
    /\ snd (db_get_template (load_app a) res_default_typs (Some (s2b "nor")) (s2b "foo")) = Ok (s2b "X")
    /\ rs_tpl (app_rsrc a) None (s2b "foo_nor") = Ok (s2b "X")
    /\ hist_ok spec_init (lookup_hist a DATATYPE_TEMPLATE None (s2b "foo_nor")) = false
    /\ ref_lookup (sp_map (ref_state (load_ops_tr a))) DATATYPE_TEMPLATE None (s2b "foo_nor") = None.
Proof. exists (mkApp [] [(s2b "foo_nor", s2b "X")] [] []). vm_compute. repeat split. Qed.

(* non-vacuity: a small application with a translated template and menu label *)
Example C18res_nonvacuous :
  let a := mkApp [(s2b "root", [0; 7])]
                 [(s2b "root", s2b "hello"); (s2b "root_nor", s2b "hei"); (s2b "foo", s2b "f")]
                 [(s2b "x_menu", s2b "X"); (s2b "x_menu_nor", s2b "Eks")] [] in
  let nor := Some (s2b "nor") in let swa := Some (s2b "swa") in
  wf_res_keys a = true
  /\ hist_ok spec_init (lookup_hist a DATATYPE_TEMPLATE nor (s2b "root")) = true
  /\ hist_ok spec_init (lookup_hist a DATATYPE_TEMPLATE swa (s2b "bar")) = true
  /\ hist_ok spec_init (lookup_hist a DATATYPE_MENU swa (s2b "x" ++ menu_suffix)) = true
  /\ safe (d_base (load_app a)) = true
  /\ rs_tpl (app_rsrc a) nor (s2b "root") = Ok (s2b "hei")
  /\ snd (db_get_template (load_app a) res_default_typs nor (s2b "root")) = Ok (s2b "hei")
  /\ rs_tpl (app_rsrc a) swa (s2b "root") = Ok (s2b "hello")
  /\ snd (db_get_template (load_app a) res_default_typs swa (s2b "root")) = Ok (s2b "hello")
  /\ rs_tpl (app_rsrc a) swa (s2b "bar") = Err ENotFound
  /\ ref_lookup (sp_map (ref_state (load_ops_tr a))) DATATYPE_TEMPLATE nor (s2b "root") = Some (s2b "hei")
  /\ snd (db_get_menu (load_app a) res_default_typs nor (s2b "x")) = Ok (s2b "Eks")
  /\ rs_menu (app_rsrc a) swa (s2b "x") = Ok (s2b "X")
  /\ snd (db_get_menu (load_app a) res_default_typs swa (s2b "y")) = Ok (s2b "y")
  /\ snd (db_get_code (load_app a) res_default_typs nor (s2b "root")) = Ok [0; 7]
  /\ snd (db_staticload (load_app a) res_default_typs nor (s2b "root")) = Err EGen.
Proof. vm_compute. repeat split. Qed.

Print Assumptions C18_resource_refines_db.
Print Assumptions C18_resource_menu_refines_db.
Print Assumptions C18_resource_code_refines_db.
Print Assumptions C18_template_translation_then_default.
Print Assumptions C18_menu_translation_then_default_then_title.
