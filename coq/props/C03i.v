(* C03 (handler level) — Client input is routed by the first matching INCMP, once.
   The block/run-level theorems are in props/C03.v. *)
From Vise Require Import Bytes Errors Consts Codec CacheModel StateModel NavModel RenderModel VmModel VmProofs.
Local Open Scope N_scope.

(* before any match: an INCMP whose selector is neither the input nor the wildcard moves nothing *)
Theorem C03_no_match_no_move : forall rs sep dest sel b v input,
  getf (v_st v) FLAG_INMATCH = false -> s_input (v_st v) = Some input ->
  bytes_eqb sel input = false -> bytes_eqb sel star = false ->
  run_incmp rs sep dest sel b v
  = (vlog (vset_st v (setf (v_st v) FLAG_READIN)) (EvInCmp dest sel false), b, SOk).
Proof. exact run_incmp_no_match. Qed.

(* after a match was consumed, an INCMP with another selector (the wildcard included) moves nothing *)
Theorem C03_after_match_other_selector_ignored : forall rs sep dest sel b v input,
  getf (v_st v) FLAG_INMATCH = true -> getf (v_st v) FLAG_READIN = false ->
  s_input (v_st v) = Some input -> bytes_eqb sel input = false ->
  run_incmp rs sep dest sel b v = (vlog v (EvInCmp dest sel false), b, SOk).
Proof. exact run_incmp_after_match_other. Qed.

(* "previous" on the first page turned the match into no-match: every later INCMP is skipped *)
Theorem C03_skipped_after_index_error : forall rs sep dest sel b v,
  getf (v_st v) FLAG_INMATCH = true -> getf (v_st v) FLAG_READIN = true ->
  run_incmp rs sep dest sel b v = (vlog v (EvInCmp dest sel false), b, SOk).
Proof. exact run_incmp_skipped. Qed.

(* nothing matched and the code ran out: the catch node with the invalid-input message *)
Theorem C03_fallthrough_goes_to_catch : forall v,
  getf (v_st v) FLAG_READIN = true -> getf (v_st v) FLAG_TERMINATE = false ->
  where_sym (v_st v) <> [] -> bytes_eqb (where_sym (v_st v)) catch_sym = false ->
  dead_check v = (vset_pg v (page_with_error (v_pg v) (Some (msg_invalid_input (s_input (v_st v))))), move_catch_code, SOk).
Proof. exact dead_check_catch. Qed.

Print Assumptions C03_no_match_no_move.
Print Assumptions C03_after_match_other_selector_ignored.
Print Assumptions C03_skipped_after_index_error.
Print Assumptions C03_fallthrough_goes_to_catch.
