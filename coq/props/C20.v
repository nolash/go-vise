(* C20 — Session end restarts cleanly; termination stays blocked.

   Property (properties.jsonl): When a session runs out of bytecode right after a HALT it ends
   gracefully: the final output is delivered, and the next request with the same session id starts
   again at the entry node with an empty symbol cache and the client-defined flags kept.  When it
   runs out of bytecode otherwise, or external code sets TERMINATE, the request reports stop and
   every later request of that session stays blocked - producing no output and running nothing -
   until the flag is cleared.  Quantifier: all programs with end nodes of both kinds at arbitrary
   depth, all histories that continue past the end of a session, persisted operation.

   What is stated below, over the executable model (VmModel/EngineModel), for ALL resources,
   configurations WITHOUT an entry function (c_first = None; with one the property is false, see the
   refutation), stored sessions, inputs and fuel.  Common request hypotheses: the input is accepted
   (accepted_b = not refused_b), ResetOnEmptyInput does not apply (reset_req = false, or the stored
   position is empty), the stored session is not "stale" (no code + a position + no TERMINATE: init
   unwinds it first).  Under them Exec runs `prep_code` (the stored code, or `MOVE <root>` for an
   empty one) on the stored session (eng_exec_prepared).

   C20_end_of_run_cases      a `run` that returns status OK with NO code left either has TERMINATE
                             set or ended on a HALT (WAIT set, HALT newest in the instruction log):
                             "runs out of bytecode right after a HALT" is exactly "no code left,
                             OK, TERMINATE clear".
   C20_graceful_end          if the run of the request ends that way (then DIRTY is set), the
                             final page renders (vm_render = RROk page) at a non-empty position:
                             the response is cont = false, status OK, output = page ++ exit value
                             where exit value = the cache's last value - unless the exit-size check
                             of Flush fires (size_overflow: 0 < OutputSize, 0 < len exit,
                             OutputSize < uint32(len exit + len page)): then output is empty and
                             Flush fails, the session is reset all the same; the stored session is
                             `ended v'`: C20_graceful_end_state (path [], index 0, no pending code,
                             TERMINATE and DIRTY clear, EVERY other flag - in particular every
                             client flag >= 8 - and the language kept), C20_graceful_end_cache
                             (under end_inv = one scope per level plus the base scope, CInv, base
                             scope empty: exactly ONE EMPTY scope, use size 0).
                             Building blocks in the engine's own terms: C20_graceful_exec_inner
                             (cont = false, e_exiting, exit = last value), C20_graceful_flush.
   C20_restart_at_entry      a stored session without code and position (what a graceful end
                             leaves): the next request runs `MOVE <root>` from the empty position;
                             C20_restart_runs_root: that is, the root's code in a fresh cache scope
                             at position [root]; C20_restart_halting_root: when the root halts at
                             once Exec ends at [root] with the rest of its code pending.
   C20_abnormal_end_sets_terminate  an instruction other than HALT that leaves no code while READIN
                             is clear makes the loop set TERMINATE;
   C20_abnormal_end_request  whenever the run of a request returns OK with TERMINATE set (set by
                             runDeadCheck or by external code) the request reports cont = false,
                             status OK, and (unless rendering panics) the stored session keeps
                             position and cache, has TERMINATE set, DIRTY clear, no code;
   C20_abnormal_end_then_blocked  and every later accepted request is blocked: cont = false, OK,
                             empty output, nothing logged, store unchanged (C06_blocked_until_cleared).
   Note on "stays blocked": the strict form needs DIRTY clear in the stored session, which
   C20_abnormal_end_request establishes when the request that set TERMINATE was flushed.  If that
   request FAILED in Exec after TERMINATE had been set, the session is saved with DIRTY and the next
   request renders the page once (finding K-C06-dirty, props/C06.v: C06_blocked_refuted_dirty,
   C06_blocked_request_weak, C06_terminated_stays_blocked).
   Over histories (proofs/FlagProofs2.v, composing SafetyProofs) the invariant end_inv is proved, not
   assumed.  C20_history_store_invariant: every stored session reachable by ANY history from a
   new session (persisted driver, per-request fuel) satisfies end_inv, and has no pending code other
   than a single MOVE while its position is empty; C20_graceful_end_history_partial: after any
   history, a request that is a graceful end answers as C20_graceful_end says and stores path [],
   index 0, no code, exactly ONE EMPTY cache scope, use size 0, TERMINATE/DIRTY clear, every other
   flag and the language kept, and every next accepted request runs MOVE <root> from the empty
   position in that cache - with NO invariant hypothesis.  Guards (one decidable predicate
   c20_guards a c, plus c_first c = None): SafetyProofs' wf_app_b, cfg_okb, no CROAK (K-C08-croak),
   vals_small, and two more that the invariant "nothing is stored while the position is empty"
   needs: has_node a [] = false (no node with the empty name; necessary: refuted side by side,
   C20_graceful_end_history_refuted_anon - "_" at the entry node empties the position,
   GetCode("") succeeds, the anonymous node's LOAD lands in the base scope and the next graceful end
   leaves it there) and quiet_catch_b a (the _catch node reaches a HALT before any MOVE / INCMP /
   CATCH, as every catch node of the corpus and the documentation does; used to show that the
   recovery run of Render after a browse error cannot leave the session without a position while
   code is pending).
   quiet_catch_b CANNOT be dropped either (proofs/FlagProofs3.v).  The BrowseError branch of
   Vm.Render is reachable - on the real engine too (witness in notes/integration_flags.md: a sink of
   65538 rows makes joinSink's uint16 page counter wrap to 1, "next" renders page 1 and the menu
   raises BrowseError; with a catch node that navigates before it halts the recovery run then
   empties the position while code is pending, the next request LOADs at the empty position into
   the base scope, and a later graceful end leaves two symbols there).  What is proved is the
   sharp boundary: C20_browse_only_after_wrap - for fewer than 65535 sink rows (and less than
   4 GiB of them) GetAt fails for EVERY idx >= page count, so (C20_sizer_error_before_menu) the
   final render of a page whose sizer names the sink fails with the sizer's error before the menu
   is consulted: never a BrowseError.  An alternative guard "every entry function returns fewer
   than 65535 rows" could replace quiet_catch_b only together with a page/sizer consistency
   invariant through run (not proved).
   Long-lived engine: C20_graceful_end_long (initialised engine whose last output was delivered;
   entry function or not).
   FALSE with an entry function (K-C20-first): C20_terminated_refuted_first - an entry function that
   sets TERMINATE makes its request report stop with its text, the session is not saved, and the
   next request is served normally; a session terminated otherwise outputs a stale value when
   blocked (C06_blocked_refuted_first). *)
From Vise Require Import Bytes Errors Consts EngConsts Codec CacheModel StateModel NavModel NavSpec RenderModel
  VmModel EngineModel CorrBase EngineCorr EngineMon CacheProofs RenderProofs VmProofs SafetyProofs FlagProofs FlagProofs2 FlagProofs3.
Local Open Scope N_scope.

Theorem C20_end_of_run_cases : forall fuel rs sep lang b v v',
  run fuel rs sep lang b v = (v', [], SOk) -> flag_in_range (v_st v) FLAG_TERMINATE = true ->
  getf (v_st v') FLAG_TERMINATE = true
  \/ (getf (v_st v') FLAG_WAIT = true /\ exists l, v_log v' = EvInstr op_HALT :: l).
Proof. exact run_end_cases. Qed.

Theorem C20_graceful_exec_inner : forall fuel rs c e x code v1,
  s_code (v_st (e_v e)) = x :: code ->
  run fuel rs (c_sep c) (s_lang (v_st (e_v e))) (x :: code) (vset_st (e_v e) (set_code (v_st (e_v e)) [])) = (v1, [], SOk) ->
  getf (v_st v1) FLAG_TERMINATE = false -> flag_in_range (v_st (e_v e)) FLAG_DIRTY = true ->
  eng_exec_inner fuel rs c e
  = (mkEng (vset_ca (vset_st v1 (set_code (v_st v1) [])) (snd (cache_last (v_ca v1))))
           (e_initd e) (c_last (v_ca v1)) true true, false, SOk)
  /\ getf (v_st v1) FLAG_DIRTY = true.
Proof. exact graceful_exec_inner. Qed.

Theorem C20_graceful_flush : forall fuel rs c e v' page,
  e_execd e = true -> e_exiting e = true ->
  vm_render fuel rs (c_sep c) (s_lang (v_st (e_v e))) (e_v e) = (v', RROk page) ->
  s_path (v_st v') <> [] ->
  eng_flush fuel rs c e =
    if (0 <? c_out c) && (0 <? len (e_exit e)) && (c_out c <? w32 (len (e_exit e) + len page))
    then (mkEng (ended v') (e_initd e) (e_exit e) false true, [], FErr EGen)
    else (mkEng (ended v') (e_initd e) (e_exit e) false true, page ++ e_exit e, FOk).
Proof. exact graceful_flush. Qed.

Theorem C20_graceful_end : forall fuel rs c p input st ca v1 v' page,
  c_first c = None -> pw_store p = Some (st, ca) -> accepted_b input = true ->
  (reset_req c input = false \/ s_path st = []) -> stale st = false ->
  builtin_flags_ok st ->
  run fuel rs (c_sep c) (s_lang st) (prep_code c st)
      (mkVm (set_code (prep_state c st input) []) ca (new_vm_page (c_out c) (c_sep c)) (pw_w p) (pw_log p) false) = (v1, [], SOk) ->
  getf (v_st v1) FLAG_TERMINATE = false ->
  vm_render fuel rs (c_sep c) (s_lang (v_st v1)) (exiting_vm v1) = (v', RROk page) ->
  s_path (v_st v') <> [] ->
  ended_on_halt v1 /\ getf (v_st v1) FLAG_DIRTY = true /\
  request_persisted fuel rs c p input =
    (mkPw (Some (snap_of (v_st (ended v')) (v_ca (ended v')))) (v_w v') (v_log v') (pw_taint p || v_taint v'),
     if size_overflow c (c_last (v_ca v1)) page
     then mkResp false SOk [] (FErr EGen)
     else mkResp false SOk (page ++ c_last (v_ca v1)) FOk).
Proof.
  intros fuel rs c p input st ca v1 v' page Hf Hs Ha Hreset Hstale Hb Hrun Ht Hrender Hp.
  split.
  { destruct (run_end_cases _ _ _ _ _ _ _ Hrun) as [H|H]; [|congruence|exact H].
    apply (builtin_in_range st); [exact Hb|discriminate]. }
  destruct (prep_code_cons c st) as (x & code & Hc).
  destruct (graceful_exec_inner fuel rs c (prep_engine c st ca (pw_w p) (pw_log p) input) x code v1 Hc) as [Hexec Hd];
    [rewrite <- Hc; exact Hrun|exact Ht|apply (builtin_in_range st); [exact Hb|discriminate]|].
  split; [exact Hd|].
  rewrite (request_persisted_prepared fuel rs c p input st ca), Hexec by assumption.
  unfold EngineProofs.long_finish. rewrite (graceful_flush fuel rs c _ v' page) by (reflexivity || assumption).
  destruct (size_overflow c _ page); reflexivity.
Qed.

Theorem C20_graceful_end_state : forall v,
  s_path (v_st (ended v)) = [] /\ s_idx (v_st (ended v)) = 0
  /\ s_code (v_st (ended v)) = s_code (v_st v) /\ s_lang (v_st (ended v)) = s_lang (v_st v)
  /\ getf (v_st (ended v)) FLAG_TERMINATE = false /\ getf (v_st (ended v)) FLAG_DIRTY = false
  /\ (forall i, i <> FLAG_TERMINATE -> i <> FLAG_DIRTY -> getf (v_st (ended v)) i = getf (v_st v) i).
Proof.
  intros v. unfold ended. cbn [v_st vset_ca vset_st]. repeat split.
  - apply (EngineProofs.getf_reset_state_term (v_st v)).
  - apply getf_resetf_same.
  - apply (EngineProofs.getf_reset_state (v_st v)).
Qed.

Theorem C20_graceful_end_code : forall fuel rs sep lang v1 v' r,
  vm_render fuel rs sep lang (exiting_vm v1) = (v', r) -> s_code (v_st (ended v')) = [].
Proof. intros fuel rs sep lang v1 v' r H. exact (shape_code _ _ (vm_render_shape _ _ _ _ _ _ _ H)). Qed.

Theorem C20_graceful_end_cache : forall v,
  nav_inv (v_st v) (v_ca v) /\ CInv (v_ca v) /\ hd_error (c_frames (v_ca v)) = Some [] ->
  c_frames (v_ca (ended v)) = [[]] /\ c_use (v_ca (ended v)) = 0
  /\ cache_levels (v_ca (ended v)) = 1 /\ c_size (v_ca (ended v)) = c_size (v_ca v) /\ CInv (v_ca (ended v)).
Proof. exact ended_cache. Qed.

Theorem C20_restart_at_entry : forall fuel rs c st ca w lg input,
  c_first c = None -> accepted_b input = true -> s_code st = [] -> s_path st = [] ->
  eng_exec fuel rs c (new_engine c (Some (st, ca)) w lg) input
  = eng_exec_inner fuel rs c (prep_engine c st ca w lg input)
  /\ s_code (v_st (e_v (prep_engine c st ca w lg input))) = encode (IMove (cfg_root c))
  /\ s_path (v_st (e_v (prep_engine c st ca w lg input))) = []
  /\ v_ca (e_v (prep_engine c st ca w lg input)) = ca
  /\ s_flags (v_st (e_v (prep_engine c st ca w lg input))) = s_flags st.
Proof.
  intros fuel rs c st ca w lg input Hf Ha Hc Hp. split.
  - apply eng_exec_prepared; try assumption; [right; exact Hp|apply stale_no_path; exact Hp].
  - unfold prep_engine, prep_state, prep_code. cbn [e_v v_st v_ca s_code s_path s_flags set_input_raw set_code].
    rewrite Hc. auto.
Qed.

Theorem C20_restart_runs_root : forall fuel rs sep lang root v x code,
  wf_sym root -> valid_sym_b root = true ->
  getf (v_st v) FLAG_TERMINATE = false -> s_path (v_st v) = [] ->
  rs_code rs root = Ok (x :: code) ->
  run (S fuel) rs sep lang (encode (IMove root)) v
  = run fuel rs sep (pre_lang lang (v_st v)) (x :: code) (at_root rs sep root v)
  /\ s_path (v_st (at_root rs sep root v)) = [root] /\ s_idx (v_st (at_root rs sep root v)) = 0
  /\ v_ca (at_root rs sep root v) = cache_push (v_ca v).
Proof.
  intros fuel rs sep lang root v x code H1 H2 H3 H4 H5. split; [apply run_move_root; assumption|].
  destruct (at_root_facts rs sep root v) as (F1 & F2 & F3 & _). auto.
Qed.

Theorem C20_restart_halting_root : forall fuel rs c st ca w lg input rest,
  c_first c = None -> accepted_b input = true -> s_code st = [] -> s_path st = [] ->
  getf st FLAG_TERMINATE = false ->
  wf_sym (cfg_root c) -> valid_sym_b (cfg_root c) = true ->
  rs_code rs (cfg_root c) = Ok (encode IHalt ++ rest) ->
  exists e', eng_exec (S (S fuel)) rs c (new_engine c (Some (st, ca)) w lg) input
             = (e', match rest with [] => false | _ => true end, SOk)
    /\ s_path (v_st (e_v e')) = [cfg_root c] /\ s_idx (v_st (e_v e')) = 0
    /\ s_code (v_st (e_v e')) = rest
    /\ c_frames (v_ca (e_v e')) = c_frames ca ++ [[]].
Proof.
  intros fuel rs c st ca w lg input rest Hf Ha Hc Hp Ht Hwf Hv Hroot.
  destruct (C20_restart_at_entry (S (S fuel)) rs c st ca w lg input Hf Ha Hc Hp) as (He & Hcode & Hpath & _). rewrite He.
  set (e := prep_engine c st ca w lg input) in *.
  destruct (run_move_root_halt fuel rs (c_sep c) (s_lang (v_st (e_v e))) (cfg_root c)
              (vset_st (e_v e) (set_code (v_st (e_v e)) [])) rest Hwf Hv Ht Hpath Hroot) as (v' & Hrun & F1 & F2 & F3 & F4).
  rewrite EngineProofs.eng_exec_inner_run, Hcode, Hrun by (rewrite Hcode; apply EngineProofs.encode_nonempty).
  cbv zeta. rewrite F4, EngineProofs.set_code_eng_eq.
  change (v_ca (e_v e)) with ca in F3. unfold cache_last.
  destruct rest; [destruct (getf _ FLAG_DIRTY)|]; eexists; (split; [reflexivity|]);
    cbn [e_v eset_v v_st vset_st vset_ca v_ca s_path s_idx s_code set_code c_frames snd]; rewrite ?F3; auto.
Qed.

Theorem C20_abnormal_end_sets_terminate : forall fuel rs sep lang i v v1,
  wf_instr i -> opcode_of i <> op_HALT -> getf (v_st v) FLAG_TERMINATE = false ->
  exec_instr rs sep (pre_lang lang (v_st v)) i [] (vlog (pre_vm v) (EvInstr (opcode_of i))) = (v1, [], SOk) ->
  getf (v_st v1) FLAG_READIN = false ->
  run (S fuel) rs sep lang (encode i) v = (vset_st v1 (setf (v_st v1) FLAG_TERMINATE), [], SOk).
Proof.
  intros fuel rs sep lang i v v1 Hwf Hop Ht He Hr.
  rewrite <- (app_nil_r (encode i)), run_S_encoded by assumption. cbv zeta. rewrite He.
  apply N.eqb_neq in Hop. rewrite Hop. cbn [err_check after_check].
  rewrite dead_check_terminates by exact Hr. reflexivity.
Qed.

Theorem C20_abnormal_end_request : forall fuel rs c p input st ca v1 b,
  c_first c = None -> pw_store p = Some (st, ca) -> accepted_b input = true ->
  (reset_req c input = false \/ s_path st = []) -> stale st = false ->
  run fuel rs (c_sep c) (s_lang st) (prep_code c st)
      (mkVm (set_code (prep_state c st input) []) ca (new_vm_page (c_out c) (c_sep c)) (pw_w p) (pw_log p) false) = (v1, b, SOk) ->
  getf (v_st v1) FLAG_TERMINATE = true ->
  exists p' resp, request_persisted fuel rs c p input = (p', resp)
    /\ r_cont resp = false /\ r_exec resp = SOk
    /\ ((exists n, r_flush resp = FPanic n) \/
        (pw_store p' = Some (snap_of (resetf (v_st v1) FLAG_DIRTY) (v_ca v1))
         /\ s_code (v_st v1) = [] /\ r_flush resp <> FFuel)).
Proof.
  intros fuel rs c p input st ca v1 b Hf Hs Ha Hreset Hstale Hrun Ht.
  destruct (terminated_end_request fuel rs c p input st ca v1 b Hf Hs Ha Hreset Hstale Hrun Ht)
    as (p' & resp & Hreq & Hc & Hx & _ & _ & [(n & Hn & _)|(Hst & Hnf & _)]);
    exists p', resp; repeat (split; [assumption|]); [left; eauto|right].
  rewrite (shape_code _ _ (run_shape _ _ _ _ _ _ _ _ _ Hrun)). auto.
Qed.

Theorem C20_abnormal_end_then_blocked : forall fuel rs c p input st ca v1 b p' resp inputs,
  c_first c = None -> pw_store p = Some (st, ca) -> accepted_b input = true ->
  (reset_req c input = false \/ s_path st = []) -> stale st = false ->
  run fuel rs (c_sep c) (s_lang st) (prep_code c st)
      (mkVm (set_code (prep_state c st input) []) ca (new_vm_page (c_out c) (c_sep c)) (pw_w p) (pw_log p) false) = (v1, b, SOk) ->
  getf (v_st v1) FLAG_TERMINATE = true ->
  request_persisted fuel rs c p input = (p', resp) ->
  (forall n, r_flush resp <> FPanic n) ->
  Forall (fun i => accepted_b i = true /\ reset_req c i = false) inputs -> inputs <> [] ->
  r_cont resp = false /\
  exists st', pw_store p' = Some (st', v_ca v1) /\ getf st' FLAG_TERMINATE = true /\
  requests fuel rs c p' inputs
  = (mkPw (Some (blocked_snap st' (v_ca v1))) (pw_w p') (pw_log p') (pw_taint p'),
     map (fun _ => mkResp false SOk [] FOk) inputs).
Proof.
  intros fuel rs c p input st ca v1 b p' resp inputs Hf Hs Ha Hreset Hstale Hrun Ht Hreq Hnp Hall Hne.
  destruct (terminated_then_blocked fuel rs c p input st ca v1 b p' resp inputs Hf Hs Ha Hreset Hstale Hrun Ht Hreq Hnp)
    as (Hc & _ & _ & Hst & Hrq); [|exact Hne|].
  { eapply Forall_impl; [|exact Hall]. intros i [H1 H2]. auto. }
  split; [exact Hc|]. eexists. split; [exact Hst|]. split; [|exact Hrq].
  change (getf (resetf (v_st v1) FLAG_DIRTY) FLAG_TERMINATE = true). rewrite getf_resetf_other by discriminate. exact Ht.
Qed.

Theorem C20_blocked_until_cleared : forall fuel rs c inputs p st ca,
  c_first c = None -> pw_store p = Some (st, ca) ->
  getf st FLAG_TERMINATE = true -> getf st FLAG_DIRTY = false ->
  Forall (fun i => accepted_b i = true /\ (reset_req c i = false \/ s_path st = [])) inputs ->
  inputs <> [] ->
  requests (S fuel) rs c p inputs
  = (mkPw (Some (blocked_snap st ca)) (pw_w p) (pw_log p) (pw_taint p),
     map (fun _ => mkResp false SOk [] FOk) inputs).
Proof. exact blocked_until_cleared. Qed.

Theorem C20_history_store_invariant : forall a c w lg h st ca,
  c20_guards a c = true -> c_first c = None ->
  pw_store (fst (hist_pers (app_rsrc a) c (mkPw None w lg false) h)) = Some (st, ca) ->
  (nav_inv st ca /\ CInv ca /\ hd_error (c_frames ca) = Some [])
  /\ (s_path st = [] -> s_code st = [] \/ exists t, wf_sym t /\ s_code st = encode (IMove t)).
Proof.
  intros a c w lg h st ca Hg Hf Hs. pose proof (history_store_inv a c w lg h Hg Hf) as H. rewrite Hs in H.
  destruct H as (HS & Hb & Hmo). split; [|exact Hmo].
  split; [exact (SC_nav _ _ _ _ _ HS eq_refl)|]. split; [exact (SC_CInv _ _ _ _ _ HS eq_refl)|exact Hb].
Qed.

Theorem C20_graceful_end_history_partial : forall a c w lg h fuel input st ca v1 v' page,
  c20_guards a c = true -> c_first c = None ->
  let rs := app_rsrc a in
  let p := fst (hist_pers rs c (mkPw None w lg false) h) in
  pw_store p = Some (st, ca) ->
  accepted_b input = true -> (reset_req c input = false \/ s_path st = []) -> stale st = false ->
  run fuel rs (c_sep c) (s_lang st) (prep_code c st)
      (mkVm (set_code (prep_state c st input) []) ca (new_vm_page (c_out c) (c_sep c)) (pw_w p) (pw_log p) false) = (v1, [], SOk) ->
  getf (v_st v1) FLAG_TERMINATE = false ->
  vm_render fuel rs (c_sep c) (s_lang (v_st v1)) (exiting_vm v1) = (v', RROk page) ->
  s_path (v_st v') <> [] ->
  exists st' ca',
    request_persisted fuel rs c p input
    = (mkPw (Some (st', ca')) (v_w v') (v_log v') (pw_taint p || v_taint v'),
       if size_overflow c (c_last (v_ca v1)) page
       then mkResp false SOk [] (FErr EGen)
       else mkResp false SOk (page ++ c_last (v_ca v1)) FOk)
    /\ s_path st' = [] /\ s_idx st' = 0 /\ s_code st' = []
    /\ c_frames ca' = [[]] /\ c_use ca' = 0
    /\ s_lang st' = s_lang (v_st v')
    /\ getf st' FLAG_TERMINATE = false /\ getf st' FLAG_DIRTY = false
    /\ (forall i, i <> FLAG_TERMINATE -> i <> FLAG_DIRTY -> getf st' i = getf (v_st v') i)
    /\ (forall fuel2 w2 lg2 input2, accepted_b input2 = true ->
          eng_exec fuel2 rs c (new_engine c (Some (st', ca')) w2 lg2) input2
          = eng_exec_inner fuel2 rs c (prep_engine c st' ca' w2 lg2 input2)
          /\ s_code (v_st (e_v (prep_engine c st' ca' w2 lg2 input2))) = encode (IMove (cfg_root c))
          /\ s_path (v_st (e_v (prep_engine c st' ca' w2 lg2 input2))) = []
          /\ v_ca (e_v (prep_engine c st' ca' w2 lg2 input2)) = ca').
Proof.
  intros a c w lg h fuel input st ca v1 v' page Hg Hf rs p Hs Ha Hreset Hstale Hrun Ht Hrender Hp.
  destruct (graceful_end_inv a c w lg h fuel input st ca v1 _ _ _ v' _ Hg Hf Hs Ha Hrun Hrender) as [Hb Hinv].
  destruct (C20_graceful_end fuel rs c p input st ca v1 v' page Hf Hs Ha Hreset Hstale Hb Hrun Ht Hrender Hp) as (_ & _ & Hreq).
  destruct (C20_graceful_end_state v') as (E1 & E2 & _ & E4 & E5 & E6 & E7). destruct (ended_cache v' Hinv) as (C1 & C2 & _).
  pose proof (C20_graceful_end_code _ _ _ _ _ _ _ Hrender) as Hcode.
  exists (set_input_raw (v_st (ended v')) None), (v_ca (ended v')). repeat (split; [assumption|]).
  intros fuel2 w2 lg2 input2 Ha2.
  destruct (C20_restart_at_entry fuel2 rs c (set_input_raw (v_st (ended v')) None) (v_ca (ended v')) w2 lg2 input2 Hf Ha2 Hcode E1) as (R1 & R2 & R3 & R4 & _). auto.
Qed.

Theorem C20_graceful_end_history_refuted_anon :
  wf_app_b app_anon cfg_term = true /\ cfg_okb cfg_term = true /\ c_first cfg_term = None
  /\ has_croak app_anon = false /\ vals_small (c_cachesize cfg_term) app_anon = true /\ quiet_catch_b app_anon = true
  /\ has_node app_anon [] = true
  /\ (let '(p, resps) := hist_pers (app_rsrc app_anon) cfg_term (mkPw None [] [] false) hist_anon in
      last resps (mkResp true SOk [] FOk) = mkResp false SOk (s2b "the endv") FOk
      /\ option_map (fun sc => (s_path (fst sc), c_frames (snd sc), c_use (snd sc))) (pw_store p)
         = Some ([], [[(s2b "aa", s2b "v")]], 1)).
Proof. vm_compute. repeat split; reflexivity. Qed.

Theorem C20_graceful_end_long : forall fuel rs c e input x code v1 v' page,
  e_initd e = true -> delivered_l e -> accepted_b input = true ->
  (reset_req c input = false \/ s_path (v_st (e_v e)) = []) ->
  s_code (v_st (e_v e)) = x :: code -> builtin_flags_ok (v_st (e_v e)) ->
  run fuel rs (c_sep c) (s_lang (v_st (e_v e))) (x :: code)
      (vset_st (e_v e) (set_code (set_input_raw (v_st (e_v e)) (Some input)) [])) = (v1, [], SOk) ->
  getf (v_st v1) FLAG_TERMINATE = false ->
  vm_render fuel rs (c_sep c) (s_lang (v_st v1)) (exiting_vm v1) = (v', RROk page) ->
  s_path (v_st v') <> [] ->
  ended_on_halt v1 /\
  request_long fuel rs c e input =
    (mkEng (ended v') true (c_last (v_ca v1)) false true,
     if size_overflow c (c_last (v_ca v1)) page
     then mkResp false SOk [] (FErr EGen)
     else mkResp false SOk (page ++ c_last (v_ca v1)) FOk).
Proof.
  intros fuel rs c e input x code v1 v' page Hi Hd Ha Hreset Hc Hb Hrun Ht Hrender Hp.
  split.
  { destruct (run_end_cases _ _ _ _ _ _ _ Hrun) as [H|H]; [|congruence|exact H]. apply (builtin_in_range _ _ Hb); discriminate. }
  unfold request_long. rewrite eng_exec_accepted by assumption.
  set (e0 := mkEng _ true [] false false).
  destruct (graceful_exec_inner fuel rs c e0 x code v1 Hc Hrun Ht) as [-> _]; [apply (builtin_in_range _ _ Hb); discriminate|].
  rewrite (graceful_flush fuel rs c _ v' page); try reflexivity; try exact Hp; [|exact Hrender].
  cbn [e_exit e_initd]. destruct (size_overflow c (c_last (v_ca v1)) page); reflexivity.
Qed.

(* the guards and hypotheses of C20_graceful_end_history_partial are met by corpus graceful-end *)
Example C20_graceful_history_nonvacuous :
  c20_guards app_graceful cfg_graceful = true /\ c_first cfg_graceful = None
  /\ fst (hist_pers rs_graceful cfg_graceful (mkPw None [] [] false) hist_graceful) = p_graceful
  /\ pw_store p_graceful = Some (g_st, g_ca)
  /\ accepted_b (s2b "1") = true /\ reset_req cfg_graceful (s2b "1") = false /\ stale g_st = false
  /\ g_run = (g_v1, [], SOk) /\ getf (v_st g_v1) FLAG_TERMINATE = false
  /\ g_render = (g_v', RROk (s2b "the end")) /\ s_path (v_st g_v') <> [].
Proof. vm_compute. repeat split; try reflexivity. discriminate. Qed.

(* long-lived engine on the same corpus: third request *)
Example C20_graceful_long_nonvacuous :
  let e := fst (requests_long 100 rs_graceful cfg_graceful (new_engine cfg_graceful None [] []) [[]; s2b "1"]) in
  e_initd e = true /\ e_execd e = true /\ getf (v_st (e_v e)) FLAG_DIRTY = false /\ e_exiting e = false /\ e_exit e = []
  /\ s_code (v_st (e_v e)) <> []
  /\ (let '(e', r) := request_long 100 rs_graceful cfg_graceful e (s2b "1") in
      r = mkResp false SOk (s2b "the end bye") FOk /\ s_path (v_st (e_v e')) = [] /\ c_frames (v_ca (e_v e')) = [[]]
      /\ e_exit e' = s2b " bye").
Proof. vm_compute. repeat split; try reflexivity. discriminate. Qed.

Theorem C20_browse_only_after_wrap : forall vs remaining ms r n crs idx,
  len vs < 65535 -> rows_size vs < 4294967296 ->
  join_sink vs remaining ms [0] = (Ok (r, n), crs) ->
  0 < n -> n <= idx -> sink_page r crs idx = Err EGen.
Proof. exact join_sink_past_end. Qed.

Theorem C20_sizer_error_before_menu : forall gt gm pg sym vals idx z sink r,
  p_sizer pg = Some z -> z_sink z = sink -> sink <> [] ->
  alookup sink vals = Some r -> sink_page r (z_crsrs z) idx = Err EGen ->
  (forall e, gt sym = Err e -> e <> EBrowse) ->
  fst (page_render_inner gt gm pg sym vals idx) <> Err EBrowse.
Proof.
  intros gt gm pg sym vals idx z sink r Hz Hs Hne Hl Hp Hgt. destruct (gt sym) as [src|e|p] eqn:Hg.
  - rewrite (inner_sink_err gt gm pg sym vals idx z sink r src EGen Hz Hs Hne Hl Hg Hp). discriminate.
  - unfold page_render_inner, render_template. rewrite Hg. intros E. injection E as E. exact (Hgt e eq_refl E).
  - unfold page_render_inner, render_template. rewrite Hg. discriminate.
Qed.

Example C20_trailing_empty_row_nonvacuous :
  let bb := rep 98 40 in
  let r0 := s2b "a" ++ [nl] ++ bb in
  let '(res, crs) := join_sink [s2b "a"; bb; []] 40 (5, 6, 7, 13) [0] in
  res = Ok (r0, 2) /\ crs = [0; 2; 43]
  /\ sink_page r0 crs 2 = Err EGen /\ sink_page r0 crs 1 = Ok bb.
Proof. exact join_sink_trailing_empty_row. Qed.

(* corpus "first-terminate": on the second request the entry function returns "blocked" with
   TERMINATE: the request reports stop and outputs "blocked", the session is not saved, and the
   next request is served as if nothing had happened *)
Theorem C20_terminated_refuted_first :
  exists rs c p i1 i2,
    c_first c <> None /\ accepted_b i1 = true /\ accepted_b i2 = true
    /\ reset_req c i1 = false /\ reset_req c i2 = false
    /\ (let '(p1, r1) := request_persisted 100 rs c p i1 in
        let '(p2, r2) := request_persisted 100 rs c p1 i2 in
        r_cont r1 = false /\ r_exec r1 = SOk /\ r_out r1 = s2b "blocked"
        /\ pw_store p1 = pw_store p
        /\ r_cont r2 = true /\ r_out r2 <> []
        (* instructions ran during the second request *)
        /\ existsb (fun e => match e with EvInstr op => op =? op_INCMP | _ => false end)
                   (firstn (List.length (pw_log p2) - List.length (pw_log p1)) (pw_log p2)) = true).
Proof.
  exists (app_rsrc app_ft), cfg_ft, (fst (requests 100 (app_rsrc app_ft) cfg_ft pw0 [[]])), (s2b "1"), (s2b "0").
  vm_compute. repeat split; try reflexivity; discriminate.
Qed.

(* corpus "graceful-end", third request ("1" at root/foo): every hypothesis of C20_graceful_end holds *)
Example C20_graceful_nonvacuous :
  c_first cfg_graceful = None /\ pw_store p_graceful = Some (g_st, g_ca)
  /\ accepted_b (s2b "1") = true /\ reset_req cfg_graceful (s2b "1") = false /\ stale g_st = false
  /\ flag_in_range g_st FLAG_LANG = true
  /\ g_run = (g_v1, [], SOk) /\ getf (v_st g_v1) FLAG_TERMINATE = false
  /\ g_render = (g_v', RROk (s2b "the end"))
  /\ s_path (v_st g_v') = [s2b "root"; s2b "foo"; s2b "end1"]
  /\ size_overflow cfg_graceful (c_last (v_ca g_v1)) (s2b "the end") = false
  /\ getf (v_st g_v') 8 = true
  /\ cache_levels (v_ca g_v') = len (s_path (v_st g_v')) + 1 /\ hd_error (c_frames (v_ca g_v')) = Some []
  /\ v_ca g_v' = cache_run (new_cache 100)
                   [OPush; OPush; OAdd (s2b "aa") (s2b "v") 10; OPush; OAdd (s2b "bb") (s2b " bye") 0; OLast]
  /\ request_persisted 100 rs_graceful cfg_graceful p_graceful (s2b "1")
     = (mkPw (Some (snap_of (v_st (ended g_v')) (v_ca (ended g_v')))) (v_w g_v') (v_log g_v') false,
        mkResp false SOk (s2b "the end bye") FOk)
  /\ snap_of (v_st (ended g_v')) (v_ca (ended g_v'))
     = (mkState [] [] 10 0 [false; true; true; false; false; false; false; false; true; false; false; false; false; false; false; false] None None,
        mkCache 100 0 [[]] [] []).
Proof. vm_compute. repeat split; reflexivity. Qed.

Example C20_graceful_inv_nonvacuous : end_inv (v_st g_v') (v_ca g_v').
Proof.
  assert (H : v_ca g_v' = cache_run (new_cache 100)
                [OPush; OPush; OAdd (s2b "aa") (s2b "v") 10; OPush; OAdd (s2b "bb") (s2b " bye") 0; OLast])
    by (vm_compute; reflexivity).
  split; [vm_compute; reflexivity|]. split; [|vm_compute; reflexivity].
  rewrite H. apply cache_run_inv; [vm_compute; reflexivity|].
  repeat constructor; vm_compute; reflexivity.
Qed.

(* the next requests of that session: starts at root again, client flag 8 kept *)
Example C20_restart_nonvacuous :
  let p3 := fst (request_persisted 100 rs_graceful cfg_graceful p_graceful (s2b "1")) in
  s_code (store_st p3) = [] /\ s_path (store_st p3) = [] /\ getf (store_st p3) 8 = true
  /\ wf_symb (cfg_root cfg_graceful) = true /\ valid_sym_b (cfg_root cfg_graceful) = true
  /\ (exists rest, rs_code rs_graceful (cfg_root cfg_graceful) = Ok (encode IHalt ++ rest) /\ rest <> [])
  /\ (let '(p4, r4) := request_persisted 100 rs_graceful cfg_graceful p3 [] in
      r4 = mkResp true SOk (s2b "root") FOk /\ s_path (store_st p4) = [s2b "root"]
      /\ c_frames (store_ca p4) = [[]; []] /\ getf (store_st p4) 8 = true).
Proof.
  vm_compute. repeat split; try reflexivity. eexists. split; [reflexivity|discriminate].
Qed.

(* corpus "abnormal-end", second request ("1" at root): foo's code ends after LOAD, READIN clear *)
Example C20_abnormal_nonvacuous :
  c_first cfg_term = None /\ pw_store p_abn = Some (a_st, a_ca)
  /\ accepted_b (s2b "1") = true /\ reset_req cfg_term (s2b "1") = false /\ stale a_st = false
  /\ snd a_run = SOk /\ getf (v_st (fst (fst a_run))) FLAG_TERMINATE = true
  /\ getf (v_st (fst (fst a_run))) FLAG_WAIT = false
  /\ (let '(p2, r2) := request_persisted 100 rs_abn cfg_term p_abn (s2b "1") in
      r2 = mkResp false SOk (s2b "foo") FOk
      /\ getf (store_st p2) FLAG_TERMINATE = true /\ getf (store_st p2) FLAG_DIRTY = false
      /\ s_path (store_st p2) = [s2b "root"; s2b "foo"]
      /\ snd (requests 100 rs_abn cfg_term p2 [[]; s2b "1"; s2b "0"])
         = [mkResp false SOk [] FOk; mkResp false SOk [] FOk; mkResp false SOk [] FOk]
      /\ pw_log (fst (requests 100 rs_abn cfg_term p2 [[]; s2b "1"; s2b "0"])) = pw_log p2).
Proof. vm_compute. repeat split; reflexivity. Qed.

(* the exit-size check: same session, OutputSize 8 < len "the end" + len " bye" *)
Example C20_exit_overflow_nonvacuous :
  let '(p3, r3) := request_persisted 100 rs_graceful cfg_graceful_small p_graceful (s2b "1") in
  r3 = mkResp false SOk [] (FErr EGen) /\ s_path (store_st p3) = [] /\ c_frames (store_ca p3) = [[]].
Proof. vm_compute. repeat split; reflexivity. Qed.

Print Assumptions C20_end_of_run_cases.
Print Assumptions C20_graceful_exec_inner.
Print Assumptions C20_graceful_flush.
Print Assumptions C20_graceful_end.
Print Assumptions C20_graceful_end_state.
Print Assumptions C20_graceful_end_code.
Print Assumptions C20_graceful_end_cache.
Print Assumptions C20_restart_at_entry.
Print Assumptions C20_restart_runs_root.
Print Assumptions C20_restart_halting_root.
Print Assumptions C20_abnormal_end_sets_terminate.
Print Assumptions C20_abnormal_end_request.
Print Assumptions C20_abnormal_end_then_blocked.
Print Assumptions C20_blocked_until_cleared.
Print Assumptions C20_terminated_refuted_first.
Print Assumptions C20_history_store_invariant.
Print Assumptions C20_graceful_end_history_partial.
Print Assumptions C20_graceful_end_history_refuted_anon.
Print Assumptions C20_graceful_end_long.
Print Assumptions C20_graceful_history_nonvacuous.
Print Assumptions C20_graceful_long_nonvacuous.
Print Assumptions C20_browse_only_after_wrap.
Print Assumptions C20_sizer_error_before_menu.
Print Assumptions C20_trailing_empty_row_nonvacuous.
Print Assumptions C20_graceful_nonvacuous.
Print Assumptions C20_graceful_inv_nonvacuous.
Print Assumptions C20_restart_nonvacuous.
Print Assumptions C20_abnormal_nonvacuous.
Print Assumptions C20_exit_overflow_nonvacuous.
