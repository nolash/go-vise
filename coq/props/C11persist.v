(* C11 (persist.Persister level) — sessions never see each other's data through the persister.

   The model is persist/persist.go at go-vise a037abb ("a reused persister leaked the previous session into
   the next one"): Load decodes the record into NEW objects and copies them over the ones the persister points to
   (decoding INTO those would reuse their non-nil maps: fxamacker/cbor merges into them and decodes Cache.Cache
   element-wise into the maps left in its backing array), and Save's flush installs a new cache and an empty
   clone of the state (Memory.Reset(); Memory.Pop() would leave the Sizes entries of deeper frames, LastValue, the
   cut-off frame maps and the invalid mark behind).  The histories on which these two differences show are the
   examples C11_ex_flush_leftovers_gone, C11_ex_decode_into_gone, C11_ex_marks_gone.

   Full statement one would want: for every sequence of WithContent / Save / Load on a Persister and every key,
   after Load(k) the persister holds exactly what the last Save(k) stored and nothing of any other key, and what
   is stored under k contains nothing of any other session.

   Proved, for every persister content, state, cache, key, store content and flush mode:
   * C11_persister_reuse_clean / C11_persister_roundtrip — a Load that FINDS a record gives exactly that record:
     exported fields, no input, no invalid mark — whatever the persister held before (no hypothesis on the
     leftovers);
   * C11_save_stores_only_its_key, C11_flush_leaves_empty — Save writes the current content under its own storage
     key only; after a flushing Save the persister holds a new state (same flag count) and a new cache (same
     capacity) and nothing else;
   * C11_fresh_request, C11_fresh_persisters_isolated — a new persister per request (the deployment of the engine
     harness and of C07's EngineModel.request_persisted): what is stored for a session after any sequence of
     requests is what is stored when its requests are served alone;
   * C11_reused_persister_as_fresh / _isolated — ONE persister kept across all requests, in any flush mode and
     whatever it holds at the start, leaves the same store — PROVIDED every request saves what its caller computed
     from the LOADED session only (`reused_request`).

   What is false (K-C11-6, C11_persister_reuse_refuted_nosave): a Load that finds NO record
   leaves the persister as it is.  If no Save took the previous session away (a request that ended without a
   saving Finish; or no flush mode), the persister still holds that session, GetState()/GetMemory() hand it to the
   next caller — the engine adopts it (preparePersist) — and it is saved under the other key. *)
From Vise Require Import Bytes Errors Consts CacheModel StateModel DbKey PersistModel PersistProofs.
Local Open Scope N_scope.

Theorem C11_persister_reuse_clean : forall p key r,
  alookup (rec_key (p_sess p) key) (p_store p) = Some r ->
  snd (p_load p key) = POk
  /\ p_state (fst (p_load p key)) = Some (mkPst (set_input_raw (fst r) None) false)
  /\ p_mem (fst (p_load p key)) = Some (mkPmem (snd r) [] false)
  /\ p_store (fst (p_load p key)) = p_store p.
Proof. intros p key r H. rewrite (p_load_found p key r H). cbn. auto. Qed.

Theorem C11_load_not_found_keeps_everything : forall p key,
  alookup (rec_key (p_sess p) key) (p_store p) = None -> p_load p key = (p, PNotFound).
Proof. intros p key H. unfold p_load. rewrite H. reflexivity. Qed.

Theorem C11_save_stores_only_its_key : forall p key s m,
  p_state p = Some s -> p_mem p = Some m -> ps_invalid s = false -> pm_invalid m = false ->
  snd (p_save p key) = POk
  /\ alookup (rec_key (p_sess p) key) (p_store (fst (p_save p key))) = Some (ser (ps_st s, pm_ca m))
  /\ (forall sk, sk <> rec_key (p_sess p) key -> alookup sk (p_store (fst (p_save p key))) = alookup sk (p_store p)).
Proof.
  intros p key s m Hs Hm Hi1 Hi2. unfold p_save. rewrite Hs, Hm, Hi1, Hi2. cbn [orb].
  destruct (p_flush p); cbn [fst snd p_store]; (split; [reflexivity|]); (split; [apply BytesProofs.alookup_aset_same|]);
    intros sk Hne; apply BytesProofs.alookup_aset_other; exact Hne.
Qed.

Theorem C11_persister_roundtrip : forall p key s m q key',
  p_state p = Some s -> p_mem p = Some m -> ps_invalid s = false -> pm_invalid m = false ->
  alookup (rec_key (p_sess q) key') (p_store q) = alookup (rec_key (p_sess p) key) (p_store (fst (p_save p key))) ->
  snd (p_load q key') = POk
  /\ p_state (fst (p_load q key')) = Some (mkPst (set_input_raw (ps_st s) None) false)
  /\ p_mem (fst (p_load q key')) = Some (mkPmem (pm_ca m) [] false).
Proof.
  intros p key s m q key' Hs Hm Hi1 Hi2 Hq.
  destruct (C11_save_stores_only_its_key p key s m Hs Hm Hi1 Hi2) as (_ & Hst & _). rewrite Hst in Hq.
  destruct (C11_persister_reuse_clean q key' _ Hq) as (L1 & L2 & L3 & _).
  split; [exact L1|]. rewrite L2, L3. cbn [ser fst snd]. split; [|reflexivity].
  destruct (ps_st s); reflexivity.
Qed.

Theorem C11_flush_leaves_empty : forall p key s m,
  p_state p = Some s -> p_mem p = Some m -> ps_invalid s = false -> pm_invalid m = false -> p_flush p = true ->
  p_state (fst (p_save p key)) = Some (mkPst (clone_empty (ps_st s)) false)
  /\ p_mem (fst (p_save p key)) = Some (mkPmem (new_cache (c_size (pm_ca m))) [] false)
  /\ leftover_clean (fst (p_save p key)) = true.
Proof.
  intros p key s m Hs Hm Hi1 Hi2 Hf. unfold p_save. rewrite Hs, Hm, Hi1, Hi2, Hf. cbn [orb fst p_state p_mem flush_mem].
  split; [reflexivity|]. split; [reflexivity|]. reflexivity.
Qed.

Theorem C11_fresh_request : forall st0 ca0 f flush key store,
  fresh_request st0 ca0 f flush key store =
  aset (rec_key [] key) (ser (f (option_map loaded_of (alookup (rec_key [] key) store)))) store.
Proof. exact fresh_request_spec. Qed.

Theorem C11_fresh_persisters_isolated : forall reqs store k,
  alookup (rec_key [] k) (serve_fresh store reqs)
  = alookup (rec_key [] k) (serve_fresh store (filter (fun q => bytes_eqb (fq_key q) k) reqs)).
Proof. intros. now apply serve_fresh_isolated. Qed.

Theorem C11_reused_persister_as_fresh : forall reqs p,
  p_sess p = [] -> p_store (serve_reused p reqs) = serve_fresh (p_store p) reqs.
Proof. exact serve_reused_as_fresh. Qed.

Theorem C11_reused_persister_isolated : forall reqs p k,
  p_sess p = [] ->
  alookup (rec_key [] k) (p_store (serve_reused p reqs))
  = alookup (rec_key [] k) (serve_fresh (p_store p) (filter (fun q => bytes_eqb (fq_key q) k) reqs)).
Proof. intros reqs p k Hs. rewrite serve_reused_as_fresh by exact Hs. now apply serve_fresh_isolated. Qed.

(* K-C11-6 (reproduced on the real Persister: corpus case 3 of the driver "persist") *)
Theorem C11_persister_reuse_refuted_nosave : forall flush : bool,
  snd (p_load (run_ops ((if flush then [PWithFlush] else @nil pop) ++ [PWithContent wA_st wA_mem; PSave k1; PLoad k1])) k3) = PNotFound
  /\ leftover_clean (run_ops ((if flush then [PWithFlush] else @nil pop) ++ [PWithContent wA_st wA_mem; PSave k1; PLoad k1; PLoad k3])) = false
  /\ alookup (rec_key [] k3) (p_store (run_ops (w_ops_nosave flush))) = Some (ser (ps_st wA_st, pm_ca wA_mem))
  /\ alookup (rec_key [] k3) (p_store (run_ops (w_ops_nosave flush))) = alookup (rec_key [] k1) (p_store (run_ops (w_ops_nosave flush))).
Proof. intros [|]; vm_compute; auto. Qed.

(* the flush (a flush by Reset and Pop would leave Sizes {aa:0} and LastValue "secret of A", and a session without
   a record would be saved with them): the persister is clean after it and k2's first record is an empty session *)
Example C11_ex_flush_leftovers_gone :
  leftover_clean (run_ops [PWithFlush; PWithContent wA_st wA_mem; PSave k1]) = true
  /\ snd (p_load (run_ops [PWithFlush; PWithContent wA_st wA_mem; PSave k1]) k2) = PNotFound
  /\ alookup (rec_key [] k2) (p_store (run_ops w_ops1)) = Some (new_state 3, new_cache 0).
Proof. vm_compute. auto. Qed.

(* the Load (decoding k2's record INTO the frame maps a flush had cut off would leave A's value in frame 1, and a Pop
   would wrap the use counter to 4294967285): the persister holds exactly k2's record *)
Example C11_ex_decode_into_gone :
  let p := run_ops w_ops2 in
  option_map ps_st (p_state p) = Some (ps_st wB_st) /\ option_map pm_ca (p_mem p) = Some (pm_ca wB_mem)
  /\ option_map (fun m => alookup [97; 97] (nth 1 (c_frames (pm_ca m)) [])) (p_mem p) = Some None
  /\ option_map (fun m => match cache_pop (pm_ca m) with Ok c => c_use c | _ => 1 end) (p_mem p) = Some 0.
Proof. vm_compute. auto. Qed.

(* the unexported marks (input, invalid) are replaced by a Load as well *)
Example C11_ex_marks_gone :
  option_map (fun s => s_input (ps_st s)) (p_state (run_ops [PWithContent wB_st wB_mem; PSave k2; PWithContent wA_st wA_mem; PLoad k2])) = Some None
  /\ snd (p_step (run_ops [PWithContent wA_st wA_mem; PSave k1; PInvalidateMemory; PLoad k1]) (PSave k1)) = POk.
Proof. vm_compute. auto. Qed.

(* non-vacuity of the reuse theorem: three requests for two sessions on one kept persister *)
Example C11_ex_reused :
  let bump := fun o : option (state * cache) =>
                match o with Some (st, ca) => (set_path_idx st (s_path st ++ [[120]]) 0, cache_push ca) | None => (ps_st wB_st, pm_ca wB_mem) end in
  let reqs := [mkFreq k1 (new_state 3) (new_cache 0) bump true; mkFreq k2 (new_state 3) (new_cache 0) bump true;
               mkFreq k1 (new_state 3) (new_cache 0) bump true] in
  option_map (fun r => List.length (s_path (fst r))) (alookup (rec_key [] k1) (p_store (serve_reused (with_flush (new_persister [])) reqs))) = Some 3%nat
  /\ option_map (fun r => List.length (s_path (fst r))) (alookup (rec_key [] k2) (p_store (serve_reused (with_flush (new_persister [])) reqs))) = Some 2%nat.
Proof. vm_compute. auto. Qed.

Print Assumptions C11_persister_reuse_clean.
Print Assumptions C11_persister_roundtrip.
Print Assumptions C11_load_not_found_keeps_everything.
Print Assumptions C11_save_stores_only_its_key.
Print Assumptions C11_flush_leaves_empty.
Print Assumptions C11_fresh_request.
Print Assumptions C11_fresh_persisters_isolated.
Print Assumptions C11_reused_persister_as_fresh.
Print Assumptions C11_reused_persister_isolated.
Print Assumptions C11_persister_reuse_refuted_nosave.
