(* C08, last clause — "... and the session can still be saved, loaded and CONTINUED"
   (lemmas in proofs/ContinueProofs.v; safety and consistency are in props/C08safe.v).

   FULL STATEMENT: persisted operation, no entry function.  For every application a and
   configuration c with wf_app_b a c, every history h of a new session, if the stored session
   afterwards has no pending code and TERMINATE clear (the previous request failed, or the session
   is new), then every ACCEPTED input (not refused_b: at most 255 bytes, empty or matching the
   input pattern) makes the next request restart the session at the entry node: init unwinds the
   stale position, injects MOVE <root>, the move succeeds on the empty stack and the first code
   fetched is the root's — so the request's events start with
       EvInstr MOVE, EvMove 0 root root, EvCode root          (restart_events, newest first)
   which is what corr/EngineMon.v c08_continuable observes as "some code was fetched".

   Proved for every fuel: with fuel S f the events are logged and the request does not panic; with
   fuel 0 the request answers SFuel.  Guards (decidable): wf_app_b a c (the root node exists),
   cfg_okb c (Root encodable), c_first c = None, root_ok c := valid_sym_b (cfg_root c) (Root is a node
   name of the VM's symbol pattern; C08_continuable_needs_root_ok shows the guard is needed: a
   one-letter Root is accepted by wf_app_b and never reached).  No CROAK / value-size guard.
   C08_request_continuable is the stronger per-request form: it holds for ANY stored session without
   pending code and with TERMINATE clear (reachable or not, whatever its stack and cache are).
   NOT claimed: where the session stands after the request (the root's own code runs after the move
   and may do anything, including an ascent out of the entry node, finding K-C04-up-at-entry). *)
From Vise Require Import Bytes Errors Consts EngConsts Codec CacheModel StateModel NavModel NavSpec RenderModel
  VmModel EngineModel CorrBase EngineCorr EngineMon SafetyProofs ContinueProofs.
Local Open Scope N_scope.

Theorem C08_request_continuable : forall a c f p st ca i,
  c_first c = None -> cfg_okb c = true -> root_ok c = true -> has_node a (cfg_root c) = true ->
  pw_store p = Some (st, ca) -> s_code st = [] -> getf st FLAG_TERMINATE = false -> refused_b i = false ->
  exists l, pw_log (fst (request_persisted (S f) (app_rsrc a) c p i)) = l ++ restart_events c ++ pw_log p.
Proof. exact continuable_request. Qed.

Theorem C08_request_continuable_no_fuel : forall a c p st ca i,
  c_first c = None -> pw_store p = Some (st, ca) -> s_code st = [] -> refused_b i = false ->
  r_exec (snd (request_persisted O (app_rsrc a) c p i)) = SFuel.
Proof. exact continuable_no_fuel. Qed.

Theorem C08_session_continuable : forall a c h f i st ca,
  wf_app_b a c = true -> cfg_okb c = true -> c_first c = None -> root_ok c = true ->
  pw_store (fst (hist_pers (app_rsrc a) c (mkPw None [] [] false) h)) = Some (st, ca) ->
  s_code st = [] -> getf st FLAG_TERMINATE = false -> refused_b i = false ->
  (exists l, pw_log (fst (request_persisted (S f) (app_rsrc a) c (fst (hist_pers (app_rsrc a) c (mkPw None [] [] false) h)) i))
             = l ++ restart_events c ++ pw_log (fst (hist_pers (app_rsrc a) c (mkPw None [] [] false) h)))
  /\ resp_no_panic (snd (request_persisted (S f) (app_rsrc a) c (fst (hist_pers (app_rsrc a) c (mkPw None [] [] false) h)) i))
  /\ r_exec (snd (request_persisted O (app_rsrc a) c (fst (hist_pers (app_rsrc a) c (mkPw None [] [] false) h)) i)) = SFuel.
Proof.
  intros a c h f i st ca.
  intros Hwf Hc Hf Hr Hst Hcode Ht Hi. split; [|split].
  - eapply continuable_request; try eassumption. apply (wf_app_b_parts a c Hwf).
  - pose proof (cfg_okb_sound c Hc) as Hc'.
    destruct (hist_pers_safe false (app_rsrc a) c (wf_app_rs_wf a c Hwf) Hc' Hf h (mkPw None [] [] false) I) as [_ HP].
    apply (request_persisted_safe false (S f) _ c _ i (wf_app_rs_wf a c Hwf) Hc' HP), FirstOk_none, Hf.
  - eapply continuable_no_fuel; eassumption.
Qed.

Theorem C08_continuable_needs_root_ok :
  wf_app_b badroot_app badroot_cfg = true /\ cfg_okb badroot_cfg = true /\ root_ok badroot_cfg = false
  /\ pw_log (fst (hist_pers (app_rsrc badroot_app) badroot_cfg (mkPw None [] [] false) [(100%nat, []); (100%nat, [])]))
     = [EvInstr op_MOVE; EvInstr op_MOVE].
Proof. vm_compute. repeat split. Qed.

(* non-vacuity: the corpus application restart-after-error.  Request 1 fails at the entry node and
   leaves exactly the premises (stored at [root], no pending code, TERMINATE clear); request 2 is the
   theorem's request: it restarts and shows "root ok"; request 3 moves on to foo *)
Example C08_continuable_restart_after_error :
  wf_app_b rae_app rae_cfg = true /\ cfg_okb rae_cfg = true /\ c_first rae_cfg = None /\ root_ok rae_cfg = true
  /\ match pw_store rae_after1 with
     | Some (st, ca) => s_code st = [] /\ s_path st = [s2b "root"] /\ getf st FLAG_TERMINATE = false
     | None => False
     end
  /\ refused_b (s2b "1") = false
  /\ map resp_view (snd (hist_pers (app_rsrc rae_app) rae_cfg (mkPw None [] [] false)
                           [(100%nat, []); (100%nat, s2b "1"); (100%nat, s2b "1")]))
     = [(false, SErr EGen None, [], FErr EFlushNoExec); (true, SOk, s2b "root ok", FOk); (true, SOk, s2b "foo", FOk)]
  /\ pw_log (fst (request_persisted 100 (app_rsrc rae_app) rae_cfg rae_after1 (s2b "1")))
     = [EvRender (s2b "root") 0 None; EvInstr op_HALT; EvInstr op_MAP; EvFunc (s2b "aa") None (Some (s2b "1")); EvInstr op_LOAD]
       ++ restart_events rae_cfg ++ pw_log rae_after1.
Proof. exact rae_runs. Qed.

Print Assumptions C08_request_continuable.
Print Assumptions C08_request_continuable_no_fuel.
Print Assumptions C08_session_continuable.
Print Assumptions C08_continuable_needs_root_ok.
