(* C09 — The symbol cache enforces its limits and accounts for every byte. *)
From Coq Require Import Lia.
From Vise Require Import Bytes Errors CacheModel CacheProofs.
Local Open Scope N_scope.

(* Reachable states: any sequence of Add/Update/Get/Push/Pop/Reset/Last from a fresh cache of
   any capacity (0 = unlimited).  op_bounded excludes only the uint32 wrap of the usage counter
   (value length + capacity >= 2^32, i.e. more than 4 GiB). *)
Theorem C09_every_reachable_state : forall cap ops,
  cap < 4294967296 -> Forall (op_bounded cap) ops ->
  let c := cache_run (new_cache cap) ops in
  (* the reported used size is the sum of the stored values' lengths (as a uint32) *)
  c_use c = w32 (total_bytes (c_frames c))
  (* the total never exceeds the configured capacity *)
  /\ (0 < cap -> total_bytes (c_frames c) <= cap /\ c_use c = total_bytes (c_frames c))
  (* a symbol is defined in at most one scope *)
  /\ NoDup (all_keys (c_frames c))
  (* every stored value has a recorded limit and respects it *)
  /\ (forall f k v, In f (c_frames c) -> alookup k f = Some v ->
        exists l, alookup k (c_sizes c) = Some l /\ (0 < l -> len v <= l)).
Proof.
  intros cap ops Hcap Hops c.
  destruct (cache_run_from ops (new_cache cap) (new_cache_inv cap Hcap) Hops) as [HI Hsz].
  fold c in HI, Hsz. cbn in Hsz. pose proof (inv_use c HI) as Huse. pose proof (inv_cap c HI) as Hc. rewrite Hsz in Hc.
  split; [exact Huse|]. split; [|split; [exact (inv_scope c HI)|exact (inv_limits c HI)]].
  intros Hp. specialize (Hc Hp). split; [exact Hc|]. rewrite Huse. apply N.mod_small. lia.
Qed.

(* a rejected operation leaves the cache unchanged — including Update, which blanks the old
   value and releases its bytes before the capacity check and must put both back *)
Theorem C09_rejected_is_noop : forall c o e,
  CInv c -> op_bounded (c_size c) o -> snd (cache_step c o) = RErr e -> fst (cache_step c o) = c.
Proof. exact cache_rejected_noop. Qed.

(* leaving a scope releases exactly the bytes of the symbols it held, and those symbols
   (and their size entries) are gone *)
Theorem C09_pop_releases_exactly : forall c c',
  CInv c -> cache_pop c = Ok c' ->
  exists pre top, c_frames c = pre ++ [top]
    /\ c_frames c' = (match pre with [] => [[]] | _ => pre end)
    /\ total_bytes (c_frames c') + frame_bytes top = total_bytes (c_frames c)
    /\ (forall k, In k (map fst top) -> ~ In k (all_keys (c_frames c')) /\ alookup k (c_sizes c') = None).
Proof. (* the part of cache_pop_spec after the invariant and the capacity; keep1 pre is the match *)
  exact (fun c c' Hi Hp => proj2 (proj2 (cache_pop_spec c c' Hi Hp))).
Qed.

(* over-limit values are rejected, for every length (no 16-bit truncation) *)
Theorem C09_over_limit_rejected : forall c k v l,
  0 < l -> l < len v -> cache_add c k v l = Err EGen.
Proof.
  intros c k v l H0 H1. unfold cache_add.
  destruct (N.ltb_spec 0 l); [|lia]. destruct (N.ltb_spec l (len v)); [|lia]. reflexivity.
Qed.

Theorem C09_no_panic : forall c o, CInv c -> snd (cache_step c o) <> RPanic.
Proof. exact cache_step_no_panic. Qed.

(* read-your-write: after a successful Add the symbol reads back as exactly the value added, it
   was not readable before (Add never overwrites), and every other symbol reads as it did *)
Theorem C09_add_then_get : forall c k v l c',
  CInv c -> cache_add c k v l = Ok c' ->
  cache_get c' k = Ok v
  /\ (forall k2, k2 <> k -> cache_get c' k2 = cache_get c k2)
  /\ cache_get c k = Err EGen.
Proof. exact cache_add_get_lemma. Qed.

(* non-vacuity: a history with a rejected over-limit add (65539 bytes under limit 10), a
   capacity rejection, a rejected update (rolled back) and a pop reaches a state with two live symbols *)
Example C09_nonvacuous :
  let ops := [OAdd (s2b "foo") (s2b "abc") 10; OPush; OAdd (s2b "bar") (rep 120 65539) 10;
              OAdd (s2b "bar") (s2b "0123456") 0; OAdd (s2b "baz") (s2b "x") 0;
              OUpdate (s2b "foo") (s2b "abcd"); OPop; OAdd (s2b "q") (s2b "zz") 3] in
  let c := cache_run (new_cache 10) ops in
  forallb (fun o => match o with OAdd _ v _ | OUpdate _ v => len v + 10 <? 4294967296 | _ => true end) ops = true
  /\ c_use c = 5 /\ c_frames c = [[(s2b "foo", s2b "abc"); (s2b "q", s2b "zz")]].
Proof.
  (* the 65539 bytes stay abstract: only their length matters, and evaluating it is slow to check *)
  pose proof (BytesProofs.len_rep 120 65539) as Hlen.
  generalize dependent (rep 120 65539). intros big Hlen ops c. subst c ops.
  assert (Hrej : forall c0, cache_step c0 (OAdd (s2b "bar") big 10) = (c0, RErr EGen)).
  { intros c0. cbn [cache_step]. rewrite C09_over_limit_rejected by (rewrite ?Hlen; reflexivity). reflexivity. }
  unfold cache_run. cbn [fold_left forallb]. rewrite Hrej, Hlen. vm_compute. auto.
Qed.

Print Assumptions C09_every_reachable_state.
Print Assumptions C09_rejected_is_noop.
Print Assumptions C09_pop_releases_exactly.
Print Assumptions C09_over_limit_rejected.
Print Assumptions C09_no_panic.
Print Assumptions C09_add_then_get.
