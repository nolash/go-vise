(* C18 — kept-state serving mode (a new engine object per request around the SAME State and Cache
   objects: engine.NewEngine(cfg, rs).WithState(st).WithMemory(ca), no persister).

   Full statement: a language the session has selected survives the change of engine object: the
   engine built for the next request holds the state unchanged (the configured language is applied,
   together with FLAG_LANG, only while the state has NO language:
   C18_kept_state_configured_only_without_language, C18_kept_engine_keeps_selected_language).  The
   request is by definition (EngineKeptCorr.request_kept; C18_request_kept_is_request_long only
   unfolds it on a store that holds a pair) the long-lived driver's request on kept_engine, with what
   that engine holds kept afterwards; with a selected language it is therefore that request on
   new_engine around the kept pair (C18_request_kept_starts_like_persisted) — the engine every C18
   theorem of props/C18.v about Exec, runFirst and Flush is stated for.  Tied to the code by the driver enginekept (corr/EngineKeptCorr.v); the
   seeded change C18-m6 (ensureState applying the configured language unconditionally) breaks
   C18_kept_engine_keeps_selected_language's counterpart in the code and is caught there. *)
From Coq Require Import List NArith Bool.
From Vise Require Import Bytes Errors Consts Codec CacheModel StateModel NavModel RenderModel VmModel EngineModel CorrBase EngineCorr EngineMon EngineKeptCorr.
Import ListNotations.
Local Open Scope N_scope.

Theorem C18_kept_state_configured_only_without_language :
  (forall c st l, s_lang st = Some l -> kept_state c st = st)
  /\ (forall c st, c_lang c = [] -> kept_state c st = st)
  /\ (forall c st x r, c_lang c = x :: r -> s_lang st = None ->
        kept_state c st = setf (st_set_language lang_lookup st (c_lang c)) FLAG_LANG).
Proof.
  unfold kept_state. repeat split.
  - intros c st l H. rewrite H. destruct (c_lang c); reflexivity.
  - intros c st H. rewrite H. reflexivity.
  - intros c st x r Hc Hl. rewrite Hc, Hl. reflexivity.
Qed.
Print Assumptions C18_kept_state_configured_only_without_language.

Theorem C18_kept_engine_keeps_selected_language : forall c st ca w lg l, s_lang st = Some l ->
  s_lang (v_st (e_v (kept_engine c (st, ca) w lg))) = Some l
  /\ kept_engine c (st, ca) w lg = new_engine c (Some (st, ca)) w lg.
Proof.
  intros c st ca w lg l H. unfold kept_engine. cbn [fst snd].
  rewrite (proj1 C18_kept_state_configured_only_without_language c st l H).
  split; [unfold new_engine; cbn; exact H | reflexivity].
Qed.
Print Assumptions C18_kept_engine_keeps_selected_language.

Theorem C18_request_kept_is_request_long : forall fuel rs c st ca w lg tn input,
  request_kept fuel rs c (mkPw (Some (st, ca)) w lg tn) input
  = let '(e, r) := request_long fuel rs c (kept_engine c (st, ca) w lg) input in
    (mkPw (Some (snap_of (v_st (e_v e)) (v_ca (e_v e)))) (v_w (e_v e)) (v_log (e_v e)) (tn || v_taint (e_v e)), r).
Proof. intros. unfold request_kept. cbn [pw_store pw_w pw_log pw_taint]. reflexivity. Qed.
Print Assumptions C18_request_kept_is_request_long.

Theorem C18_request_kept_starts_like_persisted : forall fuel rs c st ca w lg tn input l,
  s_lang st = Some l ->
  fst (request_kept fuel rs c (mkPw (Some (st, ca)) w lg tn) input)
  = let '(e, r) := request_long fuel rs c (new_engine c (Some (st, ca)) w lg) input in
    mkPw (Some (snap_of (v_st (e_v e)) (v_ca (e_v e)))) (v_w (e_v e)) (v_log (e_v e)) (tn || v_taint (e_v e)).
Proof.
  intros fuel rs c st ca w lg tn input l H. rewrite C18_request_kept_is_request_long.
  destruct (C18_kept_engine_keeps_selected_language c st ca w lg l H) as [_ ->].
  destruct (request_long fuel rs c (new_engine c (Some (st, ca)) w lg) input) as [e r]. reflexivity.
Qed.
Print Assumptions C18_request_kept_starts_like_persisted.

(* non-vacuity: configured language "nor", a function switches to "swh": the next request's engine
   still has "swh" (the corpus case kept-language-switch) *)
Example C18_kept_nonvacuous :
  let st := st_set_language lang_lookup (new_state 1) (s2b "swh") in
  s_lang st = Some (s2b "swh")
  /\ s_lang (v_st (e_v (kept_engine (mkCfg 0 [] 1 0 (s2b "nor") [] false None) (st, new_cache 0) [] []))) = Some (s2b "swh").
Proof. vm_compute. split; reflexivity. Qed.
