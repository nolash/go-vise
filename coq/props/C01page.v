(* C01 (page level) — every rendered page fits the configured output size; an Ok page is the
   whole instantiated template followed by the whole menu.  The engine-level theorems
   (Vm.Render, Flush) are stated in props/C01.v on top of these. *)
From Coq Require Import Lia.
From Vise Require Import Bytes Errors CacheModel RenderModel RenderProofs.
Local Open Scope N_scope.

(* for all templates, value maps, menus, browse configurations, error prefixes, cursors left in
   the sizer and indices: an Ok page is at most outputSize bytes long.  Nothing is appended
   after the final Sizer.Check.  (len out < 2^32: Check compares uint32(len(s)).) *)
Theorem C01_render_fits : forall c gt gm pg sym idx out pg' z,
  p_sizer pg = Some z -> 0 < z_out z -> len out < 4294967296 ->
  page_render c gt gm pg sym idx = (Ok out, pg') -> len out <= z_out z.
Proof.
  intros c gt gm pg sym idx out pg' z Hz Hout Hlen Hr. rewrite <- (N.mod_small (len out) 4294967296) by exact Hlen.
  refine (page_render_fits32 _ Hout Hr). unfold page_out. rewrite Hz. reflexivity.
Qed.

(* no silent truncation — PARTIAL.  An Ok output is exactly
     instantiate(error prefix + template + extra, values of that page) ++ ["\n" ++ menu text]
   where every symbol that is not a sink (not zero-size, not the sizer's sink, not the
   internal keys "" and "_menu") is instantiated with its FULL mapped value, and the menu text
   is the complete output of Menu.Render for the menu as prepare left it.  Not stated here:
   that the sink symbol's value is exactly the page's rows (that is C02_pages_partition_partial
   about joinSink/GetAt; tying the sizer's sink name to the zero-size symbol of the map needs
   the invariant "every Map happened with the sizer attached", which the VM maintains). *)
Theorem C01_no_silent_truncation_partial : forall c gt gm pg sym idx out pg',
  page_render c gt gm pg sym idx = (Ok out, pg') ->
  exists src items vals' body mtext vals pg1,
    gt sym = Ok src
    /\ tpl_parse (tpl_source (p_err pg) (p_extra pg') src) = Some items
    /\ tpl_exec items vals' = Ok body
    /\ out = body ++ opt_menu mtext
    /\ (forall k, k <> [] -> k <> menu_sink_key -> cache_reserved c k <> Ok 0 ->
          (forall z', p_sizer pg' = Some z' -> k <> z_sink z') ->
          alookup k vals' = alookup k (p_map pg))
    /\ page_prepare c gt gm pg sym idx = (Ok vals, pg1)
    /\ match p_menu pg1 with
       | Some m1 => fst (menu_render_st gm m1 idx) = Ok mtext
       | None => mtext = []
       end.
Proof. exact page_render_shape. Qed.

(* the combined statement, on a page with one symbol sink under the C02 guards (see
   C02_offered_page_renders_page_partial): the n pages are a partition of the sink rows into
   contiguous blocks, and page i is EXACTLY  xa ++ (the whole rows of block i, LF-joined) ++ xb ++
   ["\n" ++ all ordinary menu lines ++ the browse lines of page i],  where xa / xb are the template
   text before / after the sink instantiated with the FULL mapped values — nothing is cut. *)
Theorem C01_page_content_exact_partial : forall c gt gm pg sym z0 m k v src a b s pg3,
  p_sizer pg = Some z0 -> z_crsrs z0 = [] -> z_sink z0 = k -> 0 < z_out z0 -> z_out z0 < 4294967296 ->
  p_menu pg = Some m -> m_sink m = false -> m_keep m = true -> m_page_count m = 0 ->
  b_next_avail (m_browse m) = true -> b_prev_avail (m_browse m) = true ->
  m_sep m = default_sep ->
  title_for gm m (b_next_title (m_browse m)) = Ok (b_next_title (m_browse m)) ->
  title_for gm m (b_prev_title (m_browse m)) = Ok (b_prev_title (m_browse m)) ->
  k <> [] -> single_sink c k (p_map pg) -> alookup k (p_map pg) = Some v ->
  (forall x, is_panic (gt x) = false) ->
  gt sym = Ok src -> tpl_parse (tpl_source (p_err pg) (p_extra pg) src) = Some (a ++ TVar k :: b) ->
  tmentions k a = false -> tmentions k b = false ->
  page_render_inner gt gm (page_set_sizer pg (Some (sizer_add_cursor z0 0))) sym (blank k (p_map pg)) 0 = (Ok s, pg3) ->
  len s < 4294967296 ->
  rows_ok (split_on nl v) = true -> rows_size (split_on nl v) < 4294967296 -> len (split_on nl v) < 65536 ->
  budget_ok (split_on nl v) (z_out z0 - len s) (browse_sizes (m_browse m)) = true ->
  exists n r cs (pages : list (list bytes)) xa xb lines,
    join_sink (split_on nl v) (z_out z0 - len s) (browse_sizes (m_browse m)) [0] = (Ok (r, n), cs)
    /\ List.concat pages = split_on nl v /\ len pages = n /\ 0 < n
    /\ (forall w, (forall nm, nm <> k -> alookup nm w = alookup nm (p_map pg)) ->
          tpl_exec a w = Ok xa /\ tpl_exec b w = Ok xb)
    /\ menu_lines (title_for gm m) (m_sep m) (m_items m) = Some lines
    /\ (forall i p, nth_error pages i = Some p ->
          exists pg', page_render c gt gm pg sym (N.of_nat i)
            = (Ok ((xa ++ join_with [nl] p ++ xb)
                   ++ opt_menu (join_with [nl] (lines ++ browse_lines (m_browse m) default_sep
                                                           (N.of_nat i + 1 <? n) (0 <? N.of_nat i)))), pg'))
    /\ (forall i, n <= i -> exists e, fst (page_render c gt gm pg sym i) = Err e).
Proof. intros. eapply page_render_exact; eassumption. Qed.

(* non-vacuity: the K-C02-budget page at size 13 renders page 0 in 11 bytes, and at size 7 the
   same page (8 bytes of template and rows) is refused rather than cut *)
Example C01page_nonvacuous :
  fst (page_render wit_budget_cache wit_budget_tpl (fun k => Ok k) wit_budget_page (s2b "node") 0)
    = Ok (s2b "T" ++ [nl] ++ s2b "a" ++ [nl] ++ s2b "11:next")
  /\ is_err (fst (page_render wit_budget_cache wit_budget_tpl (fun k => Ok k)
                    (wit_budget_page_at 7) (s2b "node") 0)) = true.
Proof. vm_compute. auto. Qed.

Print Assumptions C01_render_fits.
Print Assumptions C01_no_silent_truncation_partial.
Print Assumptions C01_page_content_exact_partial.
