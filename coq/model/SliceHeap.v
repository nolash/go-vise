(* SliceHeap.v — Go slice semantics for the ONE object property C19 names: the pending-code
   buffer `b` of vm/runner.go (Run and its handlers), engine/db.go (setCode, exec, init) and
   state/state.go (SetCode / GetCode).  Definitions only.

   A Go slice is (backing array, offset, len, cap); `append` writes IN PLACE when the capacity
   allows and otherwise allocates a new array (how much larger is up to the runtime: the growth
   function is an oracle here, theorems quantify over it).  Arrays carry a ghost owner tag:

     OShared    the arrays behind the resource's code slices (db/mem returns the stored slice
                itself, so every session that shares the application data shares these arrays,
                including their spare capacity)
     OOwned s   arrays allocated by session s (NewLine, append growth, append([]byte{}, x...),
                the CBOR decoder)
     OZero      the zero-size allocation behind `[]byte{}` (cap 0: never read, never written)

   Array ids are (owner, k); a session numbers its own allocations (ss_next), which makes
   freshness local to the session.  Addresses are not observable in the Go code (no pointer
   comparison on the buffer), so the numbering carries no information.

   What Run does to `b`, as an abstract trace language (op):
     OpConsume n             b = b[n:]           opSplit, every Parse* (instructionSplit, intSplit, ...)
     OpAppendFromResource k  b = append(b, code...)   runMove, runInCmp (fired), code = rs.GetCode(node k)
     OpReplaceFromResource k b = append([]byte{}, bh...)   runCatch (fired) after fix 800b081
     OpAdopt k               b = bh              runCatch BEFORE the fix (kept for the refutation)
     OpReplaceFresh d        b = NewLine(nil, MOVE, ["_catch"]..) in runErrCheck / runDeadCheck,
                             b = []byte{} in runCroak and at the end of Run, NewLine(MOVE root) in
                             engine init, the local buffer of Vm.Render's MOVE _catch run
     OpStore                 en.st.SetCode(b) (engine setCode); the local b dies with Run's frame
     OpTake                  b = st.GetCode()   (st.Code = []byte{})
     OpDecodeFresh           persisted operation: the next engine's st.Code is re-created by the CBOR decoder
   Mapping from coq/model/VmModel.v (value semantics): op_split + parse_args => OpConsume (length of
   the instruction); run_move / run_incmp returning `b ++ code` => OpAppendFromResource; run_catch
   returning `code` => OpReplaceFromResource; run_croak `[]`, runErrCheck / dead_check
   `move_catch_code` => OpReplaceFresh; every other handler returns b unchanged
   (proofs/SliceHeapProofs.v: exec_instr_buf, run_is_op_trace). *)
From Vise Require Import Bytes.
Local Open Scope N_scope.

(* ---- arrays and the heap -------------------------------------------------------------- *)
Inductive owner : Type := OShared | OOwned (s : N) | OZero.
Notation aid := (owner * N)%type (only parsing).

Definition owner_eqb (a b : owner) : bool :=
  match a, b with
  | OShared, OShared => true
  | OOwned s, OOwned t => s =? t
  | OZero, OZero => true
  | _, _ => false
  end.
Definition aid_eqb (a b : aid) : bool := owner_eqb (fst a) (fst b) && (snd a =? snd b).

(* array id -> the whole backing array (its length is its capacity); [] = not allocated *)
Notation heap := (owner * N -> list N) (only parsing).
Definition h_empty : heap := fun _ => [].
Definition h_set (h : heap) (a : aid) (v : bytes) : heap := fun a' => if aid_eqb a' a then v else h a'.

(* ---- slices ------------------------------------------------------------------------------ *)
Record slice := mkSl { sl_arr : aid; sl_off : N; sl_len : N; sl_cap : N }.

Definition sl_nil : slice := mkSl (OZero, 0) 0 0 0.      (* []byte{} and nil *)

Definition sl_read (h : heap) (s : slice) : bytes := take (sl_len s) (drop (sl_off s) (h (sl_arr s))).

(* b[n:] ; Go panics for n > len, the decoder checks lengths first (fix 30c862f, cdab134):
   total here, n is cut at len *)
Definition sl_reslice (n : N) (s : slice) : slice :=
  let n := N.min n (sl_len s) in
  mkSl (sl_arr s) (sl_off s + n) (sl_len s - n) (sl_cap s - n).

(* overwrite arr[pos .. pos+|data|) *)
Definition write_at (pos : N) (data arr : bytes) : bytes :=
  take pos arr ++ data ++ drop (pos + len data) arr.

(* append(s, data...): result heap, result slice, arrays written, whether `fresh` was used.
   grow oldcap need = capacity the runtime would give the new array (at least `need` is forced) *)
Definition sl_append (grow : N -> N -> N) (fresh : aid) (h : heap) (s : slice) (data : bytes)
  : heap * slice * list aid * bool :=
  match data with
  | [] => (h, s, [], false)
  | _ =>
    if sl_len s + len data <=? sl_cap s then
      (h_set h (sl_arr s) (write_at (sl_off s + sl_len s) data (h (sl_arr s))),
       mkSl (sl_arr s) (sl_off s) (sl_len s + len data) (sl_cap s), [sl_arr s], false)
    else
      let need := sl_len s + len data in
      let ncap := N.max need (grow (sl_cap s) need) in
      (h_set h fresh (sl_read h s ++ data ++ rep 0 (ncap - need)), mkSl fresh 0 need ncap, [fresh], true)
  end.

(* append([]byte{}, x...) *)
Definition sl_copy_fresh (grow : N -> N -> N) (fresh : aid) (h : heap) (data : bytes) :=
  sl_append grow fresh h sl_nil data.

(* ---- resources ----------------------------------------------------------------------------- *)
(* node k's code lives in the shared array (OShared, k) = code ++ spare: arbitrary spare capacity *)
Notation restbl := (list (list N * list N)) (only parsing).

Definition res_entry (tbl : restbl) (k : N) : option (bytes * bytes) := nth_error tbl (N.to_nat k).
Definition res_slice (tbl : restbl) (k : N) : option slice :=
  match res_entry tbl k with
  | Some (code, spare) => Some (mkSl (OShared, k) 0 (len code) (len code + len spare))
  | None => None
  end.
Definition res_code (tbl : restbl) (k : N) : option bytes :=
  match res_entry tbl k with Some (code, _) => Some code | None => None end.
Definition res_heap (tbl : restbl) : heap :=
  fun a => match fst a with
           | OShared => match res_entry tbl (snd a) with Some (code, spare) => code ++ spare | None => [] end
           | _ => []
           end.

(* ---- the code-buffer machine ------------------------------------------------------------------ *)
Inductive op : Type :=
| OpConsume (n : N)
| OpAppendFromResource (node : N)
| OpReplaceFromResource (node : N)
| OpAdopt (node : N)
| OpReplaceFresh (data : bytes)
| OpStore
| OpTake
| OpDecodeFresh.

Definition op_repaired (o : op) : bool := match o with OpAdopt _ => false | _ => true end.

Record sess := mkSess {
  ss_buf : slice;     (* Run's local b *)
  ss_code : slice;    (* st.Code *)
  ss_next : N         (* number of arrays this session has allocated *)
}.
Definition sess_init : sess := mkSess sl_nil sl_nil 0.

Record scfg := mkScfg {
  sc_grow : N -> N -> N -> N -> N;   (* session, allocation number, old cap, needed -> new cap *)
  sc_res : restbl
}.

(* result of one step: heap, session, arrays written *)
Definition session_step (c : scfg) (sid : N) (h : heap) (ss : sess) (o : op) : heap * sess * list aid :=
  let fresh := (OOwned sid, ss_next ss) in
  let grow := sc_grow c sid (ss_next ss) in
  let bump (used : bool) := if used then ss_next ss + 1 else ss_next ss in
  match o with
  | OpConsume n => (h, mkSess (sl_reslice n (ss_buf ss)) (ss_code ss) (ss_next ss), [])
  | OpAppendFromResource k =>
    match res_slice (sc_res c) k with
    | None => (h, ss, [])                                   (* GetCode failed: return b, err *)
    | Some rsl =>
      let '(h', b', wr, used) := sl_append grow fresh h (ss_buf ss) (sl_read h rsl) in
      (h', mkSess b' (ss_code ss) (bump used), wr)
    end
  | OpReplaceFromResource k =>
    match res_slice (sc_res c) k with
    | None => (h, ss, [])
    | Some rsl =>
      let '(h', b', wr, used) := sl_copy_fresh grow fresh h (sl_read h rsl) in
      (h', mkSess b' (ss_code ss) (bump used), wr)
    end
  | OpAdopt k =>
    match res_slice (sc_res c) k with
    | None => (h, ss, [])
    | Some rsl => (h, mkSess rsl (ss_code ss) (ss_next ss), [])
    end
  | OpReplaceFresh data =>
    let '(h', b', wr, used) := sl_copy_fresh grow fresh h data in
    (h', mkSess b' (ss_code ss) (bump used), wr)
  | OpStore => (h, mkSess sl_nil (ss_buf ss) (ss_next ss), [])
  | OpTake => (h, mkSess (ss_code ss) sl_nil (ss_next ss), [])
  | OpDecodeFresh =>
    let '(h', c', wr, used) := sl_copy_fresh grow fresh h (sl_read h (ss_code ss)) in
    (h', mkSess sl_nil c' (bump used), wr)
  end.

(* what a session can read of its buffers: their complete contents *)
Notation obs := (list N * list N)%type (only parsing).
Definition sess_obs (h : heap) (ss : sess) : obs := (sl_read h (ss_buf ss), sl_read h (ss_code ss)).

Record world := mkWorld { w_heap : heap; w_sess : N -> sess }.
Definition sess_set (f : N -> sess) (sid : N) (ss : sess) : N -> sess :=
  fun t => if t =? sid then ss else f t.

Definition world_init (tbl : restbl) : world := mkWorld (res_heap tbl) (fun _ => sess_init).

(* one trace entry per step: who, what it can read afterwards, which arrays the step wrote *)
Record tev := mkTev { te_sid : N; te_obs : obs; te_writes : list aid }.

Definition world_step (c : scfg) (w : world) (sid : N) (o : op) : world * tev :=
  let '(h', ss', wr) := session_step c sid (w_heap w) (w_sess w sid) o in
  (mkWorld h' (sess_set (w_sess w) sid ss'), mkTev sid (sess_obs h' ss') wr).

(* a schedule = any interleaving of the sessions' operations *)
Fixpoint run_sched (c : scfg) (w : world) (sched : list (N * op)) : world * list tev :=
  match sched with
  | [] => (w, [])
  | (sid, o) :: r =>
    let '(w1, e) := world_step c w sid o in
    let '(w2, es) := run_sched c w1 r in
    (w2, e :: es)
  end.

Definition sched_of (sid : N) (sched : list (N * op)) : list (N * op) :=
  filter (fun p => fst p =? sid) sched.
Definition obs_of (sid : N) (tr : list tev) : list obs :=
  map te_obs (filter (fun e => te_sid e =? sid) tr).
Definition sched_repaired (sched : list (N * op)) : bool := forallb (fun p => op_repaired (snd p)) sched.

(* ---- value semantics (what coq/model/VmModel.v and EngineModel.v use for the code) --------------- *)
Definition pure_step (tbl : restbl) (p : obs) (o : op) : obs :=
  let '(b, code) := p in
  match o with
  | OpConsume n => (drop n b, code)
  | OpAppendFromResource k => match res_code tbl k with Some c => (b ++ c, code) | None => p end
  | OpReplaceFromResource k | OpAdopt k => match res_code tbl k with Some c => (c, code) | None => p end
  | OpReplaceFresh d => (d, code)
  | OpStore => ([], b)
  | OpTake => (code, [])
  | OpDecodeFresh => ([], code)
  end.
Fixpoint pure_run (tbl : restbl) (p : obs) (ops : list op) : list obs :=
  match ops with
  | [] => []
  | o :: r => let p' := pure_step tbl p o in p' :: pure_run tbl p' r
  end.

(* ---- request-level interleaving (generic) ---------------------------------------------------------
   a server holding one private state per session and a request function f that sees only the state
   of the session it serves (plus whatever is closed over: the immutable application data).
   EngineModel.request_long / request_persisted have exactly this shape. *)
Fixpoint serve {S I O : Type} (f : S -> I -> S * O) (w : N -> S) (sched : list (N * I)) : (N -> S) * list (N * O) :=
  match sched with
  | [] => (w, [])
  | (sid, i) :: r =>
    let '(s', o) := f (w sid) i in
    let '(w2, os) := serve f (fun t => if t =? sid then s' else w t) r in
    (w2, (sid, o) :: os)
  end.
Fixpoint serve_solo {S I O : Type} (f : S -> I -> S * O) (s : S) (ins : list I) : S * list O :=
  match ins with
  | [] => (s, [])
  | i :: r =>
    let '(s', o) := f s i in
    let '(s2, os) := serve_solo f s' r in
    (s2, o :: os)
  end.
Definition of_sid {A : Type} (sid : N) (l : list (N * A)) : list A :=
  map snd (filter (fun p => fst p =? sid) l).
