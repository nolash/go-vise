(* C06 and C20 over histories of requests.
   First C06: what a run keeps of the flags 0..5 (FlagProofs.rsv_step) every step of Init and Exec keeps,
   hence every request and every history (history_clear).  Then the vocabulary of the statements about a
   long-lived engine (delivered_l, eng_exec_accepted, blocked_engine, requests_long); their proofs stand
   under the theorems, in props/C06.v and props/C20.v.
   Then C20: the session invariant that C20_graceful_end_cache assumes (one cache scope per level plus
   the base scope, CInv, EMPTY base scope) holds for every stored session reachable by a history from a
   new session: SafetyProofs' invariant (levels, CInv) together with "nothing is ever stored while the
   position is empty", as an invariant of the machine (VB), the session (SI), the engine (EB) and the
   store (SB).  From calm_prog on the file states this for applications given as data (has_node,
   has_croak, wf_app_b of corr/), which is why corr/ is required there. *)
From Coq Require Import Lia ZifyN ZifyNat ZifyBool.
From Vise Require Import Bytes Errors Consts EngConsts Codec CacheModel StateModel NavModel NavSpec RenderModel
  VmModel EngineModel BytesProofs CodecProofs CacheProofs NavProofs VmProofs EngineProofs HandlerProofs SafetyProofs FlagProofs.
Local Open Scope N_scope.

(* The engine around the runs touches the flags only by clearing DIRTY and TERMINATE; LOADFAIL
   can be set if a function of the application or the entry function can fail. *)
Definition first_fail (c : config) : Prop := exists sc, c_first c = Some sc /\ existsb fr_fail sc = true.
Definition eng_fail (rs : rsrc) (c : config) : Prop := can_fail rs \/ first_fail c.
Definition eng_rsv (rs : rsrc) (c : config) (e e' : engine) : Prop :=
  rsv_step (eng_fail rs c) (v_st (e_v e)) (v_st (e_v e')).

Lemma eng_reset_inner_rsv : forall fail v, rsv_step fail (v_st v) (v_st (fst (eng_reset_inner v))).
Proof.
  intros fail v. destruct (s_path (v_st v)) eqn:Hp; [rewrite eng_reset_inner_empty by exact Hp; apply rsv_refl|].
  rewrite eng_reset_inner_eq by congruence. eapply (rsv_trans _ _ (set_path_idx (v_st v) [] 0)); [apply rsv_flags; reflexivity|].
  eapply rsv_trans; [apply (rsv_put _ false _ FLAG_TERMINATE)|apply (rsv_put _ false _ FLAG_DIRTY)]; discriminate.
Qed.

Lemma vm_render_rsv : forall fuel rs c sep lang v,
  rsv_step (eng_fail rs c) (v_st v) (v_st (fst (vm_render fuel rs sep lang v))).
Proof. intros. eapply rsv_weaken; [|eapply ops_rsv, vm_render_vm_ops]. left. assumption. Qed.

Lemma eng_flush_rsv : forall fuel rs c e, eng_rsv rs c e (fst (fst (eng_flush fuel rs c e))).
Proof.
  intros fuel rs c e. destruct (eng_flush_cases fuel rs c e) as [[-> | [-> | [_ ->]]] _]; cbn [e_v eset_v];
    [apply rsv_refl|apply vm_render_rsv|]. eapply rsv_trans; [apply vm_render_rsv|apply eng_reset_inner_rsv].
Qed.

(* the entry function: a run over its private resource between a descent and an ascent, DIRTY and
   TERMINATE cleared afterwards *)
Lemma run_first_rsv : forall fuel c lang e,
  rsv_step (first_fail c) (v_st (e_v e)) (v_st (e_v (fst (fst (run_first fuel c lang e))))).
Proof.
  intros fuel c lang e. unfold run_first. destruct (c_first c) as [script|] eqn:Hc; [|apply rsv_refl].
  destruct (st_down (v_st (e_v e)) first_sym) as [st1| |] eqn:Hd; try apply rsv_refl.
  match goal with |- context [run fuel ?rs ?sep lang first_code ?v1] =>
    pose proof (run_rsv fuel rs sep lang first_code v1) as Hrun; destruct (run fuel rs sep lang first_code v1) as [[v2 b] s2] end.
  destruct (match s2 with SOk => _ | _ => _ end) as [[r0 s0] take].
  destruct (if take then _ else _) as [ex ca2]. cbn [fst e_v v_st] in *.
  eapply rsv_trans; [apply rsv_flags, (proj2 (st_down_keeps _ _ _ Hd))|].
  eapply rsv_trans; [eapply rsv_weaken; [|exact Hrun]; intros H; exists script; split; [exact Hc|apply can_fail_first, H]|].
  eapply rsv_trans; [apply (rsv_put _ false _ FLAG_DIRTY); discriminate|].
  eapply rsv_trans; [apply (rsv_put _ false _ FLAG_TERMINATE); discriminate|].
  destruct (st_up _) as [[sy st']| |] eqn:Hu; try apply rsv_refl. apply rsv_flags, (st_up_flags _ _ _ Hu).
Qed.

Lemma set_code_eng_flags : forall e b, s_flags (v_st (e_v (fst (set_code_eng e b)))) = s_flags (v_st (e_v e)).
Proof. intros e b. rewrite set_code_eng_eq. destruct b; [destruct (getf _ FLAG_DIRTY)|]; reflexivity. Qed.

Lemma take_input_rsv : forall rs c i e, eng_rsv rs c e (fst (take_input i e)).
Proof. intros rs c i e. apply rsv_flags. rewrite take_input_eq. destruct (_ <? _); reflexivity. Qed.

Lemma prepare_rsv : forall fuel rs c e, eng_rsv rs c e (fst (prepare fuel rs c e)).
Proof.
  intros fuel rs c e. apply (prepare_cases (fun x => eng_rsv rs c e (fst x))); intros _; [apply rsv_refl|apply eng_flush_rsv].
Qed.

Lemma unstale_rsv : forall rs c e, eng_rsv rs c e (fst (unstale e)).
Proof.
  intros rs c e. apply (unstale_cases (fun x => eng_rsv rs c e (fst x))); [apply rsv_refl|apply eng_reset_inner_rsv].
Qed.

Lemma reset_empty_rsv : forall rs c i e, eng_rsv rs c e (fst (reset_empty c i e)).
Proof.
  intros rs c i e. apply (reset_empty_cases (fun x => eng_rsv rs c e (fst x))); [apply rsv_refl|].
  exact (eng_reset_inner_rsv _ (vset_st (e_v e) (set_code (v_st (e_v e)) (encode (IMove (cfg_root c)))))).
Qed.

Lemma eng_init_rsv : forall fuel rs c e input, eng_rsv rs c e (fst (fst (eng_init fuel rs c e input))).
Proof.
  intros fuel rs c e input. rewrite eng_init_steps. pose proof (prepare_rsv fuel rs c e) as H1.
  apply then_ok_fst; [exact H1|intros _]. destruct (e_initd _); [exact H1|]. unfold init_new.
  pose proof (rsv_trans _ _ _ _ H1 (take_input_rsv rs c input (cleared _))) as H3. apply then_ok_fst; [exact H3|intros _].
  match goal with |- context [run_first fuel c ?l ?e3] =>
    pose proof (rsv_trans _ _ _ _ H3 (rsv_weaken _ (eng_fail rs c) _ _ (@or_intror _ _) (run_first_rsv fuel c l e3))) as H4 end.
  apply then_go_fst; [exact H4|intros _ _].
  pose proof (rsv_trans _ _ _ _ H4 (unstale_rsv rs c _)) as H5. apply then_ok_fst; [exact H5|intros _].
  eapply rsv_trans; [exact H5|apply rsv_flags]. unfold init_done. cbv zeta. destruct (s_code _); reflexivity.
Qed.

Lemma eng_exec_inner_rsv : forall fuel rs c e, eng_rsv rs c e (fst (fst (eng_exec_inner fuel rs c e))).
Proof.
  intros fuel rs c e. apply (eng_exec_inner_cases (fun x => eng_rsv rs c e (fst (fst x)))); [intros _; apply rsv_flags; reflexivity|].
  intros v1 b s _ Hr. epose proof (rsv_weaken _ (eng_fail rs c) _ _ (@or_introl _ _) (run_rsv fuel rs _ _ _ _)) as H. rewrite Hr in H.
  destruct s; try exact H. destruct (getf (v_st v1) FLAG_TERMINATE); [exact H|].
  eapply rsv_trans; [exact H|apply rsv_flags, set_code_eng_flags].
Qed.

Lemma eng_exec_rsv : forall fuel rs c e input, eng_rsv rs c e (fst (fst (eng_exec fuel rs c e input))).
Proof.
  intros fuel rs c e input. rewrite eng_exec_steps. pose proof (eng_init_rsv fuel rs c e input) as H1.
  apply then_go_fst; [exact H1|intros _ _]. unfold exec_tail.
  pose proof (rsv_trans _ _ _ _ H1 (reset_empty_rsv rs c input _)) as H2. apply then_ok_fst; [exact H2|intros _].
  destruct (_ && negb _); [exact H2|].
  pose proof (rsv_trans _ _ _ _ H2 (take_input_rsv rs c input _)) as H3. apply then_ok_fst; [exact H3|intros _].
  exact (rsv_trans _ _ _ _ H3 (eng_exec_inner_rsv fuel rs c _)).
Qed.

Lemma request_persisted_rsv : forall fuel rs c p input,
  rsv_step (eng_fail rs c) (fst (sess c (pw_store p)))
           (fst (sess c (pw_store (fst (request_persisted fuel rs c p input))))).
Proof.
  intros fuel rs c p input. rewrite request_persisted_long, request_long_finish, new_engine_sess.
  match goal with |- context [eng_exec fuel rs c ?e input] => pose proof (eng_exec_rsv fuel rs c e input) as Hx end.
  pose proof (long_finish_fst (eng_rsv rs c _) fuel rs c _ Hx (rsv_trans _ _ _ _ Hx (eng_flush_rsv fuel rs c _))) as H.
  destruct (long_finish fuel rs c _) as [e2 r].
  apply (pers_of_store (fun o => rsv_step _ _ (fst (sess c o)))); [rewrite sess_store0; apply rsv_refl|intros _; exact H].
Qed.

Lemma requests_rsv : forall fuel rs c inputs p,
  rsv_step (eng_fail rs c) (fst (sess c (pw_store p))) (fst (sess c (pw_store (fst (requests fuel rs c p inputs))))).
Proof.
  intros fuel rs c inputs. induction inputs as [|i r IH]; intros p; cbn [requests]; [apply rsv_refl|].
  pose proof (request_persisted_rsv fuel rs c p i) as H1. destruct (request_persisted fuel rs c p i) as [p1 resp].
  specialize (IH p1). destruct (requests fuel rs c p1 r) as [p2 resps]. exact (rsv_trans _ _ _ _ H1 IH).
Qed.

(* the observable form (monitor c06_reserved of EngineMon): from the empty store, whatever the
   application, its functions and the inputs do, RESERVED is never set in a stored session; and
   LOADFAIL is set only if some function (of the application or the engine's entry function)
   can fail *)
Lemma history_clear : forall fuel rs c inputs p' resps f,
  requests fuel rs c pw0 inputs = (p', resps) ->
  f = FLAG_RESERVED \/ (f = FLAG_LOADFAIL /\ ~ eng_fail rs c) -> store_clear p' f.
Proof.
  intros fuel rs c inputs p' resps f H Hf. pose proof (requests_rsv fuel rs c inputs pw0) as Hr. rewrite H in Hr.
  unfold store_clear. cbn [fst pw_store pw0] in Hr. destruct (pw_store p') as [[st ca]|]; [|exact I]. cbn [sess fst] in Hr.
  assert (E : getf st f = getf (fresh_state c) f).
  { destruct Hf as [->|[-> Hnf]]; [exact (rsv_reserved _ _ _ Hr)|]. destruct (rsv_loadfail _ _ _ Hr); [assumption|contradiction]. }
  rewrite E. apply getf_fresh. destruct Hf as [->|[-> _]]; discriminate.
Qed.

Lemma any_fail_sound : forall a c, eng_fail (app_rsrc a) c -> any_fail_b a c = true.
Proof.
  intros a c [H|(sc & Hc & Hs)]; unfold any_fail_b; [|rewrite Hc, Hs; apply orb_true_r].
  destruct (existsb _ (a_funcs a)) eqn:E; [reflexivity|destruct (no_fail_app a E H)].
Qed.

(* the last output was delivered (EngineProofs.delivered) *)
Definition delivered_l (e : engine) : Prop :=
  e_execd e = false \/ (getf (v_st (e_v e)) FLAG_DIRTY = false /\ e_exiting e = false /\ e_exit e = []).

Lemma eng_exec_accepted : forall fuel rs c e input,
  e_initd e = true -> delivered_l e -> accepted_b input = true ->
  (reset_req c input = false \/ s_path (v_st (e_v e)) = []) ->
  eng_exec fuel rs c e input =
  eng_exec_inner fuel rs c (mkEng (vset_st (e_v e) (set_input_raw (v_st (e_v e)) (Some input))) true [] false false).
Proof.
  intros fuel rs c e input Hi Hd Ha Hreset.
  apply eng_exec_delivered; try assumption. apply accepted_not_refused, Ha.
Qed.

(* what a request leaves of a long-lived engine whose session has TERMINATE set: the pending code
   dropped, the input taken, `d` whether Exec found code to drop *)
Definition blocked_engine (e : engine) (input : bytes) (d : bool) : engine :=
  mkEng (vset_st (e_v e) (set_input_raw (set_code (v_st (e_v e)) []) (Some input))) true [] false d.

Fixpoint requests_long (fuel : nat) (rs : rsrc) (c : config) (e : engine) (inputs : list bytes) : engine * list response :=
  match inputs with
  | [] => (e, [])
  | i :: r =>
    let '(e1, resp) := request_long fuel rs c e i in
    let '(e2, resps) := requests_long fuel rs c e1 r in
    (e2, resp :: resps)
  end.

Definition base_empty (ca : cache) : Prop := hd_error (c_frames ca) = Some [].

Lemma base_push : forall ca, base_empty ca -> base_empty (cache_push ca).
Proof. intros ca H. unfold base_empty, cache_push in *. cbn [c_frames]. destruct (c_frames ca); [discriminate|exact H]. Qed.

Lemma base_reset : forall ca, base_empty ca -> base_empty (cache_reset ca).
Proof.
  intros ca H. unfold base_empty, cache_reset in *. destruct (c_frames ca) as [|f0 r] eqn:Hf; [discriminate|].
  cbn [c_frames]. exact H.
Qed.

Lemma base_last : forall ca, base_empty ca -> base_empty (snd (cache_last ca)).
Proof. intros ca H. exact H. Qed.

(* Add writes the TOP scope: with at least two scopes the base scope is not touched *)
Lemma base_add : forall ca k v l ca',
  base_empty ca -> 2 <= cache_levels ca -> cache_add ca k v l = Ok ca' -> base_empty ca'.
Proof.
  intros ca k v l ca' H Hl Ha. pose proof (cache_add_cases ca k v l) as C. rewrite Ha in C.
  destruct C as (pre & top & Hfs & _ & _ & _ & ->). unfold base_empty, cache_levels in *. cbn [c_frames]. rewrite Hfs in *.
  destruct pre; [cbn in Hl; lia|exact H].
Qed.

(* Update writes the scope that defines the symbol: never the empty base scope *)
Lemma base_update : forall ca k v, base_empty ca -> base_empty (fst (cache_update_raw ca k v)).
Proof.
  intros ca k v H. pose proof (cache_update_cases ca k v) as C. destruct (cache_update_raw ca k v) as [c' [e|]]; cbn [fst].
  - destruct C as [->|(f & old & _ & _ & ->)]; exact H.
  - destruct C as (pre & f & post & old & Hfs & _ & Hold & -> & _). unfold base_empty in *. cbn [c_frames]. rewrite Hfs in H.
    destruct pre; [injection H as ->; discriminate Hold|exact H].
Qed.

Definition navigating (i : instr) : bool :=
  match i with IMove _ | IInCmp _ _ | ICatch _ _ _ => true | _ => false end.

(* no node has the empty name: GetCode("") fails (what ends a run whose position became empty) *)
Definition rs_named (rs : rsrc) : Prop := forall c, rs_code rs [] <> Ok c.

(* the pending code goes only when a CROAK fires *)
Lemma heff_quiet rs lang i b v r : navigating i = false -> heff rs lang i b v r ->
  s_path (v_st (fst (fst r))) = s_path (v_st v) /\ (snd (fst r) = b \/ snd (fst r) = []).
Proof.
  intros Hn He.
  assert (Hr : forall key v1 c s, refresh rs lang key v = (v1, c, s) -> s_path (v_st v1) = s_path (v_st v)).
  { intros key v1 c s E. pose proof (proj1 (refresh_flagish rs lang key v)) as F. rewrite E in F. apply F. }
  destruct He as [v' s F|t st0 nsym v' b' s Ht|sig mode v' _ E|sym sz v1 content v' _ E1 _ E|sym v1 content v' s _ E1 _ E];
    cbn [fst snd].
  - split; [apply F|auto].
  - destruct i; discriminate Ht || discriminate Hn.
  - rewrite E. auto.
  - rewrite E. split; [exact (Hr _ _ _ _ E1)|auto].
  - rewrite E. split; [exact (Hr _ _ _ _ E1)|auto].
Qed.

Lemma apply_base : forall t st ca st' ca' nsym,
  nav_inv st ca -> base_empty ca -> apply_target t st ca = (st', ca', nsym, SOk) ->
  base_empty ca' /\ (s_path st' = [] -> nsym = []).
Proof.
  intros t st ca st' ca' nsym Hn Hb H.
  pose proof (nav_inv_frames _ _ Hn) as Hne.
  destruct (apply_ok_exact Hne H) as (_ & -> & _ & ->). split.
  - destruct (valid_sym_b t); [apply base_push|apply pops_base]; exact Hb.
  - intros Hp. unfold where_sym. rewrite Hp. reflexivity.
Qed.

(* What LOAD stores goes into the top scope, what RELOAD stores into the scope that defines the symbol: with a
   position, never into the base scope.  Arriving with an empty position asks for the code of the node "", which
   does not exist. *)
Lemma exec_instr_base : forall rs sep lang i b v,
  rs_named rs -> nav_inv (v_st v) (v_ca v) -> base_empty (v_ca v) ->
  (s_path (v_st v) = [] -> exists t, i = IMove t) ->
  let r := exec_instr rs sep lang i b v in
  base_empty (v_ca (fst (fst r))) /\ (s_path (v_st (fst (fst r))) = [] -> snd r <> SOk).
Proof.
  intros rs sep lang i b v Hnm Hn Hb Hpre. cbv zeta.
  pose proof (nav_inv_frames _ _ Hn) as Hne.
  assert (Hlv : (forall t, i <> IMove t) -> s_path (v_st v) <> [] /\ 2 <= cache_levels (v_ca v)).
  { intros Hi. unfold nav_inv in Hn. rewrite Hn. destruct (s_path (v_st v)); [destruct (Hpre eq_refl) as [t Ht]; destruct (Hi t Ht)|].
    split; [discriminate|rewrite len_cons; lia]. }
  assert (Hr : forall sym v1 content, refresh rs lang sym v = (v1, content, SOk) ->
               s_path (v_st v1) = s_path (v_st v) /\ v_ca v1 = v_ca v).
  { intros sym v1 content E1. destruct (refresh_flagish rs lang sym v) as (F & Ec & _). rewrite E1 in F, Ec. split; [apply F|exact Ec]. }
  destruct (exec_instr_eff rs sep lang i b v Hne)
    as [v' s F C _ Hmv|t st0 nsym v' b' s _ F Ha Hc|sig mode v' -> E C|sym sz v1 content v' -> E1 Ha E|sym v1 content v' s -> E1 C E _];
    cbn [fst snd].
  - rewrite C, (proj1 F). split; [exact Hb|]. intros Hp. destruct (Hpre Hp) as [t ->]. exact (Hmv t eq_refl).
  - assert (Hn0 : nav_inv st0 (v_ca v)) by (unfold nav_inv in *; rewrite (proj1 F); exact Hn).
    destruct (apply_base _ _ _ _ _ _ Hn0 Hb Ha) as [B1 B2]. split; [exact B1|].
    intros E. rewrite (B2 E) in Hc. destruct (rs_code rs []) eqn:Ec; [destruct (Hnm _ Ec)|destruct Hc as [-> _]; discriminate..].
  - rewrite C, E. split; [apply base_reset, Hb|]. intros Hp. destruct (Hlv ltac:(discriminate)) as [Hp' _]. contradiction.
  - destruct (Hr _ _ _ E1) as [Fp Ec]. destruct (Hlv ltac:(discriminate)) as [Hp Hl].
    rewrite E, Fp. split; [|contradiction]. eapply base_add; [| |exact Ha]; rewrite Ec; assumption.
  - destruct (Hr _ _ _ E1) as [Fp Ec]. destruct (Hlv ltac:(discriminate)) as [Hp _].
    rewrite E, C, Fp. split; [|contradiction]. apply base_update. rewrite Ec. exact Hb.
Qed.

(* while the position is empty the only code that may be pending is a single MOVE *)
Definition move_only (b : bytes) : Prop := b = [] \/ exists t, wf_sym t /\ b = encode (IMove t).

Lemma move_only_nil : move_only []. Proof. left. reflexivity. Qed.
Lemma move_only_catch : move_only move_catch_code.
Proof. right. exists catch_sym. split; [exact wf_catch_sym|reflexivity]. Qed.
Lemma move_only_decode : forall b i r, move_only b -> decode_one b = Ok (i, r) -> exists t, i = IMove t.
Proof.
  intros b i r [->|(t & Hw & ->)] Hd; [discriminate|].
  pose proof (instr_roundtrip_lemma (IMove t) [] Hw) as Hrt. rewrite app_nil_r in Hrt.
  rewrite Hrt in Hd. injection Hd as <- _. eauto.
Qed.

Definition VB (bits cap : N) (v : vmst) : Prop := VInv bits cap true v /\ base_empty (v_ca v).

(* what run_base carries through a run *)
Definition based (bits cap : N) (r : hres) : Prop :=
  let '(v, b, s) := r in
  VB bits cap v /\ cok bits true b /\ (s = SOk -> s_path (v_st v) = [] -> move_only b).

Lemma run_base : forall bits cap rs sep, rs_wf bits cap true rs -> rs_named rs ->
  forall fuel lang b v v' b' s,
  VB bits cap v -> cok bits true b -> (s_path (v_st v) = [] -> move_only b) ->
  run fuel rs sep lang b v = (v', b', s) ->
  VB bits cap v' /\ cok bits true b' /\ (s = SOk -> s_path (v_st v') = [] -> move_only b').
Proof.
  intros bits cap rs sep Hrs Hnm fuel lang b v v' b' s HV Hc Hmo H.
  change (based bits cap (v', b', s)). rewrite <- H.
  apply (run_invariant_pending (based bits cap) (based bits cap));
    [auto| | | | |split; [exact HV|split; [exact Hc|intros _; exact Hmo]]]; clear - Hrs Hnm.
  - intros v v' b s Hf Hca ([HV Hb] & Hc & Hmo). split; [split|split; [exact Hc|]].
    + unfold VInv. rewrite Hca. eapply SC_flagish; [exact HV|exact Hf].
    + rewrite Hca. exact Hb.
    + intros Hs Hp. apply (Hmo Hs). rewrite <- Hp. symmetry. apply Hf.
  - intros v b (HV & Hc & _). split; [|split]; (split; [exact HV|]); (split; [try exact Hc; constructor|]); try discriminate.
    intros _ _. apply move_only_nil.
  - intros v b s (HV & _) _. split; [exact HV|]. split; [apply cok_move_catch|]. intros _ _. apply move_only_catch.
  - (* step: the instruction keeps SafetyProofs' invariant; it completes only with a position *)
    intros lang v b ([HV Hb] & Hc & Hmo) Hne.
    destruct (code_ok_decodes _ _ Hc Hne) as (i & r & Hd & Hi & Hr). exists i, r. split; [exact Hd|].
    assert (X : based bits cap (exec_instr rs sep lang i r v)); [|destruct (is_halt i); exact X].
    destruct (exec_instr_safe bits cap true rs sep lang i r v Hrs HV Hi Hr) as (_ & X2 & X3).
    destruct (exec_instr_base rs sep lang i r v Hnm (SC_nav _ _ _ _ _ HV eq_refl) Hb
                (fun Hp => move_only_decode _ _ _ (Hmo eq_refl Hp) Hd)) as [B1 B2].
    destruct (exec_instr rs sep lang i r v) as [[v1 b2] s1]. cbn [fst snd] in X2, X3, B1, B2.
    split; [split; assumption|]. split; [exact X3|]. intros Hs Hp. destruct (B2 Hp Hs).
Qed.

Inductive calm : bytes -> Prop :=
| calm_halt : forall b r, decode_one b = Ok (IHalt, r) -> calm b
| calm_step : forall b i r, decode_one b = Ok (i, r) -> navigating i = false -> is_halt i = false -> calm r -> calm b.

(* the node _catch is calm: the recovery run cannot leave the session without a position *)
Definition catch_calm (rs : rsrc) : Prop := forall c, rs_code rs catch_sym = Ok c -> c = [] \/ calm c.

Lemma apply_named_ok t st ca st' ca' nsym :
  valid_sym_b t = true -> apply_target t st ca = (st', ca', nsym, SOk) ->
  nsym = t /\ s_path st' = s_path st ++ [t] /\ ca' = cache_push ca.
Proof.
  intros Hv. rewrite (apply_named _ _ _ Hv), do_named_eq.
  destruct (down_refused t st); [discriminate|]. intros H. injection H as <- <- <-. auto.
Qed.

Lemma go_catch rs b st0 ca st' ca' nsym (b' : bytes) s :
  apply_target catch_sym st0 ca = (st', ca', nsym, SOk) ->
  match rs_code rs nsym with
  | Ok code => s = SOk /\ (b' = code \/ b' = b ++ code)
  | Err e => s = SErr e None /\ b' = b
  | Panic n => s = SPanic n /\ b' = b
  end ->
  where_sym st' = catch_sym
  /\ (s = SOk -> exists code, rs_code rs catch_sym = Ok code /\ (b' = code \/ b' = b ++ code)).
Proof.
  intros Ha Hc. destruct (apply_named_ok catch_sym _ _ _ _ _ eq_refl Ha) as (-> & E & _).
  split; [unfold where_sym; rewrite E; apply last_last|].
  intros ->. destruct (rs_code rs catch_sym) as [code| |]; [exists code; split; [reflexivity|apply Hc]|destruct Hc as [Hc _]; discriminate Hc..].
Qed.

Lemma at_catch_path st : where_sym st = catch_sym -> s_path st <> [].
Proof. unfold where_sym. intros H E. rewrite E in H. discriminate. Qed.

(* the recovery run has arrived at _catch, where calm code (or none) is pending; or it is on its
   way there *)
Definition recovering (r : hres) : Prop :=
  c_frames (v_ca (fst (fst r))) <> [] /\
  (where_sym (v_st (fst (fst r))) = catch_sym /\ (snd r = SOk -> snd (fst r) = [] \/ calm (snd (fst r)))
   \/ s_path (v_st (fst (fst r))) <> [] /\ (snd r = SOk -> snd (fst r) = [] \/ snd (fst r) = move_catch_code)).

(* The recovery run inside Render (MOVE _catch after a browse error) keeps a position. *)
Lemma run_move_catch_path : forall rs sep, catch_calm rs ->
  forall fuel lang v v' b' s,
  s_path (v_st v) <> [] -> c_frames (v_ca v) <> [] ->
  run fuel rs sep lang move_catch_code v = (v', b', s) -> s_path (v_st v') <> [].
Proof.
  intros rs sep Hcc fuel lang v v' b' s Hp Hne H.
  change ((fun r => s_path (v_st (fst (fst r))) <> []) (v', b', s)). rewrite <- H.
  apply (run_invariant_pending recovering); [| | | | |split; [exact Hne|right; auto]]; clear - Hcc; unfold recovering; cbn [fst snd].
  - intros r [_ [[Hw _]|[Hp _]]]; [apply at_catch_path, Hw|exact Hp].
  - intros v v' b s (Hf & _) Hca. unfold where_sym. rewrite Hf, Hca. auto.
  - intros v b [Hne [[Hw _]|[Hp _]]]; repeat split; auto; (left + right); repeat split; auto; discriminate.
  - (* MOVE _catch put in: not at _catch, so still on the way *)
    intros v b s [Hne [[Hw _]|[Hp _]]] Hnc; [contradiction|auto].
  - intros lang v b [Hne [[Hw Hb]|[Hp Hb]]] Hn.
    + (* calm code: the instruction does not navigate, and what follows it is calm *)
      destruct (Hb eq_refl) as [->|Hc]; [contradiction|].
      destruct Hc as [b r Hd|b i r Hd Hq Hh Hr]; [exists IHalt, r; split; [exact Hd|exact (at_catch_path _ Hw)]|].
      exists i, r. split; [exact Hd|]. rewrite Hh.
      pose proof (exec_instr_eff rs sep lang i r v Hne) as He. split; [exact (vm_ops_frames _ _ _ _ _ (exec_instr_vm_ops _ _ _ _ _ _) Hne)|].
      destruct (heff_quiet _ _ _ _ _ _ Hq He) as [Q1 Q2].
      left. split; [unfold where_sym; rewrite Q1; exact Hw|]. intros _. destruct Q2 as [->| ->]; auto.
    + (* MOVE _catch: it fails and nothing has changed, or it arrives and the node's code is calm *)
      destruct (Hb eq_refl) as [->| ->]; [contradiction|].
      exists (IMove catch_sym), []. split; [apply (instr_roundtrip_lemma (IMove catch_sym) []), wf_catch_sym|].
      cbn [is_halt]. pose proof (exec_instr_eff rs sep lang (IMove catch_sym) [] v Hne) as He.
      split; [exact (vm_ops_frames _ _ _ _ _ (exec_instr_vm_ops _ _ _ _ _ _) Hne)|].
      destruct He as [v1 s1 F _ _ _|t st0 nsym v1 b1 s1 Ht _ Ha Hc| | |]; try discriminate; cbn [fst snd].
      * right. rewrite (proj1 F). auto.
      * left. injection Ht as <-. destruct (go_catch _ _ _ _ _ _ _ _ _ Ha Hc) as [W1 W2]. split; [exact W1|].
        intros ->. destruct (W2 eq_refl) as (code & Hc' & [->| ->]); exact (Hcc _ Hc').
Qed.

Lemma vm_render_base : forall bits cap rs sep fuel lang v v' r,
  rs_wf bits cap true rs -> rs_named rs -> catch_calm rs -> VB bits cap v ->
  vm_render fuel rs sep lang v = (v', r) ->
  VB bits cap v' /\ (s_path (v_st v') = [] -> s_path (v_st v) = []).
Proof.
  intros bits cap rs sep fuel lang v v' r Hrs Hnm Hcc HVB H. change v' with (fst (v', r)). rewrite <- H.
  (* nothing is asked of the result; neither page nor log is in VB *)
  eapply proj1, (vm_render_keeps (fun x => VB bits cap x /\ (s_path (v_st x) = [] -> s_path (v_st v) = [])) (fun _ => True));
    [|auto|auto| |exact I|exact I|intros; exact I|exact (conj HVB (fun E => E))].
  - intros x [[HV Hb] Hp]. split; [split; [exact (SC_flagish _ _ _ _ _ _ HV (flagish_resetf _ _))|exact Hb]|exact Hp].
  - (* the recovery run starts with a position and ends with one *)
    intros x [Hx _] Hp. cbv zeta. split; [|auto]. destruct (run fuel rs sep lang move_catch_code x) as [[v1 b1] s1] eqn:Hrun. cbn [fst].
    destruct (run_base bits cap rs sep Hrs Hnm _ _ _ _ _ _ _ Hx (cok_move_catch _ _) (fun _ => move_only_catch) Hrun) as (HVB1 & _ & _).
    split; [exact HVB1|]. intros E.
    destruct (run_move_catch_path rs sep Hcc _ _ x _ _ _ Hp (SC_frames _ _ _ _ _ (proj1 Hx)) Hrun E).
Qed.

Definition SI (bits cap : N) (st : state) (ca : cache) : Prop :=
  SC bits cap true st ca /\ base_empty ca /\ (s_path st = [] -> move_only (s_code st)).

Lemma SI_set_code : forall bits cap st ca b,
  SC bits cap true st ca -> base_empty ca -> cok bits true b -> (s_path st = [] -> move_only b) ->
  SI bits cap (set_code st b) ca.
Proof. intros bits cap st ca b HS Hb Hc Hmo. split; [apply SC_set_code; assumption|]. split; [exact Hb|exact Hmo]. Qed.

Lemma SI_set_input_raw : forall bits cap st ca i,
  SI bits cap st ca -> match i with Some x => len x <= INPUT_LIMIT | None => True end -> SI bits cap (set_input_raw st i) ca.
Proof. intros bits cap st ca i (HS & Hb & Hmo) Hi. split; [apply SC_set_input_raw; auto|]. split; [exact Hb|exact Hmo]. Qed.

(* the reset keeps the pending code: whatever MOVE it is, it still is once the position is empty *)
Lemma SI_reset bits cap v : VB bits cap v -> move_only (s_code (v_st v)) ->
  SI bits cap (v_st (fst (eng_reset_inner v))) (v_ca (fst (eng_reset_inner v))).
Proof.
  intros [HV Hb] Hmo. pose proof (eng_reset_inner_safe bits cap true v HV) as [_ S2]. revert S2.
  destruct (s_path (v_st v)) eqn:Hp; [rewrite eng_reset_inner_empty by exact Hp|rewrite eng_reset_inner_eq by congruence];
    intros S2; (split; [exact S2|split; [|intros _; exact Hmo]]); [exact Hb|apply pops_base, Hb].
Qed.

Definition EB (bits cap : N) (e : engine) : Prop :=
  SI bits cap (v_st (e_v e)) (v_ca (e_v e)) /\ (e_exiting e = true -> s_code (v_st (e_v e)) = []).

(* an exiting engine has no pending code: the reset at the end of Flush leaves none at the empty position *)
Lemma eng_flush_base bits cap fuel rs c e :
  rs_wf bits cap true rs -> rs_named rs -> catch_calm rs -> EB bits cap e ->
  EB bits cap (fst (fst (eng_flush fuel rs c e))).
Proof.
  intros Hrs Hnm Hcc HE. pose proof HE as ((HS & Hb & Hmo) & Hex).
  destruct (eng_flush_cases fuel rs c e) as [He _]. cbv zeta in He.
  destruct (vm_render fuel rs (c_sep c) _ (e_v e)) as [v r] eqn:Hr. cbn [fst] in He.
  destruct (vm_render_base _ _ _ _ _ _ _ _ _ Hrs Hnm Hcc (conj HS Hb) Hr) as [HVB1 Hp1].
  pose proof (shape_code _ _ (vm_render_shape _ _ _ _ _ _ _ Hr)) as Hcode.
  destruct He as [->|[->|[Hq ->]]]; [exact HE| |].
  - unfold EB, SI. cbn [e_v eset_v e_exiting]. rewrite Hcode. destruct HVB1. auto 6.
  - split; [|discriminate]. cbn [e_v].
    apply (SI_reset _ _ _ HVB1). rewrite Hcode, (Hex Hq). apply move_only_nil.
Qed.

Lemma move_only_root : forall c, wf_sym (cfg_root c) -> move_only (encode (IMove (cfg_root c))).
Proof. intros c H. right. exists (cfg_root c). auto. Qed.

Lemma init_sc_base bits cap c st ca :
  wf_sym (cfg_root c) -> SI bits cap st ca -> SI bits cap (fst (init_sc c st ca)) (snd (init_sc c st ca)).
Proof.
  intros Hroot HS. unfold init_sc. destruct (s_code st) eqn:Hc; [|exact HS].
  assert (H1 : let r := if EngineProofs.stale st then (let '(st', ca', _) := reset_sc st ca in (st', ca')) else (st, ca) in
               SI bits cap (fst r) (snd r)).
  { destruct (EngineProofs.stale st); [|exact HS]. destruct HS as (HS & Hb & _).
    pose proof (SI_reset bits cap (mkVm st ca new_page [] [] false) (conj HS Hb)) as H.
    cbn [v_st] in H. rewrite Hc, eng_reset_inner_sc in H. cbn [v_st v_ca] in H.
    destruct (reset_sc st ca) as [[st' ca'] r]. exact (H move_only_nil). }
  cbv zeta in H1. destruct (if EngineProofs.stale st then _ else _) as [s1 ca1]. destruct H1 as (H1 & Hb1 & _).
  apply SI_set_input_raw; [apply SI_set_code; auto using cok_move_root, move_only_root|].
  exact (SC_input _ _ _ _ _ (proj1 HS) eq_refl).
Qed.

Lemma eng_exec_inner_base bits cap fuel rs c e :
  rs_wf bits cap true rs -> rs_named rs -> EB bits cap e -> e_exiting e = false ->
  EB bits cap (fst (fst (eng_exec_inner fuel rs c e))).
Proof.
  intros Hrs Hnm ((HS & Hb & Hmo) & _) Hq.
  pose proof (SI_set_code bits cap _ _ [] HS Hb ltac:(constructor) (fun _ => move_only_nil)) as HS0.
  pose proof HS as (_ & _ & Hcok & _).
  apply (eng_exec_inner_cases (fun x => EB bits cap (fst (fst x)))); [intros _; split; [exact HS0|cbn [fst e_exiting eset_v]; congruence]|].
  intros v1 b s1 _ Hrun. destruct HS0 as (HS0 & Hb0 & _).
  destruct (run_base bits cap rs (c_sep c) Hrs Hnm _ _ _ (vset_st (e_v e) _) _ _ _ (conj HS0 Hb0) Hcok Hmo Hrun) as ([HV1 Hb1] & Hcb & Hmb).
  (* the machine run leaves has no stored code; what is pending is stored by setCode *)
  assert (HS1 : SI bits cap (v_st v1) (v_ca v1)).
  { split; [exact HV1|]. split; [exact Hb1|]. rewrite (shape_code _ _ (run_shape _ _ _ _ _ _ _ _ _ Hrun)).
    intros _. apply move_only_nil. }
  destruct s1; try (split; [exact HS1|cbn [fst e_exiting eset_v]; congruence]).
  destruct (getf (v_st v1) FLAG_TERMINATE); [split; [exact HS1|cbn [fst e_exiting]; congruence]|].
  pose proof (set_code_eng_safe bits cap true (mkEng v1 (e_initd e) (e_exit e) (e_exiting e) true) b HV1 Hcb) as [HS' _].
  cbv zeta. rewrite set_code_eng_eq in *. cbv zeta in *. cbn [e_v e_exiting] in *. specialize (Hmb eq_refl).
  destruct b as [|y b']; [destruct (getf _ FLAG_DIRTY)|];
    (split; [split; [exact HS'|split; [exact Hb1|exact Hmb]]|]); cbn [fst e_exiting eset_v]; auto; congruence.
Qed.

Lemma exec_tail_base bits cap fuel rs c e input :
  rs_wf bits cap true rs -> rs_named rs -> wf_sym (cfg_root c) -> EB bits cap e -> e_exiting e = false ->
  EB bits cap (fst (fst (exec_tail fuel rs c e input))).
Proof.
  intros Hrs Hnm Hroot HE Hq. unfold exec_tail.
  assert (HE2 : EB bits cap (fst (reset_empty c input e)) /\ e_exiting (fst (reset_empty c input e)) = false).
  { apply (reset_empty_cases (fun x => EB bits cap (fst x) /\ e_exiting (fst x) = false)); [auto|]. cbv zeta.
    destruct HE as ((A & B & _) & _). split; [|exact Hq]. split; [|cbn [fst e_exiting eset_v]; congruence].
    apply SI_reset; [|apply move_only_root, Hroot].
    split; [apply SC_set_code; [exact A|apply cok_move_root, Hroot]|exact B]. }
  destruct HE2 as [HE2 Hq2]. apply then_ok_fst; [exact HE2|intros _].
  destruct ((0 <? len input) && negb (valid_input_b input)); [exact HE2|].
  rewrite take_input_eq. destruct (N.ltb_spec INPUT_LIMIT (len input)); [exact HE2|]. cbn [then_ok].
  apply eng_exec_inner_base; [exact Hrs|exact Hnm| |exact Hq2].
  split; [apply SI_set_input_raw; [apply HE2|assumption]|cbn [e_exiting eset_v fed]; congruence].
Qed.

Definition SB (bits cap : N) (sn : option snapshot) : Prop :=
  match sn with Some (st, ca) => SI bits cap st ca | None => True end.

Lemma sess_base c o : cfg_ok c -> SB (cfg_bits c) (c_cachesize c) o ->
  SI (cfg_bits c) (c_cachesize c) (fst (sess c o)) (snd (sess c o)).
Proof.
  intros Hc HS. destruct o as [[st ca]|]; [exact HS|]. cbn [sess fst snd].
  split; [apply fresh_SC; exact Hc|]. split; [reflexivity|]. intros _. left.
  destruct (fresh_state_flagish c) as (_ & _ & _ & _ & E & _). exact E.
Qed.

Lemma request_persisted_base : forall fuel rs c p input,
  rs_wf (cfg_bits c) (c_cachesize c) true rs -> rs_named rs -> catch_calm rs -> cfg_ok c -> c_first c = None ->
  SB (cfg_bits c) (c_cachesize c) (pw_store p) ->
  SB (cfg_bits c) (c_cachesize c) (pw_store (fst (request_persisted fuel rs c p input))).
Proof.
  intros fuel rs c p input Hrs Hnm Hcc Hc Hf HS.
  rewrite request_persisted_fresh by exact Hf.
  pose proof (sess_base c _ Hc HS) as HSe.
  assert (H0 : SB (cfg_bits c) (c_cachesize c) (store0_of c (pw_store p))).
  { unfold store0_of. destruct (pw_store p); [exact HS|]. apply SI_set_input_raw; [exact (sess_base c None Hc I)|exact I]. }
  set (x := if INPUT_LIMIT <? len input then _ else _).
  assert (HX : EB (cfg_bits c) (c_cachesize c) (fst (fst x))).
  { unfold x. destruct (INPUT_LIMIT <? len input); [split; [exact HSe|discriminate]|].
    pose proof (init_sc_base _ _ c _ _ (proj1 Hc) HSe) as Hi. destruct (init_sc c _ _) as [s' ca'].
    apply exec_tail_base; [exact Hrs|exact Hnm|exact (proj1 Hc)| |reflexivity]. split; [exact Hi|discriminate]. }
  pose proof (long_finish_fst (EB _ _) fuel rs c x HX (eng_flush_base _ _ fuel rs c _ Hrs Hnm Hcc HX)) as [HS2 _].
  destruct (long_finish fuel rs c x) as [e2 r].
  apply (pers_of_store (SB _ _)); [exact H0|intros _; apply SI_set_input_raw; [exact HS2|exact I]].
Qed.

Lemma hist_pers_base : forall rs c,
  rs_wf (cfg_bits c) (c_cachesize c) true rs -> rs_named rs -> catch_calm rs -> cfg_ok c -> c_first c = None ->
  forall h p, SB (cfg_bits c) (c_cachesize c) (pw_store p) ->
  SB (cfg_bits c) (c_cachesize c) (pw_store (fst (hist_pers rs c p h))).
Proof.
  intros rs c Hrs Hnm Hcc Hc Hf. induction h as [|[fuel input] h IH]; intros p HS; cbn [hist_pers]; [exact HS|].
  pose proof (request_persisted_base fuel rs c p input Hrs Hnm Hcc Hc Hf HS) as H1.
  destruct (request_persisted fuel rs c p input) as [p' resp]. cbn [fst] in H1.
  specialize (IH p' H1). destruct (hist_pers rs c p' h) as [p'' resps]. exact IH.
Qed.

From Vise Require Import CorrBase EngineCorr EngineMon.

Fixpoint calm_prog (p : list instr) : bool :=
  match p with
  | [] => false
  | IHalt :: _ => true
  | i :: r => negb (navigating i) && calm_prog r
  end.
(* the catch node reaches a HALT before any MOVE / INCMP / CATCH (or does not exist / is empty) *)
Definition quiet_catch_b (a : app) : bool :=
  match alookup catch_sym (a_code a) with
  | Some [] => true
  | Some c => match parse_all c with Ok p => calm_prog p | _ => false end
  | None => true
  end.

Lemma calm_prog_cons : forall i q, calm_prog (i :: q) = true -> i = IHalt \/ (is_halt i = false /\ navigating i = false /\ calm_prog q = true).
Proof.
  intros i q H. destruct i; cbn [calm_prog navigating negb andb] in H; try discriminate; try (left; reflexivity);
    right; (split; [reflexivity|split; [reflexivity|exact H]]).
Qed.

Lemma parse_all_fuel_calm : forall f b acc p,
  parse_all_fuel f b acc = Ok p -> exists q, p = rev acc ++ q /\ (calm_prog q = true -> calm b).
Proof.
  induction f as [|f IH]; intros b acc p H; cbn [parse_all_fuel] in H; [discriminate|].
  destruct (decode_one b) as [[i r]|e|s] eqn:D; try discriminate.
  destruct r as [|x r'].
  - inversion H; subst. exists [i]. split; [reflexivity|].
    intros Hq. destruct (calm_prog_cons _ _ Hq) as [->|(_ & _ & Hx)]; [eapply calm_halt; exact D|discriminate Hx].
  - apply IH in H. destruct H as [q [-> Hq]]. exists (i :: q). split.
    + cbn [rev]. rewrite <- app_assoc. reflexivity.
    + intros HF. destruct (calm_prog_cons _ _ HF) as [->|(Hh & Hn & Hx)]; [eapply calm_halt; exact D|].
      eapply calm_step; [exact D|exact Hn|exact Hh|exact (Hq Hx)].
Qed.

Lemma quiet_catch_sound : forall a, quiet_catch_b a = true -> catch_calm (app_rsrc a).
Proof.
  intros a H c Hc. cbn [app_rsrc rs_code] in Hc. unfold quiet_catch_b in H.
  destruct (alookup catch_sym (a_code a)) as [c0|]; [|discriminate]. injection Hc as <-.
  destruct c0 as [|x c0]; [left; reflexivity|right].
  destruct (parse_all (x :: c0)) as [p| |] eqn:Hp; try discriminate.
  unfold parse_all in Hp. destruct (parse_all_fuel_calm _ _ _ _ Hp) as (q & -> & Hq). exact (Hq H).
Qed.

Lemma no_anon_node_sound : forall a, has_node a [] = false -> rs_named (app_rsrc a).
Proof.
  intros a H c Hc. cbn [app_rsrc rs_code] in Hc. unfold has_node, ahas in H.
  destruct (alookup [] (a_code a)); [discriminate|discriminate].
Qed.

(* all guards of the history theorem, as one boolean (plus c_first c = None) *)
Definition c20_guards (a : app) (c : config) : bool :=
  wf_app_b a c && cfg_okb c && negb (has_croak a) && vals_small (c_cachesize c) a
  && negb (has_node a []) && quiet_catch_b a.

Lemma c20_guards_sound : forall a c, c20_guards a c = true ->
  rs_wf (cfg_bits c) (c_cachesize c) true (app_rsrc a) /\ rs_named (app_rsrc a) /\ catch_calm (app_rsrc a) /\ cfg_ok c.
Proof.
  intros a c H. unfold c20_guards in H. rewrite !andb_true_iff, !negb_true_iff in H.
  destruct H as (((((G1 & G2) & G3) & G4) & G5) & G6).
  split; [apply wf_app_rs_wf_consistent; assumption|]. split; [apply no_anon_node_sound; exact G5|].
  split; [apply quiet_catch_sound; exact G6|apply cfg_okb_sound; exact G2].
Qed.

Lemma history_store_inv : forall a c w lg h,
  c20_guards a c = true -> c_first c = None ->
  SB (cfg_bits c) (c_cachesize c) (pw_store (fst (hist_pers (app_rsrc a) c (mkPw None w lg false) h))).
Proof.
  intros a c w lg h Hg Hf. destruct (c20_guards_sound a c Hg) as (Hrs & Hnm & Hcc & Hc).
  apply hist_pers_base; try assumption. exact I.
Qed.

Lemma SB_builtin : forall c st ca, cfg_ok c -> SC (cfg_bits c) (c_cachesize c) true st ca -> builtin_flags_ok st.
Proof.
  intros c st ca (_ & Hfc & _) (Hb & Hl & _). apply flag_in_range_ok; rewrite Hb; [|exact Hl].
  unfold cfg_bits, w32, FLAG_LANG. rewrite N.mod_small by lia. lia.
Qed.

Lemma prepared_VB : forall c st ca w lg input,
  cfg_ok c -> SB (cfg_bits c) (c_cachesize c) (Some (st, ca)) -> accepted_b input = true ->
  VB (cfg_bits c) (c_cachesize c)
     (mkVm (set_code (prep_state c st input) []) ca (new_vm_page (c_out c) (c_sep c)) w lg false)
  /\ cok (cfg_bits c) true (prep_code c st)
  /\ (s_path st = [] -> move_only (prep_code c st)).
Proof.
  intros c st ca w lg input Hc (HS & Hb & Hmo) Ha.
  assert (Hcok : cok (cfg_bits c) true (prep_code c st)).
  { unfold prep_code. destruct (s_code st) eqn:E; [apply cok_move_root, Hc|rewrite <- E; apply HS]. }
  split; [|split; [exact Hcok|]].
  - split; [|exact Hb]. apply SC_set_code; [|constructor]. apply SC_set_input_raw; [apply SC_set_code; assumption|].
    intros _. unfold accepted_b in Ha. apply andb_prop in Ha as [Ha _]. lia.
  - intros Hp. unfold prep_code. destruct (s_code st) eqn:E; [apply move_only_root, Hc|exact (Hmo Hp)].
Qed.

(* after any history, the stored session and the machine a graceful end hands to the reset meet
   what C20_graceful_end and C20_graceful_end_cache assume *)
Lemma graceful_end_inv : forall a c w lg h fuel input st ca v1 b s lang v' r,
  c20_guards a c = true -> c_first c = None ->
  let rs := app_rsrc a in
  let p := fst (hist_pers rs c (mkPw None w lg false) h) in
  pw_store p = Some (st, ca) -> accepted_b input = true ->
  run fuel rs (c_sep c) (s_lang st) (prep_code c st)
      (mkVm (set_code (prep_state c st input) []) ca (new_vm_page (c_out c) (c_sep c)) (pw_w p) (pw_log p) false) = (v1, b, s) ->
  vm_render fuel rs (c_sep c) lang (exiting_vm v1) = (v', r) ->
  builtin_flags_ok st /\ end_inv (v_st v') (v_ca v').
Proof.
  intros a c w lg h fuel input st ca v1 b s lang v' r Hg Hf rs p Hs Ha Hrun Hrender.
  destruct (c20_guards_sound a c Hg) as (Hrs & Hnm & Hcc & Hc).
  pose proof (history_store_inv a c w lg h Hg Hf) as HSB. fold rs p in HSB. rewrite Hs in HSB.
  split; [exact (SB_builtin c st ca Hc (proj1 HSB))|].
  destruct (prepared_VB c st ca (pw_w p) (pw_log p) input Hc HSB Ha) as (HVB0 & Hcok & Hmo).
  destruct (run_base _ _ rs (c_sep c) Hrs Hnm _ _ _ _ _ _ _ HVB0 Hcok Hmo Hrun) as ([HV1 Hb1] & _ & _).
  assert (HVBx : VB (cfg_bits c) (c_cachesize c) (exiting_vm v1)).
  { split; [|exact Hb1]. apply SC_cache_last, SC_set_code; [exact HV1|constructor]. }
  destruct (vm_render_base _ _ _ _ _ _ _ _ _ Hrs Hnm Hcc HVBx Hrender) as [[HV' Hb'] _].
  split; [exact (SC_nav _ _ _ _ _ HV' eq_refl)|]. split; [exact (SC_CInv _ _ _ _ _ HV' eq_refl)|exact Hb'].
Qed.

(* The guard "no node with the empty name" is needed (finding K-C20-anon, C20_graceful_end_history_refuted_anon):
   "_" at the entry node empties the position (the class model/NavSpec.v calls K-C04-up-at-entry; it is read as the
   documented failure and is no finding) and GetCode("") SUCCEEDS: the anonymous node's LOAD stores into the base
   scope; the graceful end two requests later leaves it *)
Definition app_anon : app :=
  mkApp [nd "root" [IHalt; IInCmp (s2b "_") (s2b "0"); IInCmp (s2b "end1") (s2b "1")];
         ([], encode_prog [ILoad (s2b "aa") 0; IHalt; IInCmp (s2b "root") (s2b "*")]);
         nd "end1" [IHalt]; catch_node]
        [(s2b "root", s2b "root"); ([], s2b "anon"); (s2b "end1", s2b "the end"); (s2b "_catch", s2b "catch")]
        [] [(s2b "aa", [fr "v" []])].
Definition hist_anon : list (nat * bytes) := [(100%nat, []); (100%nat, s2b "0"); (100%nat, s2b "x"); (100%nat, s2b "1")].

(* the history of the corpus application graceful-end that meets every guard (C20_graceful_history_nonvacuous) *)
Definition hist_graceful : list (nat * bytes) := [(100%nat, []); (100%nat, s2b "1")].
