(* Lemmas about model/FsCrash.v (crash-atomicity of the record write), for C12.  In order:
   membership in crash_states (crash_state_at_in); the temp phase of a Put touches the temp file only, at every
   crash point (crash_only_tmp), and leaves the new value there (run_temp_phase); hence put_crash_general and
   put_completes; recovery of the session and of another one; a temp name is no record name and no legacy name;
   what the list open O_TRUNC, write, close does instead (old_oplist_empty_record and the two after it); Dump
   passes over a leftover temp file (dump_ignores_tmp). *)
From Coq Require Import Lia ZifyN ZifyNat ZifyBool.
From Vise Require Import Bytes Errors Consts BytesProofs FsCrash.
Local Open Scope N_scope.

Lemma firstn_in_prefixes (b : bytes) : forall n, In (firstn n b) (prefixes b).
Proof.
  induction b as [|x b IH]; intros n.
  - destruct n; cbn; auto.
  - destruct n as [|n]; cbn [firstn prefixes]; [now left|].
    right. apply in_map. apply IH.
Qed.

Lemma prefixes_are_prefixes (b : bytes) : forall pre, In pre (prefixes b) -> exists suf, b = pre ++ suf.
Proof.
  induction b as [|x b IH]; intros pre Hin; cbn [prefixes] in Hin.
  - destruct Hin as [<-|[]]. now exists [].
  - destruct Hin as [<-|Hin]; [now exists (x :: b)|].
    apply in_map_iff in Hin. destruct Hin as [pre' [<- Hin]].
    destruct (IH _ Hin) as [suf ->]. now exists suf.
Qed.

Lemma crash_states_head fs ops : In fs (crash_states fs ops).
Proof. destruct ops; cbn [crash_states]; now left. Qed.

Lemma crash_states_final : forall ops fs, In (run_ops fs ops) (crash_states fs ops).
Proof.
  induction ops as [|o ops IH]; intros fs; cbn [crash_states run_ops fold_left]; [now left|].
  right. apply in_or_app. right. apply IH.
Qed.

Lemma crash_state_at_in : forall ops fs i k, In (crash_state_at fs ops i k) (crash_states fs ops).
Proof.
  induction ops as [|o ops IH]; intros fs i k.
  - unfold crash_state_at. destruct i; cbn; auto.
  - destruct i as [|i].
    + unfold crash_state_at. cbn [firstn run_ops fold_left nth_error crash_states].
      destruct o; try (now left).
      * right. apply in_or_app. left.
        apply (in_map (fun pre => apply_op fs (Write t pre))). apply firstn_in_prefixes.
      * right. apply in_or_app. left.
        apply (in_map (fun pre => apply_op fs (WriteAt p off pre))). apply firstn_in_prefixes.
    + assert (E : crash_state_at fs (o :: ops) (S i) k = crash_state_at (apply_op fs o) ops i k) by reflexivity.
      rewrite E. cbn [crash_states]. right. apply in_or_app. right. apply IH.
Qed.

(* an operation on the temp file and nothing else: all that Put does before the rename *)
Definition only_tmp (tmp : fname) (o : fsop) : Prop :=
  match o with
  | CreateTemp t | Write t _ | Chmod t | Close t | Remove t => t = tmp
  | _ => False
  end.

Lemma apply_only_tmp tmp o fs q :
  only_tmp tmp o -> q <> tmp -> alookup q (apply_op fs o) = alookup q fs.
Proof.
  destruct o; cbn [only_tmp apply_op]; intros H Hq; try contradiction; subst; try reflexivity.
  - apply alookup_aset_other, Hq.
  - destruct (alookup tmp fs); [apply alookup_aset_other, Hq|reflexivity].
  - apply alookup_aremove_other, Hq.
Qed.

Lemma crash_only_tmp tmp ops :
  Forall (only_tmp tmp) ops ->
  forall fs fs' q, In fs' (crash_states fs ops) -> q <> tmp -> alookup q fs' = alookup q fs.
Proof.
  induction 1 as [|o ops Ho _ IH]; intros fs fs' q Hin Hq; cbn [crash_states] in Hin.
  - destruct Hin as [<-|[]]. reflexivity.
  - destruct Hin as [<-|Hin]; [reflexivity|]. apply in_app_or in Hin. destruct Hin as [Hin|Hin].
    + destruct o; try contradiction. apply in_map_iff in Hin. destruct Hin as [pre [<- _]].
      apply (apply_only_tmp tmp (Write t pre)); assumption.
    + rewrite (IH _ _ _ Hin Hq). apply (apply_only_tmp tmp); assumption.
Qed.

Lemma crash_states_app a : forall fs b fs',
  In fs' (crash_states fs (a ++ b)) ->
  In fs' (crash_states fs a) \/ In fs' (crash_states (run_ops fs a) b).
Proof.
  induction a as [|o a IH]; intros fs b fs' Hin; [right; exact Hin|]. cbn [app crash_states] in *.
  destruct Hin as [<-|Hin]; [left; left; reflexivity|]. apply in_app_or in Hin. destruct Hin as [Hin|Hin].
  - left. right. apply in_or_app. left. exact Hin.
  - apply IH in Hin. destruct Hin as [Hin|Hin]; [left; right; apply in_or_app; right; exact Hin|right; exact Hin].
Qed.

Definition temp_phase (tmp : fname) (chunks : list bytes) : list fsop :=
  CreateTemp tmp :: map (Write tmp) chunks ++ [Chmod tmp; Close tmp].

Lemma put_ops_split tmp p chunks : put_ops_chunked tmp p chunks = temp_phase tmp chunks ++ [Rename tmp p].
Proof. unfold put_ops_chunked, temp_phase. cbn [app]. rewrite <- app_assoc. reflexivity. Qed.

Lemma writes_only_tmp tmp chunks : Forall (only_tmp tmp) (map (Write tmp) chunks).
Proof. apply Forall_map, Forall_forall. reflexivity. Qed.

Lemma temp_phase_only_tmp tmp chunks : Forall (only_tmp tmp) (temp_phase tmp chunks).
Proof. constructor; [reflexivity|]. apply Forall_app. split; [apply writes_only_tmp|repeat constructor]. Qed.

Lemma run_writes tmp : forall chunks acc fs rest,
  run_ops (aset tmp acc fs) (map (Write tmp) chunks ++ rest)
  = run_ops (aset tmp (acc ++ List.concat chunks) fs) rest.
Proof.
  unfold run_ops. induction chunks as [|c cs IH]; intros acc fs rest; cbn [map app List.concat fold_left apply_op].
  - rewrite app_nil_r. reflexivity.
  - rewrite alookup_aset_same, aset_aset, IH, app_assoc. reflexivity.
Qed.

Lemma run_temp_phase tmp chunks fs :
  run_ops fs (temp_phase tmp chunks) = aset tmp (List.concat chunks) fs.
Proof. unfold temp_phase. cbn [run_ops fold_left apply_op]. apply (run_writes tmp chunks []). Qed.

(* the statement shared by the has-old-record and the first-save case *)
Lemma put_crash_general : forall fs p tmp chunks fs',
  tmp <> p ->
  In fs' (crash_states fs (put_ops_chunked tmp p chunks)) ->
  (alookup p fs' = alookup p fs \/ alookup p fs' = Some (List.concat chunks))
  /\ (forall q, q <> p -> q <> tmp -> alookup q fs' = alookup q fs).
Proof.
  intros fs p tmp chunks fs' Hne Hin.
  rewrite put_ops_split in Hin. apply crash_states_app in Hin. destruct Hin as [Hin|Hin].
  - pose proof (crash_only_tmp tmp _ (temp_phase_only_tmp tmp chunks) fs fs') as H. auto.
  - rewrite run_temp_phase in Hin. cbn [crash_states apply_op] in Hin. rewrite alookup_aset_same in Hin.
    destruct Hin as [<-|[<-|[]]].
    + split; [left; apply alookup_aset_other; congruence|intros q _ Hq; apply alookup_aset_other, Hq].
    + split; [right; apply alookup_aset_same|]. intros q Hqp Hqt.
      rewrite alookup_aset_other, alookup_aremove_other by assumption. apply alookup_aset_other, Hqt.
Qed.

Lemma concat_single (new : bytes) : List.concat [new] = new.
Proof. cbn. apply app_nil_r. Qed.

Lemma put_completes : forall fs p tmp chunks,
  tmp <> p ->
  let fs' := run_ops fs (put_ops_chunked tmp p chunks) in
  alookup p fs' = Some (List.concat chunks) /\ alookup tmp fs' = None
  /\ (forall q, q <> p -> q <> tmp -> alookup q fs' = alookup q fs).
Proof.
  intros fs p tmp chunks Hne. cbn zeta. rewrite put_ops_split. unfold run_ops. rewrite fold_left_app.
  fold (run_ops fs (temp_phase tmp chunks)). rewrite run_temp_phase. cbn [fold_left apply_op].
  rewrite alookup_aset_same. split; [apply alookup_aset_same|]. split.
  - rewrite alookup_aset_other by exact Hne. apply alookup_aremove_same.
  - intros q Hqp Hqt. rewrite alookup_aset_other, alookup_aremove_other by assumption.
    apply alookup_aset_other, Hqt.
Qed.

Lemma recover_present valid fs p alt b :
  alookup p fs = Some b -> valid b = true -> recover valid fs p alt = Continued b.
Proof.
  intros Hp Hv. unfold recover, load, fs_get. now rewrite Hp, Hv.
Qed.

Lemma recover_other_session : forall (valid : bytes -> bool) fs p new tmp fs' q altq,
  tmp <> p -> In fs' (crash_states fs (put_ops tmp p new)) ->
  q <> p -> q <> tmp -> altq <> p -> altq <> tmp ->
  recover valid fs' q altq = recover valid fs q altq.
Proof.
  intros valid fs p new tmp fs' q altq Hne Hin Hqp Hqt Hap Hat.
  unfold put_ops in Hin.
  destruct (put_crash_general fs p tmp [new] fs' Hne Hin) as [_ H].
  unfold recover, load, fs_get. now rewrite (H q Hqp Hqt), (H altq Hap Hat).
Qed.

(* a record name never collides with a temp name: its first character is the type byte + '0',
   a temp name starts with '.' (0x2e); the only colliding type byte would be 0xfe *)
Lemma record_name_not_tmp : forall typ sk suffix,
  typ < 256 -> typ <> 254 -> record_name typ sk <> tmp_name suffix.
Proof.
  intros typ sk suffix Hlt Hne Heq. unfold record_name, tmp_name, tmp_prefix in Heq.
  cbn [s2b list_ascii_of_string List.map app] in Heq.
  injection Heq as Hc _. unfold w8, fs_type_offset in Hc.
  change (N_of_ascii "."%char) with 46 in Hc.
  pose proof (N.div_mod (typ + 48) 256 ltac:(discriminate)) as Hd. lia.
Qed.

Lemma tmp_prefix_lit : tmp_prefix = [46; 116; 109; 112; 45].
Proof. reflexivity. Qed.

Lemma alt_name_not_tmp : forall typ sk suffix,
  is_prefix tmp_prefix sk = false -> alt_name typ sk <> tmp_name suffix.
Proof.
  intros typ sk suffix Hnp Heq. unfold alt_name, tmp_name in Heq.
  rewrite tmp_prefix_lit in *.
  change (s2b fs_bin_suffix) with [46; 98; 105; 110] in Heq.
  destruct (typ =? DATATYPE_BIN);
    destruct sk as [|a0 [|a1 [|a2 [|a3 [|a4 a]]]]]; cbn [app] in Heq; try discriminate Heq.
  all: injection Heq as -> -> -> -> -> _; cbn in Hnp; discriminate Hnp.
Qed.

(* right after the truncating open the record is empty: the session is silently restarted *)
Lemma old_oplist_empty_record : forall (valid : bytes -> bool) fs p alt new,
  valid [] = false ->
  exists fs', In fs' (crash_states fs (put_ops_old p new))
    /\ alookup p fs' = Some [] /\ recover valid fs' p alt = FreshStarted.
Proof.
  intros valid fs p alt new Hv. exists (aset p [] fs). split; [|split].
  - unfold put_ops_old. cbn [crash_states apply_op]. right. now left.
  - apply alookup_aset_same.
  - unfold recover, load, fs_get. now rewrite alookup_aset_same, Hv.
Qed.

Lemma old_oplist_partial_record : forall fs p new pre,
  In pre (prefixes new) -> In (aset p pre fs) (crash_states fs (put_ops_old p new)).
Proof.
  intros fs p new pre Hin. unfold put_ops_old. cbn [crash_states apply_op].
  right. right. apply in_or_app. left.
  apply in_map_iff. exists pre. split; [|exact Hin].
  rewrite alookup_aset_same. cbn [app]. apply aset_aset.
Qed.

(* the previous state is then destroyed by ensurePersist's overwrite *)
Lemma old_oplist_loses_session : forall (valid : bytes -> bool) fs p alt new freshrec tmp',
  valid [] = false -> tmp' <> p ->
  exists fs', In fs' (crash_states fs (put_ops_old p new))
    /\ recover valid fs' p alt = FreshStarted
    /\ alookup p (recover_store valid freshrec tmp' fs' p alt) = Some freshrec.
Proof.
  intros valid fs p alt new freshrec tmp' Hv Hne.
  destruct (old_oplist_empty_record valid fs p alt new Hv) as [fs' [Hin [_ Hr]]].
  exists fs'. split; [exact Hin|]. split; [exact Hr|].
  unfold recover_store. rewrite Hr. unfold put_ops.
  destruct (put_completes fs' p tmp' [freshrec] Hne) as [H _].
  now rewrite concat_single in H.
Qed.

(* a name that sorts at or before the temp names (first byte <= '.') is never listed for any
   type byte below 208: its entry key starts with (c - 0x30) mod 256 >= 208 *)
Lemma dump_entry_low_name : forall typ sidp pfx c r,
  c <= 46 -> typ < 208 -> dump_entry typ sidp pfx (c :: r) = None.
Proof.
  intros typ sidp pfx c r Hc Ht. unfold dump_entry. cbn [entry_key nth].
  destruct (from_db_key (sub8 c fs_type_offset :: r)) as [k1|]; [|reflexivity].
  destruct (from_session_key sidp k1) as [kk|]; [|reflexivity].
  cbn [is_prefix].
  assert (E : sub8 c fs_type_offset = c + 208).
  { unfold sub8, fs_type_offset. change (48 mod 256) with 48.
    replace (c + 256 - 48) with (c + 208) by lia. apply N.mod_small. lia. }
  rewrite E. destruct (typ =? c + 208) eqn:E2; [lia|reflexivity].
Qed.

Lemma dump_entry_nil : forall typ sidp pfx, dump_entry typ sidp pfx [] = None.
Proof. reflexivity. Qed.

Lemma bytes_leb_tmp_first : forall n suffix,
  bytes_leb n (tmp_name suffix) = true -> n = [] \/ exists c r, n = c :: r /\ c <= 46.
Proof.
  intros n suffix H. destruct n as [|c r]; [now left|right].
  exists c, r. split; [reflexivity|].
  unfold tmp_name in H. rewrite tmp_prefix_lit in H. cbn [app bytes_leb] in H.
  destruct (c <? 46) eqn:E1; [lia|]. destruct (46 <? c) eqn:E2; [discriminate H|lia].
Qed.

Lemma dump_keys_skip : forall typ sidp pfx n names,
  dump_entry typ sidp pfx n = None -> dump_keys typ sidp pfx (n :: names) = dump_keys typ sidp pfx names.
Proof.
  intros typ sidp pfx n names H. cbn [dump_keys]. rewrite H.
  now destruct (len (entry_key n) <? len (typ :: pfx)).
Qed.

(* in a sorted directory everything before the temp file sorts before it *)
Lemma dump_ignores_tmp : forall typ sidp pfx l1 suffix l2,
  typ < 208 ->
  (forall n, In n l1 -> bytes_leb n (tmp_name suffix) = true) ->
  dump_keys typ sidp pfx (l1 ++ tmp_name suffix :: l2) = dump_keys typ sidp pfx (l1 ++ l2).
Proof.
  intros typ sidp pfx l1 suffix l2 Ht. induction l1 as [|n l1 IH]; intros Hl1.
  - cbn [app]. apply dump_keys_skip. unfold tmp_name. rewrite tmp_prefix_lit. cbn [app].
    apply dump_entry_low_name; lia.
  - cbn [app].
    assert (Hn : dump_entry typ sidp pfx n = None).
    { destruct (bytes_leb_tmp_first n suffix (Hl1 n (or_introl eq_refl))) as [->|[c [r [-> Hc]]]].
      - apply dump_entry_nil.
      - now apply dump_entry_low_name. }
    rewrite !dump_keys_skip by exact Hn. apply IH. intros m Hm. apply Hl1. now right.
Qed.

(* record names of the defined data types sort after every temp name *)
Lemma tmp_sorts_before_records : forall suffix typ sk,
  46 < w8 (typ + fs_type_offset) -> bytes_leb (tmp_name suffix) (record_name typ sk) = true.
Proof.
  intros suffix typ sk H. unfold tmp_name, record_name. rewrite tmp_prefix_lit. cbn [app bytes_leb].
  destruct (46 <? w8 (typ + fs_type_offset)) eqn:E; [reflexivity|lia].
Qed.
