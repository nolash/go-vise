(* The decoder of Codec.v read three ways: it is the strict grammar (C15); each of
   its parsers accepts exactly the byte strings of one shape, consumes a prefix of its input and
   never looks past it; it inverts the encoders (C14: one instruction, in the two steps that Run makes (decode_parts)
   and in decode_one's one; a program; the disassembler's text of an encoded program; the assembler's writers produce
   the bytes of vm.NewLine).  Then the boolean well-formedness tests and the opcode tables. *)
From Coq Require Import Lia ZArith.
From Coq Require Import ZifyN ZifyNat ZifyBool.
From Vise Require Import Bytes Errors Consts Codec BytesProofs.
Local Open Scope N_scope.

Lemma go_index_0 x l : go_index (x :: l) 0 = Ok x.
Proof. reflexivity. Qed.
Lemma go_index_1 x y l : go_index (x :: y :: l) 1 = Ok y.
Proof. reflexivity. Qed.

Lemma go_slice_from_cons1 (x : N) (l : list N) : go_slice_from (x :: l) 1 = Ok l.
Proof.
  unfold go_slice_from. rewrite len_cons.
  destruct (N.ltb_spec (1 + len l) 1); [lia|]. reflexivity.
Qed.

Lemma go_slice_from_ok (b : list N) lo : lo <= len b -> go_slice_from b lo = Ok (drop lo b).
Proof. intros H. unfold go_slice_from. destruct (N.ltb_spec (len b) lo); [lia|reflexivity]. Qed.

Lemma go_slice_ok (b : list N) lo hi :
  lo <= hi -> hi <= len b -> go_slice b lo hi = Ok (take (hi - lo) (drop lo b)).
Proof.
  intros H1 H2. unfold go_slice.
  destruct (N.ltb_spec hi lo); [lia|]. destruct (N.ltb_spec (len b) hi); [lia|]. reflexivity.
Qed.

(* take the else-branch of every comparison whose then-branch lia refutes *)
Ltac kill_if := repeat match goal with
  | |- context [if ?a <? ?b then _ else _] => destruct (N.ltb_spec a b); [lia|]
  end.

(* C15: the decoder is the strict grammar.  On every input it returns what the reference grammar
   accepts, and an error otherwise; never a panic, never anything else. *)

Definition of_opt {A} (o : option A) : res A := match o with Some a => Ok a | None => Err EGen end.

Lemma of_opt_ok {A} (o : option A) a : of_opt o = Ok a <-> o = Some a.
Proof. destruct o; cbn; split; intros H; inversion H; reflexivity. Qed.

Lemma sym_split_exact b : sym_split b = of_opt (strict_sym b).
Proof.
  destruct b as [|sz r]; [reflexivity|]. unfold sym_split. pose proof (len_cons sz r) as Hl.
  kill_if. rewrite go_index_0. cbn [obind strict_sym].
  destruct (N.eqb_spec sz 0); [reflexivity|].
  destruct (N.ltb_spec (len r) sz); destruct (N.ltb_spec (len (sz :: r)) (sz + 1)); try lia; [reflexivity|].
  rewrite go_slice_ok, go_slice_from_ok by lia. replace (1 + sz - 1) with sz by lia. rewrite drop_S. reflexivity.
Qed.

Lemma int_split_exact b : int_split b = of_opt (strict_int b).
Proof.
  destruct b as [|l r]; [reflexivity|]. unfold int_split. pose proof (len_cons l r) as Hl.
  kill_if. rewrite go_index_0. cbn [obind]. rewrite go_slice_from_cons1. cbn [obind strict_int].
  destruct (4 <? l); [reflexivity|]. destruct (N.ltb_spec (len r) l); [reflexivity|].
  rewrite go_slice_ok, go_slice_from_ok by lia. rewrite N.sub_0_r, drop_0. reflexivity.
Qed.

Lemma parse_mode_cons m (r : list N) : parse_mode (m :: r) = Ok (0 <? m, r).
Proof.
  unfold parse_mode. pose proof (len_cons m r). kill_if.
  rewrite go_index_0. cbn [obind]. rewrite go_slice_from_cons1. reflexivity.
Qed.

Lemma parse_mode_exact b : parse_mode b = of_opt (strict_mode b).
Proof. destruct b as [|m r]; [reflexivity|]. apply parse_mode_cons. Qed.

Lemma op_split_exact b :
  op_split b = match b with
               | h :: l :: r => if max_opcode <? h * 256 + l then Err EGen else Ok (h * 256 + l, r)
               | _ => Err EGen
               end.
Proof.
  destruct b as [|h [|l r]]; try reflexivity. unfold op_split.
  pose proof (len_cons h (l :: r)). pose proof (len_cons l r). kill_if.
  rewrite go_index_0. cbn [obind]. rewrite go_index_1. cbn [obind].
  destruct (max_opcode <? h * 256 + l); [reflexivity|]. rewrite go_slice_from_ok by lia. reflexivity.
Qed.

Theorem decode_one_exact b : decode_one b = of_opt (strict_one b).
Proof.
  unfold decode_one. rewrite op_split_exact. destruct b as [|h [|l r]]; try reflexivity.
  cbn [strict_one]. destruct (max_opcode <? h * 256 + l); [reflexivity|]. cbn [obind].
  generalize (h * 256 + l). intros op. unfold parse_args.
  (* One opcode test of parse_args at a time: the destruct decides the same test in strict_one, which asks the
     tests in the same order but for MSINK, asked before INCMP.  So when op is op_INCMP, strict_one is still at
     its MSINK test, now the closed op_INCMP =? op_MSINK, and `change` decides it (the term occurs in no other
     branch).  Under each opcode the splitters are replaced one by one by their strict counterparts. *)
  repeat match goal with
  | |- (if op =? ?c then _ else _) = _ =>
    destruct (N.eqb_spec op c) as [->|_]; cbv iota;
    [ change (op_INCMP =? op_MSINK) with false; cbv beta iota zeta;
      unfold parse_sym_sig, parse_sig, parse_sym_len, parse_sym, parse_two_sym;
      repeat (cbn [obind of_opt]; rewrite ?sym_split_exact, ?int_split_exact, ?parse_mode_exact;
              match goal with |- context [obind (of_opt ?x) _] => destruct x as [[? ?]|] end);
      reflexivity
    | ]
  end.
  reflexivity.
Qed.

Theorem decode_one_strict b i r : decode_one b = Ok (i, r) -> strict_one b = Some (i, r).
Proof. rewrite decode_one_exact. apply of_opt_ok. Qed.

Lemma parse_all_fuel_exact f : forall b acc,
  parse_all_fuel f b acc
  = match strict_all_fuel f b with Some q => Ok (rev acc ++ q) | None => Err EGen end.
Proof.
  induction f as [|f IH]; intros b acc; cbn [parse_all_fuel strict_all_fuel]; [reflexivity|].
  rewrite decode_one_exact. destruct (strict_one b) as [[i r]|]; [|reflexivity]. cbn [of_opt].
  destruct r as [|x r]; [reflexivity|]. rewrite IH. destruct (strict_all_fuel f (x :: r)); [|reflexivity].
  cbn [rev]. rewrite <- app_assoc. reflexivity.
Qed.

Theorem parse_all_exact b : parse_all b = of_opt (strict_all b).
Proof.
  unfold parse_all, strict_all. rewrite parse_all_fuel_exact.
  destruct (strict_all_fuel _ b); reflexivity.
Qed.

Lemma op_split_no_panic b : is_panic (op_split b) = false.
Proof.
  rewrite op_split_exact. destruct b as [|h [|l r]]; try reflexivity.
  destruct (max_opcode <? h * 256 + l); reflexivity.
Qed.

Theorem decode_one_no_panic b : is_panic (decode_one b) = false.
Proof. rewrite decode_one_exact. destruct (strict_one b); reflexivity. Qed.

Lemma parse_args_no_panic op b : is_panic (parse_args op b) = false.
Proof.
  (* a number above max_opcode fails every test and falls through to NOOP; a defined opcode is what decode_one
     runs on the bytes 00 op *)
  destruct (max_opcode <? op) eqn:Hmax.
  - unfold parse_args.
    repeat match goal with
    | |- context [op =? ?c] => destruct (N.eqb_spec op c) as [->|_]; [discriminate Hmax|]
    end.
    reflexivity.
  - pose proof (decode_one_no_panic (0 :: op :: b)) as H. unfold decode_one in H.
    rewrite op_split_exact in H. change (0 * 256 + op) with op in H. rewrite Hmax in H. exact H.
Qed.

Lemma parse_halt b : parse_args op_HALT b = Ok (IHalt, b).
Proof. reflexivity. Qed.

Lemma sym_split_iff b s r : sym_split b = Ok (s, r) <-> b = len s :: s ++ r /\ len s <> 0.
Proof.
  rewrite sym_split_exact, of_opt_ok. split.
  - destruct b as [|sz r0]; cbn [strict_sym]; [discriminate|].
    destruct (N.eqb_spec sz 0); [discriminate|]. destruct (N.ltb_spec (len r0) sz); [discriminate|].
    intros [= <- <-]. rewrite len_take by assumption. unfold take, drop. rewrite firstn_skipn. auto.
  - intros [-> Hs]. cbn [strict_sym]. rewrite len_app.
    destruct (N.eqb_spec (len s) 0); [contradiction|]. destruct (N.ltb_spec (len s + len r) (len s)); [lia|].
    cbn [orb]. rewrite take_app_exact, drop_app_exact by reflexivity. reflexivity.
Qed.

Lemma strict_sym_consumes b s r : strict_sym b = Some (s, r) -> exists sz, b = sz :: s ++ r /\ len s = sz /\ sz <> 0.
Proof. rewrite <- of_opt_ok, <- sym_split_exact, sym_split_iff. intros [-> H]. eauto. Qed.

Lemma int_split_iff b n r : int_split b = Ok (n, r) <-> exists d, b = len d :: d ++ r /\ len d <= 4 /\ unbe d = n.
Proof.
  rewrite int_split_exact, of_opt_ok. split.
  - destruct b as [|l r0]; cbn [strict_int]; [discriminate|].
    destruct (N.ltb_spec 4 l); [discriminate|]. destruct (N.ltb_spec (len r0) l); [discriminate|].
    intros [= <- <-]. exists (take l r0). rewrite len_take by assumption. unfold take, drop. rewrite firstn_skipn. auto.
  - intros (d & -> & Hd & <-). cbn [strict_int]. rewrite len_app.
    destruct (N.ltb_spec 4 (len d)); [lia|]. destruct (N.ltb_spec (len d + len r) (len d)); [lia|].
    cbn [orb]. rewrite take_app_exact, drop_app_exact by reflexivity. reflexivity.
Qed.

Lemma op_split_shape b op r :
  op_split b = Ok (op, r) -> exists h l, b = h :: l :: r /\ op = h * 256 + l /\ (max_opcode <? op) = false.
Proof.
  rewrite op_split_exact. destruct b as [|h [|l r0]]; try discriminate.
  destruct (max_opcode <? h * 256 + l) eqn:E; [discriminate|]. intros H. inversion H; subst. eauto.
Qed.

Definition prefix_parser {A} (p : bytes -> res (A * bytes)) : Prop :=
  forall b x r, p b = Ok (x, r) -> exists pre, b = pre ++ r /\ forall c, p (pre ++ c) = Ok (x, c).

Lemma pp_app {A} (p : bytes -> res (A * bytes)) b c x r :
  prefix_parser p -> p b = Ok (x, r) -> p (b ++ c) = Ok (x, r ++ c).
Proof. intros Hp H. destruct (Hp _ _ _ H) as (pre & -> & Hc). rewrite <- app_assoc. apply Hc. Qed.

Lemma pp_ret {A} (x : A) : prefix_parser (fun b => Ok (x, b)).
Proof. intros b y r [= <- <-]. exists []. auto. Qed.

Lemma pp_bind {A B} (p : bytes -> res (A * bytes)) (q : A -> bytes -> res (B * bytes)) :
  prefix_parser p -> (forall a, prefix_parser (q a)) -> prefix_parser (fun b => obind (p b) (fun '(a, b1) => q a b1)).
Proof.
  intros Hp Hq b x r H. apply obind_ok in H as ([a b1] & H1 & H2).
  destruct (Hp _ _ _ H1) as (pre1 & -> & Hc1), (Hq _ _ _ _ H2) as (pre2 & -> & Hc2).
  exists (pre1 ++ pre2). split; [apply app_assoc|]. intros c. rewrite <- app_assoc, Hc1. apply Hc2.
Qed.

Lemma pp_sym : prefix_parser sym_split.
Proof.
  intros b s r H. apply sym_split_iff in H as [-> Hs]. exists (len s :: s). split; [reflexivity|].
  intros c. apply sym_split_iff. auto.
Qed.

Lemma pp_int : prefix_parser int_split.
Proof.
  intros b n r H. apply int_split_iff in H as (d & -> & Hd). exists (len d :: d). split; [reflexivity|].
  intros c. apply int_split_iff. exists d. auto.
Qed.

Lemma pp_mode : prefix_parser parse_mode.
Proof.
  intros [|m b] x r; [discriminate|]. rewrite parse_mode_cons. intros [= <- <-]. exists [m]. split; [reflexivity|].
  intros c. apply parse_mode_cons.
Qed.

Lemma pp_op : prefix_parser op_split.
Proof.
  intros b op r H. apply op_split_shape in H as (h & l & -> & -> & E). exists [h; l]. split; [reflexivity|].
  intros c. rewrite op_split_exact. cbn [app]. rewrite E. reflexivity.
Qed.

(* the argument parsers are binds of the three field parsers, ending in a return *)
Lemma pp_args op : prefix_parser (parse_args op).
Proof.
  unfold parse_args, parse_sym_sig, parse_sig, parse_sym_len, parse_sym, parse_two_sym.
  repeat match goal with |- context [if ?t then _ else _] => destruct t end;
  repeat first [ apply pp_ret | exact pp_sym | exact pp_int | exact pp_mode
               | apply pp_bind; [|intros ?]
               | match goal with x : (_ * _)%type |- _ => destruct x end ].
Qed.

Lemma pp_decode : prefix_parser decode_one.
Proof. unfold decode_one. apply pp_bind; [exact pp_op|exact pp_args]. Qed.

Lemma sym_split_data s rest : 1 <= len s -> sym_split (len s :: s ++ rest) = Ok (s, rest).
Proof. intros H1. apply sym_split_iff. split; [reflexivity|lia]. Qed.

Lemma int_split_data l d rest :
  l <= 4 -> len d = l -> int_split (l :: d ++ rest) = Ok (unbe d, rest).
Proof. intros Hl <-. apply int_split_iff. eauto. Qed.

Lemma op_split_bytes op rest :
  op <= max_opcode -> op_split ((op / 256) mod 256 :: op mod 256 :: rest) = Ok (op, rest).
Proof.
  (* by the value gen/Consts.v gives max_opcode (12): an opcode fits the low byte *)
  intros Hop. assert (Hop' : op < 256) by (unfold max_opcode in Hop; lia).
  rewrite op_split_exact, (N.div_small op 256), N.mod_0_l, (N.mod_small op 256) by lia.
  change (0 * 256 + op) with op. destruct (N.ltb_spec max_opcode op); [lia|reflexivity].
Qed.

Lemma num_size_bound n : 0 < n -> n < 2 ^ 32 -> 1 <= num_size n <= 4 /\ n < 256 ^ num_size n.
Proof.
  intros Hpos Hlt. unfold num_size.
  assert (Hl : N.log2 n < 32) by (apply N.log2_lt_pow2; lia).
  pose proof (N.log2_spec n Hpos) as [_ Hup].
  split.
  - assert (N.log2 n / 8 < 4) by (apply N.div_lt_upper_bound; lia). lia.
  - replace 256 with (2 ^ 8) by reflexivity. rewrite <- N.pow_mul_r.
    eapply N.lt_le_trans; [exact Hup|]. apply N.pow_le_mono_r; [lia|].
    pose proof (N.div_mod (N.log2 n) 8 ltac:(lia)). pose proof (N.mod_lt (N.log2 n) 8 ltac:(lia)). lia.
Qed.

Lemma min_be_spec n : n < 2 ^ 32 ->
  1 <= len (min_be n) <= 4 /\ unbe (min_be n) = n /\ write_size n = Ok (len (min_be n) :: min_be n).
Proof.
  intros Hlt. unfold min_be, write_size. destruct (N.eqb_spec n 0) as [->|Hn]; [repeat split; cbn; lia|].
  destruct (num_size_bound n ltac:(lia) Hlt) as [[H1 H4] Hb].
  destruct (N.ltb_spec 4 (num_size n)); [lia|]. rewrite len_be, N2Nat.id.
  split; [lia|]. split; [apply unbe_be; rewrite N2Nat.id; exact Hb|reflexivity].
Qed.

Lemma int_split_min_be n rest :
  wf_num n -> int_split (w8 (len (min_be n)) :: min_be n ++ rest) = Ok (n, rest).
Proof.
  intros H. destruct (min_be_spec n H) as [Hl [Hu _]].
  rewrite w8_small, int_split_data by lia. rewrite Hu. reflexivity.
Qed.

Lemma write_size_min_be n : wf_num n -> write_size n = Ok (w8 (len (min_be n)) :: min_be n).
Proof. intros H. destruct (min_be_spec n H) as [Hl [_ Hw]]. rewrite w8_small by lia. exact Hw. Qed.

Lemma write_sym_ok s : len s <= 255 -> write_sym s = Ok (len s :: s).
Proof. intros H. unfold write_sym. destruct (N.ltb_spec 255 (len s)); [lia|reflexivity]. Qed.

Lemma sym_split_w8 s rest : wf_sym s -> sym_split (w8 (len s) :: s ++ rest) = Ok (s, rest).
Proof. intros [_ [H1 H2]]. rewrite w8_small by exact H2. apply sym_split_data, H1. Qed.

Lemma write_sym_w8 s : wf_sym s -> write_sym s = Ok (w8 (len s) :: s).
Proof. intros [_ [_ H2]]. rewrite w8_small by exact H2. apply write_sym_ok, H2. Qed.

Lemma app_cons_assoc {A} (x : A) (a b : list A) : (x :: a) ++ b = x :: a ++ b.
Proof. reflexivity. Qed.

Lemma parse_mode_byte m rest : parse_mode (mode_byte m ++ rest) = Ok (m, rest).
Proof. destruct m; apply parse_mode_cons. Qed.

Lemma parse_two_sym_enc s t rest : wf_sym s -> wf_sym t ->
  parse_two_sym (w8 (len s) :: s ++ w8 (len t) :: t ++ rest) = Ok (s, t, rest).
Proof.
  intros Hs Ht. unfold parse_two_sym. rewrite sym_split_w8 by exact Hs. cbn [obind].
  rewrite sym_split_w8 by exact Ht. reflexivity.
Qed.

Lemma parse_sym_len_enc s n rest : wf_sym s -> wf_num n ->
  parse_sym_len (w8 (len s) :: s ++ w8 (len (min_be n)) :: min_be n ++ rest) = Ok (s, n, rest).
Proof.
  intros Hs Hn. unfold parse_sym_len. rewrite sym_split_w8 by exact Hs. cbn [obind].
  rewrite int_split_min_be by exact Hn. reflexivity.
Qed.

Lemma parse_sig_enc n m rest : wf_num n ->
  parse_sig (w8 (len (min_be n)) :: min_be n ++ mode_byte m ++ rest) = Ok (n, m, rest).
Proof.
  intros Hn. unfold parse_sig. rewrite int_split_min_be by exact Hn. cbn [obind].
  rewrite parse_mode_byte. reflexivity.
Qed.

Lemma parse_sym_sig_enc s n m rest : wf_sym s -> wf_num n ->
  parse_sym_sig (w8 (len s) :: s ++ w8 (len (min_be n)) :: min_be n ++ mode_byte m ++ rest)
  = Ok (s, n, m, rest).
Proof.
  intros Hs Hn. unfold parse_sym_sig. rewrite sym_split_w8 by exact Hs. cbn [obind].
  rewrite int_split_min_be by exact Hn. cbn [obind]. rewrite parse_mode_byte. reflexivity.
Qed.

(* decode_one is op_split, then parse_args on the opcode found.  Run does not call decode_one: it makes the two calls
   itself, because it needs the opcode. *)
Lemma decode_one_of_split b op b1 : op_split b = Ok (op, b1) -> decode_one b = parse_args op b1.
Proof. intros H. unfold decode_one. rewrite H. reflexivity. Qed.

Lemma decode_one_err_split b e :
  decode_one b = Err e ->
  op_split b = Err e \/ exists op b1, op_split b = Ok (op, b1) /\ parse_args op b1 = Err e.
Proof.
  intros H. unfold decode_one in H. destruct (op_split b) as [[op b1]|e0|n] eqn:Hop; cbn [obind] in H.
  - right. exists op, b1. auto.
  - left. congruence.
  - discriminate.
Qed.

Lemma decode_one_ok_split b i r :
  decode_one b = Ok (i, r) <-> exists op b1, op_split b = Ok (op, b1) /\ parse_args op b1 = Ok (i, r).
Proof.
  split.
  - unfold decode_one. intros H. apply obind_ok in H. destruct H as [[op b1] H]. eauto.
  - intros (op & b1 & Hop & Hpa). rewrite (decode_one_of_split _ _ _ Hop). exact Hpa.
Qed.

Definition instr_op (i : instr) : N :=
  match i with
  | INoop => op_NOOP | ICatch _ _ _ => op_CATCH | ICroak _ _ => op_CROAK | ILoad _ _ => op_LOAD
  | IReload _ => op_RELOAD | IMap _ => op_MAP | IMove _ => op_MOVE | IHalt => op_HALT
  | IInCmp _ _ => op_INCMP | IMSink => op_MSINK | IMOut _ _ => op_MOUT | IMNext _ _ => op_MNEXT
  | IMPrev _ _ => op_MPREV
  end.

Lemma decode_parts i rest :
  wf_instr i ->
  exists b1, op_split (encode i ++ rest) = Ok (instr_op i, b1) /\ parse_args (instr_op i) b1 = Ok (i, rest).
Proof.
  destruct i; cbn [wf_instr]; intros Hwf; try contradiction; unfold encode, new_line;
    cbn [map List.concat app instr_op]; repeat (rewrite <- app_assoc; cbn [app]);
    (eexists; split; [apply op_split_bytes; discriminate|]);
    (* the opcode is a literal here, so cbv decides parse_args's chain of tests *)
    cbv [parse_args N.eqb Pos.eqb op_CATCH op_CROAK op_LOAD op_RELOAD op_MAP op_MOVE op_HALT op_INCMP
         op_MSINK op_MOUT op_MNEXT op_MPREV parse_sym];
    rewrite ?parse_sym_sig_enc, ?parse_sig_enc, ?parse_sym_len_enc, ?parse_two_sym_enc, ?sym_split_w8 by apply Hwf;
    reflexivity.
Qed.

Theorem instr_roundtrip_lemma i rest : wf_instr i -> decode_one (encode i ++ rest) = Ok (i, rest).
Proof. intros Hwf. apply decode_one_ok_split. destruct (decode_parts i rest Hwf) as (b1 & H). eauto. Qed.

Lemma encode_shape i : exists a b t, encode i = a :: b :: t.
Proof. destruct i; unfold encode, new_line; cbn [app]; eauto. Qed.

Lemma encode_prog_nonempty i p : encode_prog (i :: p) <> [].
Proof.
  unfold encode_prog. cbn [map List.concat]. destruct (encode_shape i) as [a [b [t ->]]]. discriminate.
Qed.

Lemma parse_all_fuel_prog p : forall acc f,
  Forall wf_instr p -> p <> [] -> (List.length p <= f)%nat ->
  parse_all_fuel f (encode_prog p) acc = Ok (rev acc ++ p).
Proof.
  induction p as [|i p IH]; intros acc f Hwf Hne Hf; [contradiction|].
  destruct f as [|f]; [cbn in Hf; lia|].
  inversion Hwf as [|? ? Hi Hp]; subst.
  cbn [parse_all_fuel]. unfold encode_prog. cbn [map List.concat]. fold (encode_prog p).
  rewrite instr_roundtrip_lemma by exact Hi.
  destruct p as [|j p'].
  - cbn. reflexivity.
  - remember (encode_prog (j :: p')) as e eqn:He.
    destruct e as [|x e']; [symmetry in He; exfalso; exact (encode_prog_nonempty _ _ He)|].
    rewrite IH; [|exact Hp|discriminate|cbn in *; lia].
    cbn [rev]. rewrite <- app_assoc. reflexivity.
Qed.

Lemma encode_len_ge i : (2 <= List.length (encode i))%nat.
Proof. destruct (encode_shape i) as [a [b [t ->]]]. cbn. lia. Qed.

Lemma encode_prog_len p : (List.length p <= List.length (encode_prog p))%nat.
Proof.
  induction p as [|i p IH]; [cbn; lia|].
  unfold encode_prog in *. cbn [map List.concat]. rewrite app_length.
  pose proof (encode_len_ge i). cbn [List.length]. lia.
Qed.

Theorem prog_roundtrip_lemma p :
  Forall wf_instr p -> p <> [] -> parse_all (encode_prog p) = Ok p.
Proof.
  intros Hwf Hne. unfold parse_all.
  rewrite parse_all_fuel_prog; [reflexivity|exact Hwf|exact Hne|].
  pose proof (encode_prog_len p). lia.
Qed.

Theorem disasm_lemma p :
  Forall wf_instr p -> p <> [] -> to_string (encode_prog p) = Ok (print_prog p).
Proof. intros Hwf Hne. unfold to_string. rewrite prog_roundtrip_lemma by assumption. reflexivity. Qed.

Theorem encoders_agree_lemma i : wf_instr i -> encode_asm i = Ok (encode i).
Proof.
  destruct i; cbn [wf_instr]; intros Hwf; try contradiction; unfold encode_asm, wsyms; cbn [fold_left obind];
    rewrite ?write_sym_w8, ?write_size_min_be by tauto; cbn [obind];
    unfold encode, new_line, opcode_bytes; cbn [map List.concat app]; rewrite ?app_nil_r, <- ?app_assoc;
    reflexivity.
Qed.

Lemma bytes_okb_true b : bytes_okb b = true -> bytes_ok b.
Proof. unfold bytes_okb, bytes_ok. rewrite forallb_Forall. apply Forall_impl. intros x. apply N.ltb_lt. Qed.

Lemma wf_symb_true s : wf_symb s = true -> wf_sym s.
Proof.
  unfold wf_symb, wf_sym. intro H.
  apply andb_true_iff in H. destruct H as [H H3].
  apply andb_true_iff in H. destruct H as [H1 H2].
  split; [apply bytes_okb_true; exact H1|].
  split; [apply N.leb_le; exact H2|apply N.leb_le; exact H3].
Qed.

Lemma wf_numb_true n : wf_numb n = true -> wf_num n.
Proof. unfold wf_numb, wf_num. apply N.ltb_lt. Qed.

Lemma and_wf a b (P Q : Prop) : (a = true -> P) -> (b = true -> Q) -> a && b = true -> P /\ Q.
Proof. intros HP HQ H. apply andb_true_iff in H. destruct H. split; auto. Qed.

Lemma wf_instrb_true i : wf_instrb i = true -> wf_instr i.
Proof.
  destruct i; cbn [wf_instrb wf_instr];
    first [ discriminate
          | intros _; exact I
          | apply wf_symb_true
          | apply wf_numb_true
          | apply and_wf; first [apply wf_symb_true | apply wf_numb_true] ].
Qed.

Lemma wf_progb_true p : forallb wf_instrb p = true -> Forall wf_instr p.
Proof. rewrite forallb_Forall. apply Forall_impl, wf_instrb_true. Qed.

Lemma opcode_tables_inverse :
  forallb (fun '(s, n) => existsb (fun '(n', s') => (n =? n') && String.eqb s s') opcode_string) opcode_index = true
  /\ forallb (fun '(n, s) => existsb (fun '(s', n') => (n =? n') && String.eqb s s') opcode_index) opcode_string = true
  /\ forallb (fun '(_, n) => n <=? max_opcode) opcode_index = true.
Proof. vm_compute. auto. Qed.
