(* Flags and bit lists; the three relations between states that the rest is stated over (same_but_flags, same_shape,
   flagish); the case lemmas of the handlers and of runDeadCheck (dead_check_cases); one iteration of Run in pieces
   (loop_pre, on the state loop_st, loop_tail) with the equation run_S; run_inv, the induction on the fuel;
   the congruences (resources that answer alike run alike); the closure vm_ops of the machine's primitive operations,
   through which the other files see what instructions, runs and renderings leave alone; vm_render_keeps for what
   the closure cannot say of Render. *)
From Coq Require Import Lia ZifyN ZifyNat ZifyBool.
From Vise Require Import Bytes Errors Consts EngConsts Codec CacheModel StateModel NavModel RenderModel VmModel BytesProofs
  CodecProofs CacheProofs NavProofs.
Local Open Scope N_scope.

Lemma nth_set_nth_bit_other : forall l n m v, n <> m -> nth n (set_nth_bit m v l) false = nth n l false.
Proof.
  induction l as [|x l IH]; intros n m v Hnm; [destruct m; reflexivity|].
  destruct m as [|m]; destruct n as [|n]; cbn [set_nth_bit nth]; try reflexivity; try congruence.
  apply IH. congruence.
Qed.
Lemma nth_set_nth_bit_same : forall l n v, (n < List.length l)%nat -> nth n (set_nth_bit n v l) false = v.
Proof.
  induction l as [|x l IH]; intros n v Hn; cbn [List.length] in Hn; [lia|].
  destruct n as [|n]; cbn [set_nth_bit nth]; [reflexivity|]. apply IH. lia.
Qed.
(* no bound on n: past the end of the list a bit reads false anyway *)
Lemma nth_set_nth_bit_false : forall l n, nth n (set_nth_bit n false l) false = false.
Proof. induction l as [|x l IH]; intros [|n]; cbn [set_nth_bit nth]; auto. Qed.
Lemma length_set_nth_bit : forall l n v, List.length (set_nth_bit n v l) = List.length l.
Proof. induction l as [|x l IH]; intros [|n] v; cbn [set_nth_bit List.length]; auto. Qed.

(* up to 2040 bits neither the uint32 padding to a multiple of 8 nor the uint8 byte count wraps *)
Lemma to_byte_size_eq b : 0 < b -> b <= 2040 -> to_byte_size b = (b + 7) / 8.
Proof.
  intros Hpos Hle. unfold to_byte_size, w8, w32. destruct (N.eqb_spec b 0); [lia|].
  pose proof (N.div_mod b 8 ltac:(lia)) as Hd. pose proof (N.mod_lt b 8 ltac:(lia)) as Hm.
  set (q := b / 8) in *. set (m := b mod 8) in *. clearbody q m.
  assert (HP : exists t, b + (if m =? 0 then 0 else 8 - m) = t * 8 /\ (b + 7) / 8 = t /\ t <= 255).
  { destruct (N.eqb_spec m 0); [exists q|exists (q + 1)]; (split; [lia|split; [symmetry|lia]]);
      [apply (N.div_unique _ 8 q 7)|apply (N.div_unique _ 8 (q + 1) (m - 1))]; lia. }
  destruct HP as (t & -> & -> & Ht).
  rewrite (N.mod_small (t * 8)) by lia. rewrite N.div_mul by lia. apply N.mod_small. lia.
Qed.

Lemma length_falses : forall n, List.length (falses n) = n.
Proof. induction n as [|n IH]; cbn [falses List.length]; congruence. Qed.
Lemma nth_falses : forall n i, nth i (falses n) false = false.
Proof. induction n as [|n IH]; intros [|i]; cbn [falses nth]; auto. Qed.

Lemma getf_set_flags : forall s f i, getf (set_flags s f) i = nth (N.to_nat i) f false.
Proof. reflexivity. Qed.

Lemma getf_setf_other : forall s i j, i <> j -> getf (setf s j) i = getf s i.
Proof. intros. unfold setf, getf. cbn [s_flags set_flags]. apply nth_set_nth_bit_other. lia. Qed.
Lemma getf_resetf_other : forall s i j, i <> j -> getf (resetf s j) i = getf s i.
Proof. intros. unfold resetf, getf. cbn [s_flags set_flags]. apply nth_set_nth_bit_other. lia. Qed.
Lemma getf_setf_same : forall s i, (N.to_nat i < List.length (s_flags s))%nat -> getf (setf s i) i = true.
Proof. intros s i H. unfold getf, setf. cbn [s_flags set_flags]. apply nth_set_nth_bit_same. exact H. Qed.
Lemma getf_resetf_same : forall s i, getf (resetf s i) i = false.
Proof. intros s i. unfold getf, resetf. cbn [s_flags set_flags]. apply nth_set_nth_bit_false. Qed.

(* no bound on n: past the end of the list nothing is written *)
Lemma set_nth_bit_same : forall l n, set_nth_bit n (nth n l false) l = l.
Proof. induction l as [|x l IH]; intros [|n]; cbn [set_nth_bit nth]; [reflexivity..|rewrite IH; reflexivity]. Qed.
Lemma setf_id : forall s i, getf s i = true -> setf s i = s.
Proof. intros s i H. unfold setf. rewrite <- H. unfold getf. rewrite set_nth_bit_same. destruct s; reflexivity. Qed.
Lemma resetf_id : forall s i, getf s i = false -> resetf s i = s.
Proof. intros s i H. unfold resetf. rewrite <- H. unfold getf. rewrite set_nth_bit_same. destruct s; reflexivity. Qed.

(* Everything but the flag bits, the language included; flagish below lets the language go and fixes the number of
   bits instead.  props/C06i.C06_external_cannot_touch_reserved is stated over it. *)
Definition same_but_flags (a b : state) : Prop :=
  s_code a = s_code b /\ s_path a = s_path b /\ s_bitsize a = s_bitsize b /\ s_idx a = s_idx b
  /\ s_lang a = s_lang b /\ s_input a = s_input b.
Lemma sbf_refl : forall a, same_but_flags a a. Proof. unfold same_but_flags; intuition. Qed.
Lemma sbf_trans : forall a b c, same_but_flags a b -> same_but_flags b c -> same_but_flags a c.
Proof. unfold same_but_flags; intuition congruence. Qed.

(* What the operations of the machine keep of a state.  None touches the extent of the flag field, the stored code
   or the input (same_shape); all but the moves keep the position too (flagish). *)
Definition same_shape (a b : state) : Prop :=
  s_bitsize b = s_bitsize a /\ List.length (s_flags b) = List.length (s_flags a) /\ s_code b = s_code a /\ s_input b = s_input a.
Definition flagish (a b : state) : Prop := s_path b = s_path a /\ s_idx b = s_idx a /\ same_shape a b.

Lemma shape_refl a : same_shape a a. Proof. repeat split. Qed.
Lemma shape_trans a b c : same_shape a b -> same_shape b c -> same_shape a c.
Proof. unfold same_shape. intuition congruence. Qed.
Lemma shape_range a b i : same_shape a b -> flag_in_range b i = flag_in_range a i.
Proof. intros (H1 & H2 & _). unfold flag_in_range, len. rewrite H1, H2. reflexivity. Qed.
Lemma shape_code : forall a b, same_shape a b -> s_code b = s_code a.
Proof. intros a b (_ & _ & H & _). exact H. Qed.
Lemma shape_set_path_idx s p i : same_shape s (set_path_idx s p i). Proof. repeat split. Qed.

Lemma flagish_refl a : flagish a a. Proof. repeat split. Qed.
Lemma flagish_trans a b c : flagish a b -> flagish b c -> flagish a c.
Proof. unfold flagish, same_shape. intuition congruence. Qed.
Lemma flagish_shape a b : flagish a b -> same_shape a b. Proof. intros H. apply H. Qed.
Lemma flagish_range a b i : flagish a b -> flag_in_range b i = flag_in_range a i.
Proof. intros H. apply shape_range, H. Qed.
Lemma flagish_set_flags s f : List.length f = List.length (s_flags s) -> flagish s (set_flags s f).
Proof. intros H. repeat split. exact H. Qed.
Lemma flagish_setf s i : flagish s (setf s i). Proof. apply flagish_set_flags, length_set_nth_bit. Qed.
Lemma flagish_resetf s i : flagish s (resetf s i). Proof. apply flagish_set_flags, length_set_nth_bit. Qed.
Lemma flagish_set_language lk s c : flagish s (st_set_language lk s c).
Proof. unfold st_set_language. destruct c; destruct (lk _); repeat split. Qed.
Lemma sbf_flagish a b : same_but_flags a b -> List.length (s_flags b) = List.length (s_flags a) -> flagish a b.
Proof. intros (H1 & H2 & H3 & H4 & _ & H6) Hl. repeat split; try (symmetry; assumption). exact Hl. Qed.

Definition put_flag (set : bool) (st : state) (f : N) : state := if set then setf st f else resetf st f.

(* the panics are State.SetFlag's and ResetFlag's, on an index outside the configured flag count *)
Lemma apply_flags_cons : forall set f fl st,
  apply_flags set (f :: fl) st =
  if is_writeable_flag f
  then if flag_in_range st f then apply_flags set fl (put_flag set st f) else Panic (if set then 21 else 22)
  else apply_flags set fl st.
Proof.
  intros. cbn [apply_flags]. unfold set_flag, reset_flag, put_flag.
  destruct (is_writeable_flag f), set, (flag_in_range st f); reflexivity.
Qed.

Lemma apply_flags_reserved : forall fl set st st',
  apply_flags set fl st = Ok st' ->
  (forall i, i <= nonwriteable_flag_threshold -> getf st' i = getf st i) /\ same_but_flags st st'.
Proof.
  induction fl as [|f fl IH]; intros set st st' H; [injection H as <-; split; [reflexivity|apply sbf_refl]|].
  rewrite apply_flags_cons in H. destruct (is_writeable_flag f) eqn:Hw; [|exact (IH _ _ _ H)].
  destruct (flag_in_range st f); [|discriminate]. destruct (IH _ _ _ H) as [IH1 IH2]. split.
  - intros i Hi. rewrite IH1 by exact Hi. unfold is_writeable_flag in Hw.
    destruct set; [apply getf_setf_other|apply getf_resetf_other]; lia.
  - refine (sbf_trans _ _ _ _ IH2). destruct set; repeat split.
Qed.

Lemma apply_flags_length : forall fl set st st',
  apply_flags set fl st = Ok st' -> List.length (s_flags st') = List.length (s_flags st).
Proof.
  induction fl as [|f fl IH]; intros set st st' H; [injection H as <-; reflexivity|].
  rewrite apply_flags_cons in H. destruct (is_writeable_flag f); [|exact (IH _ _ _ H)].
  destruct (flag_in_range st f); [|discriminate]. rewrite (IH _ _ _ H). destruct set; apply length_set_nth_bit.
Qed.

Lemma apply_flags_set_head : forall f fl st st',
  is_writeable_flag f = true -> apply_flags true (f :: fl) st = Ok st' ->
  exists st1 c, set_flag st f = Ok (st1, c) /\ apply_flags true fl st1 = Ok st'.
Proof.
  intros f fl st st' Hw H. cbn [apply_flags] in H. rewrite Hw in H.
  destruct (set_flag st f) as [[st1 c]| |]; cbn [obind] in H; try discriminate. eauto.
Qed.

Lemma st_set_language_flags : forall lk s c, s_flags (st_set_language lk s c) = s_flags s.
Proof. intros. unfold st_set_language. destruct c; destruct (lk _); reflexivity. Qed.
Lemma getf_set_language : forall lk s c i, getf (st_set_language lk s c) i = getf s i.
Proof. intros. unfold getf. rewrite st_set_language_flags. reflexivity. Qed.

Lemma nth_fres_In : forall script n fr, nth_fres script n = Some fr -> In fr script.
Proof. intros script n fr. unfold nth_fres. destruct script; [discriminate|]. apply nth_error_In. Qed.

Lemma refresh_reserved : forall rs lang key v v' content s,
  refresh rs lang key v = (v', content, s) ->
  forall i, i <= nonwriteable_flag_threshold ->
    getf (v_st v') i = getf (v_st v) i
    \/ (i = FLAG_LOADFAIL /\ exists m, s = SErr EExternal m).
Proof.
  intros rs lang key v v' content s H i Hi. unfold refresh in H.
  destruct (rs_func rs key) as [script|]; [|injection H as <- _ _; left; reflexivity].
  destruct (nth_fres script _) as [fr|]; [|injection H as <- _ _; left; reflexivity].
  destruct (fr_fail fr).
  - injection H as <- _ <-. cbn [v_st vset_st vlog vset_w].
    destruct (N.eq_dec i FLAG_LOADFAIL) as [->|Hne].
    + right. split; [reflexivity|eauto].
    + left. apply getf_setf_other. exact Hne.
  - destruct (apply_flags false (fr_reset fr) _) as [st1| |] eqn:H1.
    + destruct (apply_flags true (fr_set fr) st1) as [st2| |] eqn:H2.
      * injection H as <- _ _. cbn [v_st vset_st]. left.
        destruct (apply_flags_reserved _ _ _ _ H1) as [R1 _].
        destruct (apply_flags_reserved _ _ _ _ H2) as [R2 _].
        destruct (getf st2 FLAG_LANG); [rewrite getf_set_language|]; rewrite R2, R1 by exact Hi; reflexivity.
      * injection H as <- _ _. left. reflexivity.
      * injection H as <- _ _. left. reflexivity.
    + injection H as <- _ _. left. reflexivity.
    + injection H as <- _ _. left. reflexivity.
Qed.

Lemma run_catch_no_match : forall rs sym sig mode b v,
  match_flag (v_st v) sig mode = Ok false -> run_catch rs sym sig mode b v = (v, b, SOk).
Proof. intros. unfold run_catch. rewrite H. reflexivity. Qed.

Lemma run_catch_match : forall rs sym sig mode b v,
  match_flag (v_st v) sig mode = Ok true ->
  let '(st', ca', nsym, s) := apply_target sym (v_st v) (v_ca v) in
  match s with
  | SOk => match rs_code rs nsym with
           | Ok code => exists v', run_catch rs sym sig mode b v = (v', code, SOk)
                                   /\ v_st v' = st' /\ v_ca v' = ca' /\ v_pg v' = v_pg v
           | _ => exists v' s', run_catch rs sym sig mode b v = (v', b, s') /\ s' <> SOk
           end
  | _ => exists v', run_catch rs sym sig mode b v = (v', b, s)
  end.
Proof.
  intros rs sym sig mode b v H. unfold run_catch. rewrite H.
  destruct (apply_target sym (v_st v) (v_ca v)) as [[[st' ca'] nsym] s].
  destruct s; eauto. unfold fetch_code.
  destruct (rs_observed rs); destruct (rs_code rs nsym) eqn:Hc;
    try (eexists; split; [reflexivity|]; cbn; auto; fail);
    try (do 2 eexists; split; [reflexivity|discriminate]).
Qed.

Lemma run_croak_no_match : forall sep sig mode b v,
  match_flag (v_st v) sig mode = Ok false -> run_croak sep sig mode b v = (v, b, SOk).
Proof. intros. unfold run_croak. rewrite H. reflexivity. Qed.
Lemma run_croak_match : forall sep sig mode b v,
  match_flag (v_st v) sig mode = Ok true ->
  exists v', run_croak sep sig mode b v = (v', [], SOk) /\ v_st v' = v_st v /\ v_ca v' = cache_reset (v_ca v).
Proof. intros. unfold run_croak. rewrite H. eexists. split; [reflexivity|]. cbn. auto. Qed.

Lemma run_terminate_blocks : forall fuel rs sep lang b v,
  getf (v_st v) FLAG_TERMINATE = true -> run (S fuel) rs sep lang b v = (v, [], SOk).
Proof. intros. cbn [run]. rewrite H. reflexivity. Qed.

Lemma dead_check_terminates : forall v,
  getf (v_st v) FLAG_READIN = false ->
  dead_check v = (vset_st v (setf (v_st v) FLAG_TERMINATE), [], SOk).
Proof. intros. unfold dead_check. rewrite H. reflexivity. Qed.
Lemma dead_check_catch : forall v,
  getf (v_st v) FLAG_READIN = true -> getf (v_st v) FLAG_TERMINATE = false ->
  where_sym (v_st v) <> [] -> bytes_eqb (where_sym (v_st v)) catch_sym = false ->
  dead_check v = (vset_pg v (page_with_error (v_pg v) (Some (msg_invalid_input (s_input (v_st v))))), move_catch_code, SOk).
Proof.
  intros v H1 H2 H3 H4. unfold dead_check. rewrite H1, H2. cbn [negb].
  destruct (where_sym (v_st v)) eqn:Hw; [congruence|]. rewrite H4. reflexivity.
Qed.
Lemma dead_check_nowhere v :
  getf (v_st v) FLAG_READIN = true -> getf (v_st v) FLAG_TERMINATE = false ->
  (where_sym (v_st v) = [] \/ where_sym (v_st v) = catch_sym) ->
  dead_check v = (v, [], SErr EGen None).
Proof.
  intros H1 H2 Hw. unfold dead_check. rewrite H1, H2. cbn [negb].
  destruct Hw as [Hw|Hw]; rewrite Hw; reflexivity.
Qed.
Lemma move_catch_cons : exists a b t, move_catch_code = a :: b :: t.
Proof. unfold move_catch_code. apply encode_shape. Qed.

(* all of runDeadCheck: it ends the session when no input is being handled, leaves a terminated one alone, fails where
   there is no node or at _catch, and else goes to _catch with the invalid-input error *)
Inductive dead_out (v : vmst) : hres -> Prop :=
| dead_end : getf (v_st v) FLAG_READIN = false -> dead_out v (vset_st v (setf (v_st v) FLAG_TERMINATE), [], SOk)
| dead_idle : getf (v_st v) FLAG_TERMINATE = true -> dead_out v (v, [], SOk)
| dead_lost : dead_out v (v, [], SErr EGen None)
| dead_catch : where_sym (v_st v) <> catch_sym ->
    dead_out v (vset_pg v (page_with_error (v_pg v) (Some (msg_invalid_input (s_input (v_st v))))), move_catch_code, SOk).
Lemma dead_check_cases v : dead_out v (dead_check v).
Proof.
  unfold dead_check. destruct (getf (v_st v) FLAG_READIN) eqn:Hr; [|apply dead_end, Hr].
  destruct (getf (v_st v) FLAG_TERMINATE) eqn:Ht; [apply dead_idle, Ht|]. cbn [negb].
  destruct (where_sym (v_st v)) eqn:Hw; [apply dead_lost|]. rewrite <- Hw.
  destruct (bytes_eqb _ catch_sym) eqn:E; [apply dead_lost|apply dead_catch, beqb_false, E].
Qed.

Lemma s_input_setf : forall s i, s_input (setf s i) = s_input s. Proof. reflexivity. Qed.
Lemma s_input_resetf : forall s i, s_input (resetf s i) = s_input s. Proof. reflexivity. Qed.

Lemma run_incmp_no_match : forall rs sep dest sel b v input,
  getf (v_st v) FLAG_INMATCH = false -> s_input (v_st v) = Some input ->
  bytes_eqb sel input = false -> bytes_eqb sel star = false ->
  run_incmp rs sep dest sel b v
  = (vlog (vset_st v (setf (v_st v) FLAG_READIN)) (EvInCmp dest sel false), b, SOk).
Proof.
  intros rs sep dest sel b v input Hm Hi Hs Hw. unfold run_incmp. rewrite Hm.
  cbn [andb negb]. destruct v as [st ca pg w lg t]. cbn [v_st vset_st] in *.
  rewrite s_input_setf, Hi, Hw, Hs. cbn [andb orb]. reflexivity.
Qed.

(* INMATCH set, READIN clear: a match was made and consumed; the wildcard does not match any more *)
Lemma run_incmp_after_match_other : forall rs sep dest sel b v input,
  getf (v_st v) FLAG_INMATCH = true -> getf (v_st v) FLAG_READIN = false ->
  s_input (v_st v) = Some input -> bytes_eqb sel input = false ->
  run_incmp rs sep dest sel b v = (vlog v (EvInCmp dest sel false), b, SOk).
Proof.
  intros rs sep dest sel b v input Hm Hr Hi Hs. unfold run_incmp. rewrite Hm, Hr.
  cbn [andb negb]. destruct v as [st ca pg w lg t]. cbn [v_st vset_st] in *. rewrite Hi, Hs.
  cbn [andb orb]. reflexivity.
Qed.

(* INMATCH and READIN both set: a match was made and the move failed with IndexError ("previous" on the first page) *)
Lemma run_incmp_skipped : forall rs sep dest sel b v,
  getf (v_st v) FLAG_INMATCH = true -> getf (v_st v) FLAG_READIN = true ->
  run_incmp rs sep dest sel b v = (vlog v (EvInCmp dest sel false), b, SOk).
Proof. intros. unfold run_incmp. rewrite H, H0. reflexivity. Qed.

Lemma run_incmp_first_match : forall rs sep dest sel b v input,
  getf (v_st v) FLAG_INMATCH = false -> s_input (v_st v) = Some input ->
  (bytes_eqb sel input = true \/ bytes_eqb sel star = true) ->
  let st1 := resetf (setf (setf (v_st v) FLAG_READIN) FLAG_INMATCH) FLAG_READIN in
  let '(st', ca', nsym, s) := apply_target dest st1 (v_ca v) in
  match s with
  | SOk => match rs_code rs nsym with
           | Ok code => exists v', run_incmp rs sep dest sel b v = (v', b ++ code, SOk)
                                   /\ v_st v' = st' /\ v_ca v' = ca'
           | _ => exists v' s', run_incmp rs sep dest sel b v = (v', b, s') /\ s' <> SOk
           end
  | SErr EIndex _ => exists v', run_incmp rs sep dest sel b v = (v', b, SOk)
                                /\ v_st v' = setf st' FLAG_READIN /\ v_ca v' = ca'
  | _ => exists v', run_incmp rs sep dest sel b v = (v', b, s)
  end.
Proof.
  intros rs sep dest sel b v input Hm Hi Hs. unfold run_incmp. rewrite Hm. cbn [andb negb].
  destruct v as [st ca pg w lg t]. cbn [v_st vset_st v_ca] in *. rewrite s_input_setf, Hi.
  assert (Hc : bytes_eqb sel star || bytes_eqb sel input = true).
  { destruct Hs as [->| ->]; [apply orb_true_r|reflexivity]. }
  rewrite Hc.
  destruct (apply_target dest _ ca) as [[[st' ca'] nsym] s].
  destruct s as [|e m|n|].
  - unfold fetch_code.
    destruct (rs_observed rs); destruct (rs_code rs nsym);
      try (eexists; split; [reflexivity|]; cbn; auto; fail);
      try (do 2 eexists; split; [reflexivity|discriminate]).
  - destruct e; try (eexists; reflexivity). eexists. split; [reflexivity|]. cbn. auto.
  - eexists; reflexivity.
  - eexists; reflexivity.
Qed.

Lemma run_move_empty : forall rs sep t b v,
  valid_sym_b t = true -> s_path (v_st v) = [] ->
  run_move rs sep t b v =
  let v1 := vlog (vset_ca (vset_st v (set_path_idx (v_st v) [t] 0)) (cache_push (v_ca v))) (EvMove 0 t t) in
  let v2 := if rs_observed rs then vlog v1 (EvCode t) else v1 in
  match rs_code rs t with
  | Ok code => (vset_pg v2 (vm_reset sep (v_pg v2)), b ++ code, SOk)
  | Err e => (v2, b, SErr e None)
  | Panic n => (v2, b, SPanic n)
  end.
Proof.
  intros rs sep t b v Hv Hp. unfold run_move, fetch_code. rewrite apply_named_from_empty by assumption.
  destruct (rs_observed rs); destruct (rs_code rs t); reflexivity.
Qed.

Lemma run_load_visible : forall rs lang sym sz b v val,
  cache_get (v_ca v) sym = Ok val -> run_load rs lang sym sz b v = (v, b, SOk).
Proof. intros. unfold run_load. rewrite H. reflexivity. Qed.

Lemma run_load_stores : forall rs lang sym sz b v v1 content ca',
  (forall x, cache_get (v_ca v) sym <> Ok x) -> (forall n, cache_get (v_ca v) sym <> Panic n) ->
  refresh rs lang sym v = (v1, content, SOk) ->
  cache_add (v_ca v1) sym content (w16 sz) = Ok ca' ->
  run_load rs lang sym sz b v = (vset_ca v1 ca', b, SOk).
Proof.
  intros rs lang sym sz b v v1 content ca' H1 H2 Hr Ha. unfold run_load.
  destruct (cache_get (v_ca v) sym) eqn:Hg; [exfalso; eapply H1; reflexivity| |exfalso; eapply H2; reflexivity].
  rewrite Hr, Ha. reflexivity.
Qed.

Lemma run_load_over_limit : forall rs lang sym sz b v v1 content e,
  cache_get (v_ca v) sym = Err e ->
  refresh rs lang sym v = (v1, content, SOk) ->
  0 < w16 sz -> w16 sz < len content ->
  run_load rs lang sym sz b v = (v1, b, SErr EGen None).
Proof.
  intros rs lang sym sz b v v1 content e Hg Hr H0 Hl. unfold run_load. rewrite Hg, Hr.
  unfold cache_add.
  assert (Hc : (0 <? w16 sz) && (w16 sz <? len content) = true).
  { apply andb_true_intro. split; apply N.ltb_lt; assumption. }
  rewrite Hc. reflexivity.
Qed.

Lemma page_map_no_panic c pg key : is_panic (page_map c pg key) = false.
Proof.
  unfold page_map, cache_get, cache_reserved. destruct (frame_of c key); [|reflexivity]. cbn [obind].
  destruct (alookup key (c_sizes c)); [|reflexivity]. cbn [obind].
  match goal with |- context [if ?c then _ else _] => destruct c end; reflexivity.
Qed.

(* An iteration is: the preamble (LANG and WAIT consumed, page reset after a HALT, DIRTY set),
   decoding, the handler, and — unless the instruction was HALT — runErrCheck, then runDeadCheck
   once the code is used up, then the loop. *)
Definition loop_lang (lang : option bytes) (st : state) : option bytes :=
  if getf st FLAG_LANG then match s_lang st with Some l => Some l | None => lang end else lang.

Definition loop_pre (v : vmst) : vmst :=
  let st := resetf (v_st v) FLAG_LANG in
  let wait := getf st FLAG_WAIT in
  let st := resetf st FLAG_WAIT in
  let st := if wait then resetf st FLAG_INMATCH else st in
  let pg := if wait then upd_menu menu_reset (page_reset (page_with_error (v_pg v) None)) else v_pg v in
  vset_pg (vset_st v (setf st FLAG_DIRTY)) pg.

Definition loop_errcheck (r : hres) : hres :=
  let '(v1, b2, s) := r in
  match s with
  | SErr e msg =>
    let v2 := set_page_err v1 msg in
    if getf (v_st v2) FLAG_LOADFAIL && negb (bytes_eqb (where_sym (v_st v2)) catch_sym)
    then (v2, move_catch_code, SOk) else (v2, b2, s)
  | _ => r
  end.

Definition loop_after (k : bytes -> vmst -> hres) (r : hres) : hres :=
  let '(v2, b3, s2) := r in
  match s2 with
  | SOk =>
    match b3 with
    | [] =>
      let '(v3, b4, s3) := dead_check v2 in
      match s3 with
      | SOk => match b4 with [] => (v3, [], SOk) | _ => k b4 v3 end
      | _ => (v3, b4, s3)
      end
    | _ => k b3 v2
    end
  | _ => r
  end.

Definition loop_tail (k : bytes -> vmst -> hres) (op : N) (r : hres) : hres :=
  if op =? op_HALT then r else loop_after k (loop_errcheck r).

(* The pieces repeat the body of `run`; run_S is the equation that ties them to it. *)
Lemma run_S fuel rs sep lang b v :
  run (S fuel) rs sep lang b v =
  if getf (v_st v) FLAG_TERMINATE then (v, [], SOk) else
  let lang' := loop_lang lang (v_st v) in
  let v0 := loop_pre v in
  match op_split b with
  | Err e => (v0, b, SErr e None)
  | Panic n => (v0, b, SPanic n)
  | Ok (op, b1) =>
    match parse_args op b1 with
    | Panic n => (v0, b1, SPanic n)
    | Ok (i, b2) => loop_tail (run fuel rs sep lang') op (exec_instr rs sep lang' i b2 (vlog v0 (EvInstr op)))
    | Err _ => loop_tail (run fuel rs sep lang') op (v0, b1, SErr EGen None)
    end
  end.
Proof.
  cbn [run]. destruct (getf (v_st v) FLAG_TERMINATE); [reflexivity|].
  destruct (op_split b) as [[op b1]|e|n]; try reflexivity.
  unfold loop_tail, loop_after, loop_errcheck.
  destruct (parse_args op b1) as [[i b2]|e|n]; try reflexivity.
  - destruct (exec_instr _ _ _ _ _ _) as [[v1 b3] s]. destruct (op =? op_HALT); [reflexivity|].
    destruct s; try reflexivity. cbv zeta. destruct (_ && _); reflexivity.
  - destruct (op =? op_HALT); [reflexivity|]. cbv zeta. destruct (_ && _); reflexivity.
Qed.

Lemma run_S_instr fuel rs sep lang i rest v :
  wf_instr i ->
  run (S fuel) rs sep lang (encode i ++ rest) v =
  if getf (v_st v) FLAG_TERMINATE then (v, [], SOk) else
  loop_tail (run fuel rs sep (loop_lang lang (v_st v))) (instr_op i)
    (exec_instr rs sep (loop_lang lang (v_st v)) i rest (vlog (loop_pre v) (EvInstr (instr_op i)))).
Proof. intros Hwf. destruct (decode_parts i rest Hwf) as (b1 & Ho & Hp). rewrite run_S, Ho, Hp. reflexivity. Qed.
Lemma instr_op_halt i : (instr_op i =? op_HALT) = is_halt i.
Proof. destruct i; reflexivity. Qed.

(* The preamble on the state alone: `v_st (loop_pre v)` is `loop_st (v_st v)` by conversion.  So are the spellings
   the other files state their theorems over (Routing's pre_state, Flag's pre_st, the state of Symbol's
   run_prelude), and these lemmas rewrite goals written with any of them. *)
Definition loop_st (st : state) : state :=
  let st := resetf st FLAG_LANG in
  let wait := getf st FLAG_WAIT in
  let st := resetf st FLAG_WAIT in
  setf (if wait then resetf st FLAG_INMATCH else st) FLAG_DIRTY.
Lemma loop_st_sbf st : same_but_flags st (loop_st st).
Proof. unfold loop_st, same_but_flags. cbv zeta. destruct (getf (resetf st FLAG_LANG) FLAG_WAIT); cbn; intuition. Qed.
Lemma loop_st_length st : List.length (s_flags (loop_st st)) = List.length (s_flags st).
Proof.
  unfold loop_st, setf, resetf. cbv zeta. destruct (getf _ FLAG_WAIT); cbn [s_flags set_flags]; rewrite !length_set_nth_bit; reflexivity.
Qed.
Lemma loop_st_flagish st : flagish st (loop_st st).
Proof. apply sbf_flagish; [apply loop_st_sbf|apply loop_st_length]. Qed.
Lemma loop_st_other st i :
  i <> FLAG_LANG -> i <> FLAG_WAIT -> i <> FLAG_INMATCH -> i <> FLAG_DIRTY -> getf (loop_st st) i = getf st i.
Proof.
  intros H1 H2 H3 H4. unfold loop_st. cbv zeta. rewrite getf_setf_other by exact H4.
  destruct (getf (resetf st FLAG_LANG) FLAG_WAIT); repeat (rewrite getf_resetf_other by assumption); reflexivity.
Qed.
Lemma loop_st_lang_wait st : getf (loop_st st) FLAG_LANG = false /\ getf (loop_st st) FLAG_WAIT = false.
Proof.
  unfold loop_st. cbv zeta. destruct (getf (resetf st FLAG_LANG) FLAG_WAIT);
    split; rewrite getf_setf_other, ?getf_resetf_other by discriminate; apply getf_resetf_same.
Qed.
Lemma loop_st_lang st : getf (loop_st st) FLAG_LANG = false. Proof. apply loop_st_lang_wait. Qed.
Lemma loop_st_wait st : getf (loop_st st) FLAG_WAIT = false. Proof. apply loop_st_lang_wait. Qed.
Lemma loop_st_inmatch st :
  getf (loop_st st) FLAG_INMATCH = if getf st FLAG_WAIT then false else getf st FLAG_INMATCH.
Proof.
  unfold loop_st. cbv zeta. rewrite (getf_resetf_other st FLAG_WAIT FLAG_LANG) by discriminate.
  destruct (getf st FLAG_WAIT); rewrite getf_setf_other by discriminate;
    [apply getf_resetf_same|rewrite !getf_resetf_other by discriminate; reflexivity].
Qed.
Lemma loop_st_dirty st : (N.to_nat FLAG_DIRTY < List.length (s_flags st))%nat -> getf (loop_st st) FLAG_DIRTY = true.
Proof.
  intros H. rewrite <- (loop_st_length st) in H. unfold loop_st in *. cbv zeta in *. unfold getf, setf in *.
  cbn [s_flags set_flags] in *. rewrite length_set_nth_bit in H. apply nth_set_nth_bit_same, H.
Qed.

(* Between two instructions of a run the preamble has nothing left to do: LANG and WAIT are consumed,
   DIRTY is set.  On such a machine it is the identity, so that only the first preamble of a
   straight-line piece of code has to be looked at. *)
Definition midrun (st : state) : Prop :=
  getf st FLAG_LANG = false /\ getf st FLAG_WAIT = false /\ getf st FLAG_DIRTY = true.

Lemma loop_pre_midrun v : midrun (v_st v) -> loop_pre v = v.
Proof.
  intros (L & W & D). unfold loop_pre. cbv zeta. rewrite (resetf_id _ _ L), W, (resetf_id _ _ W), (setf_id _ _ D).
  destruct v; reflexivity.
Qed.
Lemma loop_lang_midrun lang st : midrun st -> loop_lang lang st = lang.
Proof. intros (L & _). unfold loop_lang. rewrite L. reflexivity. Qed.
Lemma loop_st_midrun st : (N.to_nat FLAG_DIRTY < List.length (s_flags st))%nat -> midrun (loop_st st).
Proof. intros H. split; [apply loop_st_lang|]. split; [apply loop_st_wait|apply loop_st_dirty, H]. Qed.
(* the INCMP handler changes READIN and INMATCH only *)
Lemma midrun_flag st st' : (forall i, i <> FLAG_READIN -> i <> FLAG_INMATCH -> getf st' i = getf st i) -> midrun st -> midrun st'.
Proof. intros H (L & W & D). unfold midrun. rewrite !H by discriminate. auto. Qed.

(* P and Q as in run_inv below; after a HALT r is returned unchecked, hence Q is asked of it outright *)
Lemma loop_tail_inv (P Q : hres -> Prop) k op r :
  (forall r, P r -> Q r) ->
  (forall v b e m, P (v, b, SErr e m) -> P (loop_errcheck (v, b, SErr e m))) ->
  (forall v, P (v, [], SOk) -> P (dead_check v)) ->
  (forall b v, P (v, b, SOk) -> Q (k b v)) ->
  (if op =? op_HALT then Q else P) r -> Q (loop_tail k op r).
Proof.
  intros HPQ Herr Hdead Hk H1. unfold loop_tail. destruct (op =? op_HALT); [exact H1|]. destruct r as [[v1 b2] s].
  assert (H2 : P (loop_errcheck (v1, b2, s))) by (destruct s; try exact H1; apply Herr, H1).
  destruct (loop_errcheck (v1, b2, s)) as [[v2 b3] s2].
  destruct s2; try (apply HPQ, H2). cbn [loop_after]. destruct b3; [|apply Hk, H2].
  apply Hdead in H2. destruct (dead_check v2) as [[v3 b4] s3].
  destruct s3; try (apply HPQ, H2). destruct b4; [apply HPQ, H2|apply Hk, H2].
Qed.

(* The induction on the fuel, for predicates on machine, pending code and status together.  P is the invariant:
   assumed at the head of an iteration (status OK), asked of every result within it whatever the status and, in
   premise 2, of the two results the loop stops with before decoding: TERMINATE set (the pending code is dropped)
   and out of fuel.  Q is what is concluded of the run; it follows from P and is asked in its own right only of the
   result of a HALT.  Instances: run_vm_ops below (the machine alone), SafetyProofs.run_invariant_pending (code that
   decodes), SliceHeapProofs.run_code_invariant (the code buffer alone). *)
Theorem run_inv (P Q : hres -> Prop) rs sep :
  (forall r, P r -> Q r) ->
  (forall v b, P (v, b, SOk) -> P (v, [], SOk) /\ P (v, b, SFuel)) ->
  (forall v b, P (v, b, SOk) -> P (loop_pre v, b, SOk)) ->
  (forall lang v b, P (v, b, SOk) ->
     match op_split b with
     | Ok (op, b1) =>
       match parse_args op b1 with
       | Ok (i, b2) => (if op =? op_HALT then Q else P) (exec_instr rs sep lang i b2 (vlog v (EvInstr op)))
       | Err _ => P (v, b1, SErr EGen None)
       | Panic n => P (v, b1, SPanic n)
       end
     | Err e => P (v, b, SErr e None)
     | Panic n => P (v, b, SPanic n)
     end) ->
  (forall v b e m, P (v, b, SErr e m) -> P (loop_errcheck (v, b, SErr e m))) ->
  (forall v, P (v, [], SOk) -> P (dead_check v)) ->
  forall fuel lang b v, P (v, b, SOk) -> Q (run fuel rs sep lang b v).
Proof.
  intros HPQ Hstop Hpre Hstep Herr Hdead.
  induction fuel as [|fuel IH]; intros lang b v HP; [apply HPQ, Hstop, HP|].
  rewrite run_S. destruct (getf (v_st v) FLAG_TERMINATE); [apply HPQ, (Hstop _ _ HP)|]. cbv zeta.
  specialize (Hstep (loop_lang lang (v_st v)) _ _ (Hpre _ _ HP)).
  destruct (op_split b) as [[op b1]|e|n]; try (apply HPQ, Hstep).
  destruct (parse_args op b1) as [[i b2]|e|n]; try (apply HPQ, Hstep); apply (loop_tail_inv P Q); auto.
  destruct (op =? op_HALT); [apply HPQ|]; exact Hstep.
Qed.

Lemma loop_tail_keeps (P : vmst -> Prop) k op r :
  (forall v m, P v -> P (set_page_err v m)) ->
  (forall v, P v -> P (fst (fst (dead_check v)))) ->
  (forall b v, P v -> P (fst (fst (k b v)))) ->
  P (fst (fst r)) -> P (fst (fst (loop_tail k op r))).
Proof.
  intros Herr Hdead Hk H1. apply (loop_tail_inv (fun r => P (fst (fst r))) (fun r => P (fst (fst r)))); auto.
  - intros v b e m H. cbn [loop_errcheck]. cbv zeta. destruct (_ && _); apply Herr, H.
  - destruct (op =? op_HALT); exact H1.
Qed.

(* Congruences, by which a resource is swapped for one that answers alike (FlagProofs.run_strip: the requests for
   reserved flags taken out; SymbolProofs.vm_render_ext: the templates and menus of other languages changed).  Run
   sees the resource only through the handlers, and the handlers through refresh and the code fetch. *)
Lemma loop_tail_ext k k' op r : (forall b v, k b v = k' b v) -> loop_tail k op r = loop_tail k' op r.
Proof.
  intros H. unfold loop_tail. destruct (op =? op_HALT); [reflexivity|].
  destruct (loop_errcheck r) as [[v2 b3] [| | |]]; try reflexivity. cbn [loop_after].
  destruct b3; [|apply H]. destruct (dead_check v2) as [[v3 b4] [| | |]]; try reflexivity.
  destruct b4; [reflexivity|apply H].
Qed.

(* refresh is called on the machine given, the fetch on the machine after the move: hence at every x *)
Lemma exec_instr_cong rs rs' sep lang i b v :
  (forall key, refresh rs lang key v = refresh rs' lang key v) ->
  (forall sym x, fetch_code rs sym x = fetch_code rs' sym x) ->
  exec_instr rs sep lang i b v = exec_instr rs' sep lang i b v.
Proof.
  intros Hr Hf. destruct i; cbn [exec_instr]; try reflexivity.
  - unfold run_catch. destruct (match_flag _ _ _) as [[|]| |]; try reflexivity.
    destruct (apply_target _ _ _) as [[[st' ca'] nsym] s1]. rewrite Hf. reflexivity.
  - unfold run_load. rewrite Hr. reflexivity.
  - unfold run_reload. rewrite Hr. reflexivity.
  - unfold run_move. destruct (apply_target _ _ _) as [[[st' ca'] nsym] s1]. rewrite Hf. reflexivity.
  - unfold run_incmp. destruct (_ && _); [reflexivity|]. destruct (s_input _); [|reflexivity].
    destruct (_ || _); [|reflexivity]. destruct (apply_target _ _ _) as [[[st' ca'] nsym] s1]. rewrite Hf. reflexivity.
Qed.

Lemma run_cong rs rs' sep :
  (forall lang key v, refresh rs lang key v = refresh rs' lang key v) ->
  (forall sym v, fetch_code rs sym v = fetch_code rs' sym v) ->
  forall fuel lang b v, run fuel rs sep lang b v = run fuel rs' sep lang b v.
Proof.
  intros Hr Hf. induction fuel as [|fuel IH]; intros lang b v; [reflexivity|].
  rewrite !run_S. destruct (getf (v_st v) FLAG_TERMINATE); [reflexivity|]. cbv zeta.
  destruct (op_split b) as [[op b1]| |]; [|reflexivity..].
  destruct (parse_args op b1) as [[i b2]| |]; [rewrite (exec_instr_cong rs rs') by auto| |reflexivity];
    apply loop_tail_ext; intros; apply IH.
Qed.

(* Render sees it through the two lookups in the language it is given, and through the run after a BrowseError *)
Lemma vm_render_cong fuel rs rs' sep lang v :
  (forall c pg sym idx, page_render c (rs_tpl rs lang) (rs_menu rs lang) pg sym idx
                        = page_render c (rs_tpl rs' lang) (rs_menu rs' lang) pg sym idx) ->
  (forall b x, run fuel rs sep lang b x = run fuel rs' sep lang b x) ->
  vm_render fuel rs sep lang v = vm_render fuel rs' sep lang v.
Proof.
  intros Hp Hr. unfold vm_render. destruct (negb _); [reflexivity|]. cbv zeta.
  destruct (where_sym _) as [|x sym]; [reflexivity|]. rewrite Hp.
  destruct (page_render _ (rs_tpl rs' lang) (rs_menu rs' lang) _ _ _) as [[out|[]|n] pg']; try reflexivity.
  rewrite Hr. destruct (run fuel rs' sep lang move_catch_code _) as [[v1 b1] []]; try reflexivity; rewrite Hp; reflexivity.
Qed.

(* What an instruction, hence a run, and (with rd) Vm.Render can do to the machine: the closure
   vm_ops of a few operations on its components.  The handlers are unfolded once, in
   exec_instr_vm_ops; a property that all the operations keep (by induction over vm_ops, as in vm_ops_frames, or
   through vm_ops_st where only the state is looked at) is kept by every run and every rendering.  The closure is
   deliberately loose: it says nothing of the counters (vo_w: any w'), of log entries other than moves (vo_log), of
   the kind k a move is logged with (vo_target), nor of which instruction does what (for that, HandlerProofs.heff). *)

Definition rs_can_fail (rs : rsrc) : Prop :=
  exists sym script fr, rs_func rs sym = Some script /\ In fr script /\ fr_fail fr = true.

(* on the flags: those the loop and the handlers keep for themselves; LOADFAIL, if a function can
   fail at all; what a function asks for; the language a function's result selects *)
Inductive flag_op (fail : Prop) (a : state) : state -> Prop :=
| fo_set j : In j [FLAG_READIN; FLAG_INMATCH; FLAG_WAIT; FLAG_DIRTY; FLAG_TERMINATE] -> flag_op fail a (setf a j)
| fo_reset j : In j [FLAG_READIN; FLAG_INMATCH; FLAG_WAIT; FLAG_LANG] -> flag_op fail a (resetf a j)
| fo_fail : fail -> flag_op fail a (setf a FLAG_LOADFAIL)
| fo_flags set fl b : apply_flags set fl a = Ok b -> flag_op fail a b
| fo_lang c : flag_op fail a (st_set_language lang_lookup a c).
Arguments fo_set {fail a} j.
Arguments fo_reset {fail a} j.
Arguments fo_fail {fail a}.
Arguments fo_flags {fail a set fl b}.
Arguments fo_lang {fail a} c.

Lemma flag_op_frame fail {a b} : flag_op fail a b -> flagish a b.
Proof.
  destruct 1 as [j _|j _|_|set fl b H|c]; [apply flagish_setf|apply flagish_resetf|apply flagish_setf| |apply flagish_set_language].
  exact (sbf_flagish _ _ (proj2 (apply_flags_reserved _ _ _ _ H)) (apply_flags_length _ _ _ _ H)).
Qed.

(* on the cache: Reset (CROAK), an Add that succeeded (LOAD), Update whatever it answers (RELOAD) *)
Inductive cache_op (ca : cache) : cache -> Prop :=
| co_reset : cache_op ca (cache_reset ca)
| co_add k c sz ca' : cache_add ca k c sz = Ok ca' -> cache_op ca ca'
| co_update k c : cache_op ca (fst (cache_update_raw ca k c)).
Arguments co_add {ca k c sz ca'}.

(* the menu functions of MOUT, MSINK, MNEXT, MPREV *)
Inductive menu_op : (menu -> menu) -> Prop :=
| mo_put s t : menu_op (fun m => menu_put m s t)
| mo_sink : menu_op (fun m => menu_with_pages (menu_with_sink m))
| mo_next t s : menu_op (with_browse_next t s)
| mo_prev t s : menu_op (with_browse_prev t s).

(* on the page: Vm.Reset (MOVE, a firing INCMP, CROAK, Render's recovery), a menu function, the error set or
   cleared (runErrCheck, runDeadCheck), the reset on resuming from WAIT (the preamble), a Map that succeeded, which
   reads the cache (MAP, RELOAD) *)
Inductive page_op (sep : bytes) (ca : cache) (pg : page) : page -> Prop :=
| po_reset : page_op sep ca pg (vm_reset sep pg)
| po_menu f : menu_op f -> page_op sep ca pg (upd_menu f pg)
| po_err e : page_op sep ca pg (page_with_error pg e)
| po_resume : page_op sep ca pg (upd_menu menu_reset (page_reset (page_with_error pg None)))
| po_map k pg' : page_map ca pg k = Ok pg' -> page_op sep ca pg pg'.
Arguments po_map {sep ca pg k pg'}.

(* the one kind of log entry the closure accounts for (vo_target): any other entry may be added freely (vo_log) *)
Definition is_move (e : ev) : bool := match e with EvMove _ _ _ => true | _ => false end.

Inductive vm_ops (fail rd : Prop) (sep : bytes) : vmst -> vmst -> Prop :=
| vo_refl v : vm_ops fail rd sep v v
| vo_trans a b c : vm_ops fail rd sep a b -> vm_ops fail rd sep b c -> vm_ops fail rd sep a c
| vo_st v st' : flag_op fail (v_st v) st' -> vm_ops fail rd sep v (vset_st v st')
| vo_ca v ca' : cache_op (v_ca v) ca' -> vm_ops fail rd sep v (vset_ca v ca')
| vo_pg v pg' : page_op sep (v_ca v) (v_pg v) pg' -> vm_ops fail rd sep v (vset_pg v pg')
| vo_w v w' : vm_ops fail rd sep v (vset_w v w')
| vo_log v e : is_move e = false -> vm_ops fail rd sep v (vlog v e)
| vo_taint v : vm_ops fail rd sep v (vtaint v)
| vo_target v k t st' ca' nsym s : apply_target t (v_st v) (v_ca v) = (st', ca', nsym, s) ->
    vm_ops fail rd sep v (let v1 := vset_ca (vset_st v st') ca' in
                          match s with SOk => vlog v1 (EvMove k t nsym) | _ => v1 end)
(* Vm.Render only: DIRTY cleared, the page as Page.Render leaves it *)
| vo_clean v : rd -> vm_ops fail rd sep v (vset_st v (resetf (v_st v) FLAG_DIRTY))
| vo_render v gt gm sym idx : rd ->
    vm_ops fail rd sep v (vset_pg v (snd (page_render (v_ca v) gt gm (v_pg v) sym idx))).
Arguments vo_trans {fail rd sep a b c}.
Arguments vo_target {fail rd sep} v k {t st' ca' nsym s}.

(* vo_st with the machine written as `vset_st v st`, the form in which a second flag operation meets it *)
Lemma vo_st_next {fail rd sep} v {st st'} : flag_op fail st st' -> vm_ops fail rd sep (vset_st v st) (vset_st v st').
Proof. exact (vo_st fail rd sep (vset_st v st) st'). Qed.

Lemma vm_ops_st (R : state -> state -> Prop) fail (rd : Prop) sep :
  (forall a, R a a) -> (forall a b c, R a b -> R b c -> R a c) ->
  (forall a b, flag_op fail a b -> R a b) -> (forall a p i, R a (set_path_idx a p i)) ->
  (rd -> forall a, R a (resetf a FLAG_DIRTY)) ->
  forall v v', vm_ops fail rd sep v v' -> R (v_st v) (v_st v').
Proof.
  intros Hrefl Htrans Hf Hp Hd.
  induction 1 as [|a b c _ H1 _ H2|v st' H| | | | | |v k t st' ca' nsym s H|v Hr|]; try apply Hrefl;
    [exact (Htrans _ _ _ H1 H2)|exact (Hf _ _ H)| |exact (Hd Hr _)].
  destruct (apply_target_pos_only t (v_st v) (v_ca v)) as (p & i & E). rewrite H in E. cbn [fst] in E.
  destruct s; cbn [v_st vlog vset_ca vset_st]; rewrite E; apply Hp.
Qed.
Lemma vm_ops_shape fail rd sep v v' : vm_ops fail rd sep v v' -> same_shape (v_st v) (v_st v').
Proof.
  apply vm_ops_st; [apply shape_refl|apply shape_trans|intros a b H; apply flagish_shape, (flag_op_frame _ H)
                   |apply shape_set_path_idx|intros _ a; apply flagish_shape, flagish_resetf].
Qed.

Lemma vm_ops_frames fail rd sep v v' : vm_ops fail rd sep v v' -> c_frames (v_ca v) <> [] -> c_frames (v_ca v') <> [].
Proof.
  induction 1 as [| |v st' H|v ca' H| | | | |v k t st' ca' nsym s H| |]; intros Hne; auto.
  - destruct H as [|k c sz ca' H|k c]; [apply cache_reset_frames, Hne| |apply cache_update_frames, Hne].
    pose proof (cache_add_frames (v_ca v) k c sz Hne) as F. rewrite H in F. exact F.
  - destruct s; exact (apply_keeps_frames Hne H).
Qed.

Lemma refresh_vm_ops rs sep lang key v : vm_ops (rs_can_fail rs) False sep v (fst (fst (refresh rs lang key v))).
Proof.
  unfold refresh.
  destruct (rs_func rs key) as [script|] eqn:Hf; [|apply vo_refl].
  destruct (nth_fres script _) as [fr|] eqn:Hn; [|apply vo_refl].
  set (v1 := vlog (vset_w v _) _).
  assert (H1 : vm_ops (rs_can_fail rs) False sep v v1) by (eapply vo_trans; [apply vo_w|apply vo_log; reflexivity]).
  destruct (fr_fail fr) eqn:Hfail.
  - eapply vo_trans; [exact H1|]. apply vo_st, fo_fail. exists key, script, fr. eauto using nth_fres_In.
  - destruct (apply_flags false _ _) as [st1| |] eqn:E1; try exact H1.
    destruct (apply_flags true _ st1) as [st2| |] eqn:E2; try exact H1.
    cbn [fst]. eapply vo_trans; [exact H1|].
    eapply vo_trans; [apply vo_st, (fo_flags E1)|].
    eapply vo_trans; [apply vo_st_next, (fo_flags E2)|].
    destruct (getf st2 FLAG_LANG); [|apply vo_refl].
    apply vo_st_next, fo_lang.
Qed.

Lemma fetch_vm_ops fail rd sep rs sym v : vm_ops fail rd sep v (fst (fetch_code rs sym v)).
Proof. unfold fetch_code. destruct (rs_observed rs); [apply vo_log; reflexivity|apply vo_refl]. Qed.

(* CATCH, MOVE and INCMP: applyTarget, then on success the fetch of the target's code *)
Lemma target_fetch_vm_ops fail rd sep rs k {t} v {st' ca' nsym s} :
  apply_target t (v_st v) (v_ca v) = (st', ca', nsym, s) ->
  vm_ops fail rd sep v (match s with
                     | SOk => fst (fetch_code rs nsym (vlog (vset_ca (vset_st v st') ca') (EvMove k t nsym)))
                     | _ => vset_ca (vset_st v st') ca'
                     end).
Proof.
  intros Ha. destruct s; [eapply vo_trans; [|apply fetch_vm_ops]|..]; exact (vo_target v k Ha).
Qed.

Lemma exec_instr_vm_ops rs sep lang i b v :
  vm_ops (rs_can_fail rs) False sep v (fst (fst (exec_instr rs sep lang i b v))).
Proof.
  destruct i as [|sym sig mode|sig mode|sym sz|sym|sym|sym| |dest sel| | | |]; cbn [exec_instr fst]; try apply vo_refl; try (apply vo_pg, po_menu; constructor).
  - unfold run_catch. destruct (match_flag _ _ _) as [[|]| |]; try apply vo_refl.
    destruct (apply_target sym (v_st v) (v_ca v)) as [[[st' ca'] nsym] s] eqn:Ea.
    pose proof (target_fetch_vm_ops (rs_can_fail rs) False sep rs 2 v Ea) as H.
    destruct s; try exact H. destruct (fetch_code rs nsym _) as [v2 [c|e|n]]; exact H.
  - unfold run_croak. destruct (match_flag _ _ _) as [[|]| |]; try apply vo_refl.
    eapply vo_trans; [apply vo_pg, po_reset|apply vo_ca, co_reset].
  - unfold run_load. destruct (cache_get _ _); try apply vo_refl.
    pose proof (refresh_vm_ops rs sep lang sym v) as Hr. destruct (refresh _ _ _ _) as [[v1 content] [| | |]]; try exact Hr.
    destruct (cache_add _ _ _ _) as [ca'|[]|] eqn:Ea; try exact Hr.
    eapply vo_trans; [exact Hr|apply vo_ca, (co_add Ea)].
  - unfold run_reload.
    pose proof (refresh_vm_ops rs sep lang sym v) as Hr. destruct (refresh _ _ _ _) as [[v1 content] [| | |]]; try exact Hr.
    pose proof (vo_ca (rs_can_fail rs) False sep v1 _ (co_update (v_ca v1) sym content)) as Hu.
    destruct (cache_update_raw _ _ _) as [ca' oe]. cbn [fst] in *.
    destruct (page_map _ _ _) eqn:Em; try exact (vo_trans Hr Hu).
    eapply vo_trans; [exact Hr|]. eapply vo_trans; [exact Hu|apply vo_pg, (po_map Em)].
  - unfold run_map. destruct (page_map _ _ _) eqn:Em; try apply vo_refl. apply vo_pg, (po_map Em).
  - unfold run_move.
    destruct (apply_target sym (v_st v) (v_ca v)) as [[[st' ca'] nsym] s] eqn:Ea.
    pose proof (target_fetch_vm_ops (rs_can_fail rs) False sep rs 0 v Ea) as H.
    destruct s; try exact H. destruct (fetch_code rs nsym _) as [v2 [c|e|n]]; try exact H.
    eapply vo_trans; [exact H|apply vo_pg, po_reset].
  - apply vo_st, fo_set. cbn; auto.
  - unfold run_incmp.
    destruct (getf (v_st v) FLAG_INMATCH && getf (v_st v) FLAG_READIN); [apply vo_log; reflexivity|].
    set (st0 := if getf (v_st v) FLAG_INMATCH then v_st v else setf (v_st v) FLAG_READIN).
    assert (H0 : vm_ops (rs_can_fail rs) False sep v (vset_st v st0)).
    { unfold st0. destruct (getf (v_st v) FLAG_INMATCH); [destruct v; apply vo_refl|apply vo_st, fo_set; cbn; auto]. }
    cbn [v_st v_ca vset_st]. destruct (s_input st0); [|exact H0].
    destruct (_ || _); [|eapply vo_trans; [exact H0|apply vo_log; reflexivity]].
    set (st1 := resetf (setf st0 FLAG_INMATCH) FLAG_READIN).
    assert (H1 : vm_ops (rs_can_fail rs) False sep v (vset_st v st1)).
    { eapply vo_trans; [exact H0|]. eapply vo_trans; [apply vo_st_next, (fo_set FLAG_INMATCH); cbn; auto|].
      apply vo_st_next, fo_reset. cbn; auto. }
    destruct (apply_target dest st1 (v_ca v)) as [[[st' ca'] nsym] s] eqn:Ea.
    destruct s as [|e m| |].
    + set (x := vlog (vset_pg (vset_st v st1) (vm_reset sep (v_pg v))) (EvInCmp dest sel true)).
      assert (Hx : vm_ops (rs_can_fail rs) False sep v x).
      { eapply vo_trans; [exact H1|]. eapply vo_trans; [apply vo_pg, po_reset|apply vo_log; reflexivity]. }
      pose proof (target_fetch_vm_ops (rs_can_fail rs) False sep rs 1 x Ea) as H.
      destruct (fetch_code rs nsym _) as [v3 [c|e|n]]; exact (vo_trans Hx H).
    + pose proof (vo_trans H1 (vo_target (vset_st v st1) 1 Ea)) as H2. cbv zeta in H2. destruct e; try exact H2.
      eapply vo_trans; [exact H2|]. eapply vo_trans; [apply vo_st, (fo_set FLAG_READIN); cbn; auto|apply vo_log; reflexivity].
    + exact (vo_trans H1 (vo_target (vset_st v st1) 1 Ea)).
    + exact (vo_trans H1 (vo_target (vset_st v st1) 1 Ea)).
Qed.

Lemma loop_pre_vm_ops fail sep v : vm_ops fail False sep v (loop_pre v).
Proof.
  unfold loop_pre. cbv zeta.
  eapply vo_trans; [apply vo_st, (fo_reset FLAG_LANG); cbn; auto|].
  eapply vo_trans; [apply vo_st_next, (fo_reset FLAG_WAIT); cbn; auto|].
  destruct (getf (resetf (v_st v) FLAG_LANG) FLAG_WAIT).
  - eapply vo_trans; [apply vo_st_next, (fo_reset FLAG_INMATCH); cbn; auto|].
    eapply vo_trans; [apply vo_st_next, (fo_set FLAG_DIRTY); cbn; auto|]. apply vo_pg, po_resume.
  - refine (vo_st_next v (fo_set FLAG_DIRTY _)). cbn; auto.
Qed.

Lemma set_page_err_vm_ops fail sep v m : vm_ops fail False sep v (set_page_err v m).
Proof. destruct m; cbn [set_page_err]; [|eapply vo_trans; [|apply vo_taint]]; apply vo_pg, po_err. Qed.

Lemma dead_check_vm_ops fail sep v : vm_ops fail False sep v (fst (fst (dead_check v))).
Proof.
  destruct (dead_check_cases v); [apply vo_st, (fo_set FLAG_TERMINATE); do 4 right; left; reflexivity|apply vo_refl..|apply vo_pg, po_err].
Qed.

Theorem run_vm_ops fuel rs sep lang b v : vm_ops (rs_can_fail rs) False sep v (fst (fst (run fuel rs sep lang b v))).
Proof.
  set (P := fun r : hres => vm_ops (rs_can_fail rs) False sep v (fst (fst r))).
  apply (run_inv P P); unfold P; cbn [fst]; auto using vo_refl.
  - intros x c H. exact (vo_trans H (loop_pre_vm_ops _ _ x)).
  - intros l x c H. destruct (op_split c) as [[op b1]| |]; try exact H.
    destruct (parse_args op b1) as [[i b2]| |]; try exact H.
    assert (H' : vm_ops (rs_can_fail rs) False sep v (vlog x (EvInstr op))) by (eapply vo_trans; [exact H|apply vo_log; reflexivity]).
    destruct (op =? op_HALT); exact (vo_trans H' (exec_instr_vm_ops rs sep l i b2 _)).
  - intros x c e m H. cbn [loop_errcheck]. cbv zeta. destruct (_ && _); exact (vo_trans H (set_page_err_vm_ops _ _ x m)).
  - intros x H. exact (vo_trans H (dead_check_vm_ops _ _ x)).
Qed.

(* for the recovery run inside Vm.Render *)
Lemma vm_ops_rd fail rd sep a b : vm_ops fail False sep a b -> vm_ops fail rd sep a b.
Proof.
  induction 1; [apply vo_refl|eapply vo_trans; eassumption|apply vo_st|apply vo_ca|apply vo_pg|apply vo_w|apply vo_log
               |apply vo_taint|apply vo_target|contradiction..]; assumption.
Qed.

Lemma vm_render_vm_ops fuel rs sep lang v : vm_ops (rs_can_fail rs) True sep v (fst (vm_render fuel rs sep lang v)).
Proof.
  unfold vm_render. destruct (negb _); [apply vo_refl|]. cbv zeta.
  eapply vo_trans; [apply vo_clean, I|]. set (v0 := vset_st v _).
  destruct (where_sym (v_st v0)) as [|x sym]; [apply vo_refl|].
  assert (R : forall u sym idx, vm_ops (rs_can_fail rs) True sep u
            (vlog (vset_pg u (snd (page_render (v_ca u) (rs_tpl rs lang) (rs_menu rs lang) (v_pg u) sym idx))) (EvRender sym idx lang)))
    by (intros; eapply vo_trans; [apply vo_render, I|apply vo_log; reflexivity]).
  specialize (R v0 (x :: sym) (s_idx (v_st v0))) as R0. destruct (page_render _ _ _ (v_pg v0) _ _) as [r pg'].
  eapply vo_trans; [exact R0|]. destruct r as [out|[]|n]; try apply vo_refl. cbn [snd].
  eapply vo_trans; [apply vo_pg, po_reset|].
  eapply vo_trans; [apply vm_ops_rd, (run_vm_ops fuel rs sep lang move_catch_code)|].
  destruct (run _ _ _ _ _ _) as [[v1 b1] s]. cbn [fst].
  specialize (R v1 (where_sym (v_st v1)) (s_idx (v_st v1))).
  destruct s; try apply vo_refl; destruct (page_render _ _ _ (v_pg v1) _ _); exact R.
Qed.

(* Render, where vm_render_vm_ops does not serve: for a predicate P that holds through the recovery run only under
   a precondition at that point (an invariant of the resource; the run starts from a position) or that looks at what
   the closure leaves open (SymbolProofs.vm_render_events: the render entries of the log), and for a predicate Qr on
   the result. *)
Lemma vm_render_keeps (P : vmst -> Prop) (Qr : rres -> Prop) fuel rs sep lang v :
  (forall x, P x -> P (vset_st x (resetf (v_st x) FLAG_DIRTY))) ->
  (forall x pg, P x -> P (vset_pg x pg)) -> (forall x sym idx, P x -> P (vlog x (EvRender sym idx lang))) ->
  (forall x, P x -> s_path (v_st x) <> [] ->
     let r := run fuel rs sep lang move_catch_code x in P (fst (fst r)) /\ forall n, snd r = SPanic n -> Qr (RRPanic n)) ->
  Qr (RROk []) -> Qr RRFuel ->
  (forall c pg sym idx, Qr (rres_of (fst (page_render c (rs_tpl rs lang) (rs_menu rs lang) pg sym idx)))) ->
  P v -> P (fst (vm_render fuel rs sep lang v)) /\ Qr (snd (vm_render fuel rs sep lang v)).
Proof.
  intros Hd Hpg Hlog Hrun S0 Sf Sr HP. unfold vm_render. cbv zeta.
  destruct (negb (getf (v_st v) FLAG_DIRTY)); [auto|]. apply Hd in HP.
  set (v0 := vset_st v (resetf (v_st v) FLAG_DIRTY)) in *. clearbody v0.
  destruct (where_sym (v_st v0)) as [|c0 sym0] eqn:Hw; [auto|].
  assert (Hp : s_path (v_st v0) <> []) by (intros E; unfold where_sym in Hw; rewrite E in Hw; discriminate Hw).
  pose proof (Sr (v_ca v0) (v_pg v0) (c0 :: sym0) (s_idx (v_st v0))) as S1.
  destruct (page_render _ _ _ _ _ _) as [r pg']. cbn [fst] in S1.
  assert (H1 : P (vlog (vset_pg v0 pg') (EvRender (c0 :: sym0) (s_idx (v_st v0)) lang))) by auto.
  destruct r as [out|[]|n]; auto.
  match goal with |- context [run fuel rs sep lang move_catch_code ?x] =>
    destruct (Hrun x ltac:(auto) Hp) as [R1 R2]; destruct (run fuel rs sep lang move_catch_code x) as [[v1 b1] s] end.
  cbn [fst snd] in R1, R2.
  pose proof (Sr (v_ca v1) (v_pg v1) (where_sym (v_st v1)) (s_idx (v_st v1))) as S2.
  destruct (page_render _ _ _ _ _ _) as [r1 pg1]. cbn [fst] in S2. destruct s; cbn [fst snd]; auto.
Qed.
