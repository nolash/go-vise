(* Lemmas about the PoResource model (C18, gettext resource), for props/C18po.v.  In order: po_getd by
   cases and through po_translation (an entry with a non-empty msgstr); po_get in closed form (po_get_unfold,
   po_get_cases); what po_get depends on (po_noninterference_lemma) and, for the engine-level theorem, the resource
   around the po lookups (po_rsrc) over tables that agree (po_agree_on; rs_agree_on with rs_same_code is SymbolProofs',
   all that is taken from there); the guard po_default_domain_neutral; the two witness tables. *)
From Vise Require Import Bytes Errors Consts EngConsts Codec CacheModel StateModel NavModel NavSpec
  RenderModel VmModel EngineModel PoModel BytesProofs SymbolProofs.
Local Open Scope N_scope.

Lemma po_getd_present tbl key v : alookup key tbl = Some v -> v <> [] -> po_getd tbl key = v.
Proof. unfold po_getd. intros -> Hne. destruct v; [congruence|reflexivity]. Qed.
Lemma po_getd_absent tbl key : alookup key tbl = None -> po_getd tbl key = key.
Proof. unfold po_getd. intros ->. reflexivity. Qed.
Lemma po_getd_empty tbl key : alookup key tbl = Some [] -> po_getd tbl key = key.
Proof. unfold po_getd. intros ->. reflexivity. Qed.

(* a translation is an entry with a non-empty msgstr *)
Definition po_translation (tbl : list (bytes * bytes)) (key : bytes) : option bytes :=
  match alookup key tbl with Some (x :: v) => Some (x :: v) | _ => None end.
Lemma po_getd_translation tbl key :
  po_getd tbl key = match po_translation tbl key with Some tr => tr | None => key end.
Proof. unfold po_getd, po_translation. destruct (alookup key tbl) as [[|x v]|]; reflexivity. Qed.
Lemma po_translation_some tbl key tr :
  po_translation tbl key = Some tr <-> (alookup key tbl = Some tr /\ tr <> []).
Proof.
  unfold po_translation. destruct (alookup key tbl) as [[|x v]|]; (split; [intros H|intros [H Hne]]);
    inversion H; subst; try split; congruence.
Qed.
Lemma po_translation_none tbl key :
  po_translation tbl key = None <-> (alookup key tbl = None \/ alookup key tbl = Some []).
Proof.
  unfold po_translation. destruct (alookup key tbl) as [[|x v]|]; split; intros H; auto; try discriminate.
  destruct H as [H|H]; discriminate.
Qed.

Definition po_req_lang (dflt : bytes) (ctx : option bytes) : bytes := match ctx with Some l => l | None => dflt end.

Lemma po_get_unfold t dflt regs ctx sym menu :
  po_get t dflt regs ctx sym menu =
  let ln := po_req_lang dflt ctx in
  let src := po_source t dflt sym menu in
  if po_registered dflt regs ln
  then match po_translation (po_table t ln DDefault) src with Some tr => tr | None => src end
  else src.
Proof. unfold po_get, po_req_lang. cbv zeta. rewrite po_getd_translation. reflexivity. Qed.

Lemma po_source_unfold t dflt sym menu :
  po_source t dflt sym menu =
  match po_translation (po_table t dflt (po_keydom menu)) sym with Some s => s | None => sym end.
Proof. unfold po_source. apply po_getd_translation. Qed.

Lemma po_get_cases t dflt regs ctx sym menu :
  let ln := po_req_lang dflt ctx in
  let src := po_source t dflt sym menu in
  (po_registered dflt regs ln = true /\ po_translation (po_table t ln DDefault) src = Some (po_get t dflt regs ctx sym menu))
  \/ po_get t dflt regs ctx sym menu = src.
Proof.
  cbv zeta. rewrite po_get_unfold. cbv zeta. destruct (po_registered dflt regs (po_req_lang dflt ctx)); [|right; reflexivity].
  destruct (po_translation _ _) as [tr|] eqn:E; [left; auto|right; reflexivity].
Qed.

Lemma po_noninterference_lemma t t' dflt regs regs' ctx sym menu :
  let ln := po_req_lang dflt ctx in
  po_table t dflt (po_keydom menu) = po_table t' dflt (po_keydom menu) ->
  po_table t ln DDefault = po_table t' ln DDefault ->
  po_registered dflt regs ln = po_registered dflt regs' ln ->
  po_get t dflt regs ctx sym menu = po_get t' dflt regs' ctx sym menu.
Proof.
  cbv zeta. intros Hk Hd Hr. unfold po_get, po_source. fold (po_req_lang dflt ctx). rewrite Hk, Hd, Hr. reflexivity.
Qed.

(* tables that agree on everything the default language and language l hold *)
Definition po_agree_on (dflt : bytes) (l : bytes) (t t' : potables) : Prop :=
  (forall d, po_table t dflt d = po_table t' dflt d) /\ (forall d, po_table t l d = po_table t' l d).

(* the resource built around the po lookups: code and functions from `base` *)
Definition po_rsrc (base : rsrc) (t : potables) (dflt : bytes) (regs : list bytes) : rsrc :=
  mkRsrc (rs_code base) (po_tpl t dflt regs) (po_menu t dflt regs) (rs_func base) (rs_nofunc base) (rs_observed base).

Lemma po_rsrc_agree base t t' dflt regs lang :
  po_agree_on dflt (po_req_lang dflt lang) t t' -> rs_agree_on lang (po_rsrc base t dflt regs) (po_rsrc base t' dflt regs).
Proof.
  intros [Hd Hl]. unfold rs_agree_on, rs_same_code, po_rsrc. cbn [rs_code rs_func rs_nofunc rs_observed rs_tpl rs_menu].
  split; [repeat split|]. split; intros s; unfold po_tpl, po_menu; f_equal;
    apply po_noninterference_lemma; auto.
Qed.

(* guard: the default language's own "default" domain leaves the source string alone *)
Definition po_default_domain_neutral (t : potables) (dflt : bytes) (sym : bytes) (menu : bool) : bool :=
  let src := po_source t dflt sym menu in bytes_eqb (po_getd (po_table t dflt DDefault) src) src.

(* the tables of C18_po_fallback_refuted_defaultdomain: eng is the default, its x-vise maps foo to "Foo source",
   its own default.po rewrites "Foo source" to "Foo ENG"; nor is registered and has no translation of "Foo source" *)
Definition ex_po_tables : potables :=
  [ (s2b "eng", DKeyTpl, [(s2b "foo", s2b "Foo source"); (s2b "emp", [])]);
    (s2b "eng", DDefault, [(s2b "Foo source", s2b "Foo ENG"); (s2b "bar", s2b "bar eng")]);
    (s2b "nor", DDefault, [(s2b "emp", s2b "tom"); (s2b "Foo source", [])]);
    (s2b "swa", DDefault, [(s2b "Foo source", s2b "Fu swa")]) ].

(* the tables of the Examples C18_po_cases and C18_po_agree_example: translations, eng default, nor and fra registered *)
Definition ex_po_tables2 : potables :=
  [ (s2b "eng", DKeyTpl, [(s2b "root", s2b "Welcome"); (s2b "help", [])]);
    (s2b "eng", DKeyMenu, [(s2b "back", s2b "Go back")]);
    (s2b "nor", DDefault, [(s2b "Welcome", s2b "Velkommen"); (s2b "Go back", s2b "Tilbake"); (s2b "help", s2b "hjelp")]);
    (s2b "nor", DKeyTpl, [(s2b "root", s2b "IGNORED")]);
    (s2b "swa", DDefault, [(s2b "Welcome", s2b "Karibu")]) ].
