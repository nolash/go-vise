(* C04, the engine's rewinds stated exactly, each at every depth, the entry node itself
   included: Engine.reset unwinds every level (unwound_state, unwound_vm); Exec on the empty input under
   ResetOnEmptyInput is exec on the rewound engine with MOVE <entry node> pending (reset_vm, reset_engine,
   reset_on_empty_exec), and that MOVE runs from the empty stack (moved_vm, run_move_from_empty); Init of a new
   engine object around a stale session unwinds it (eng_init_stale).  Last, the fixtures of props/C04reset.v. *)
From Coq Require Import Lia.
From Vise Require Import Bytes Errors Consts EngConsts Codec CacheModel StateModel NavModel NavSpec RenderModel
  VmModel EngineModel BytesProofs CodecProofs CacheProofs NavProofs VmProofs RoutingProofs.
From Vise Require EngineProofs.
Local Open Scope N_scope.

(* the state Engine.reset leaves when there is a stack to unwind: empty stack, index 0, TERMINATE and
   DIRTY clear; Restart then fails silently on the empty stack, so every other field - the code, the
   other flags (WAIT, READIN, INMATCH among them), language and input - stays.  It is EngineProofs.reset_state
   (convertible), of which reset_sc_eq and getf_reset_state* speak. *)
Definition unwound_state (st : state) : state :=
  resetf (resetf (set_path_idx st [] 0) FLAG_TERMINATE) FLAG_DIRTY.
Definition unwound_vm (v : vmst) : vmst :=
  vset_ca (vset_st v (unwound_state (v_st v))) (pops (List.length (s_path (v_st v))) (v_ca v)).

Lemma pops_cache_ok n ca : cache_ok ca -> cache_ok (pops n ca).
Proof. apply pops_ne. Qed.

Lemma unwound_levels st ca : nav_inv st ca -> cache_levels (pops (List.length (s_path st)) ca) = 1.
Proof.
  unfold nav_inv. intros H.
  pose proof (pops_levels (List.length (s_path st)) ca) as P. unfold len in *. lia.
Qed.

(* the entry node's name is a node symbol that the codec round-trips.  (C08's guard of the same name,
   ContinueProofs.root_ok, is the first half alone, as a boolean; no file imports both.) *)
Definition root_ok (c : config) : Prop := valid_sym_b (cfg_root c) = true /\ wf_sym (cfg_root c).

(* the machine after MOVE t executed on machine vI (the handler's entry machine) from the empty stack *)
Definition moved_vm (rs : rsrc) (sep : bytes) (t : bytes) (vI : vmst) : vmst :=
  let v1 := vset_ca (vset_st vI (set_path_idx (v_st vI) [t] 0)) (cache_push (v_ca vI)) in
  let v2 := if rs_observed rs then vlog (vlog v1 (EvMove 0 t t)) (EvCode t) else vlog v1 (EvMove 0 t t) in
  vset_pg v2 (vm_reset sep (v_pg v2)).

Lemma run_move_from_empty fuel rs sep lang t v code :
  valid_sym_b t = true -> wf_sym t -> s_path (v_st v) = [] -> getf (v_st v) FLAG_TERMINATE = false ->
  rs_code rs t = Ok code ->
  let vI := vlog (snd (run_prelude lang v)) (EvInstr op_MOVE) in
  run (S fuel) rs sep lang (encode (IMove t)) v =
  run_post fuel rs sep (fst (run_prelude lang v)) (moved_vm rs sep t vI, code, SOk)
  /\ pos_of (v_st (moved_vm rs sep t vI)) = ([t], 0)
  /\ v_ca (moved_vm rs sep t vI) = cache_push (v_ca v)
  /\ v_log (moved_vm rs sep t vI) = (if rs_observed rs then [EvCode t] else []) ++ EvMove 0 t t :: EvInstr op_MOVE :: v_log v.
Proof.
  intros Hv Hw Hp Ht Hc. cbv zeta. split.
  - rewrite <- (app_nil_r (encode (IMove t))). rewrite run_unfold by exact Hw. rewrite Ht.
    cbn [is_halt exec_instr opcode_of].
    rewrite run_move_empty; [|exact Hv|exact (eq_trans (proj1 (loop_st_flagish (v_st v))) Hp)].
    cbv zeta. unfold moved_vm. rewrite Hc. destruct (rs_observed rs); reflexivity.
  - unfold moved_vm. destruct (rs_observed rs); repeat split.
Qed.

(* Engine.Reset(ctx, true) on a session with a stack: the pending code is REPLACED by MOVE <entry node>,
   then Engine.reset *)
Definition reset_vm (c : config) (v : vmst) : vmst :=
  unwound_vm (vset_st v (set_code (v_st v) (encode (IMove (cfg_root c))))).

Lemma eng_reset_force_exact c e :
  s_path (v_st (e_v e)) <> [] -> eng_reset_force c e = (eset_v e (reset_vm c (e_v e)), SOk).
Proof.
  intros Hne. rewrite EngineProofs.eng_reset_force_eq. unfold EngineProofs.forced, reset_vm, unwound_vm.
  destruct (s_path (v_st (e_v e))) eqn:Ep; [contradiction|]. cbn [v_st vset_st s_path set_code]. rewrite Ep. reflexivity.
Qed.

Lemma reset_vm_facts c v :
  s_code (v_st (reset_vm c v)) = encode (IMove (cfg_root c))
  /\ s_path (v_st (reset_vm c v)) = [] /\ s_idx (v_st (reset_vm c v)) = 0
  /\ getf (v_st (reset_vm c v)) FLAG_TERMINATE = false
  /\ v_ca (reset_vm c v) = pops (List.length (s_path (v_st v))) (v_ca v)
  /\ (nav_inv (v_st v) (v_ca v) -> cache_levels (v_ca (reset_vm c v)) = 1)
  /\ v_log (reset_vm c v) = v_log v /\ s_input (v_st (reset_vm c v)) = s_input (v_st v).
Proof.
  unfold reset_vm, unwound_vm. cbn [v_st v_ca v_log vset_st vset_ca]. repeat split.
  - apply EngineProofs.getf_reset_state_term.
  - exact (unwound_levels _ _).
Qed.

(* the engine Exec hands to exec after a reset-on-empty: the input "" is set *)
Definition reset_engine (c : config) (e1 : engine) : engine :=
  eset_v e1 (vset_st (reset_vm c (e_v e1)) (set_input_raw (v_st (reset_vm c (e_v e1))) (Some []))).

Lemma reset_on_empty_exec {fuel rs c e e1} :
  c_reset_empty c = true -> eng_init fuel rs c e [] = (e1, true, SOk) ->
  s_path (v_st (e_v e1)) <> [] ->
  eng_exec fuel rs c e [] = eng_exec_inner fuel rs c (reset_engine c e1).
Proof.
  intros Hr Hi Hne. rewrite EngineProofs.eng_exec_steps, Hi. cbn [EngineProofs.then_go EngineProofs.then_ok]. unfold EngineProofs.exec_tail, EngineProofs.reset_empty.
  rewrite Hr, eng_reset_force_exact by assumption. reflexivity.
Qed.

(* a stored session without pending code, not terminated, with a stack: the previous request failed *)
Definition stale (st : state) : Prop :=
  s_code st = [] /\ getf st FLAG_TERMINATE = false /\ s_path st <> [].

(* EngineProofs.stale is the boolean test Init makes *)
Lemma stale_true st : stale st -> EngineProofs.stale st = true.
Proof.
  intros (Hc & Ht & Hp). unfold EngineProofs.stale. rewrite Hc, Ht. destruct (s_path st); [contradiction|reflexivity].
Qed.

(* the machine Init leaves for exec.  `input` does not show in it: Init sets the input, unwinds, and puts the
   stored input back together with the MOVE (the definition follows that order) *)
Definition init_unwound_vm (c : config) (v : vmst) (input : bytes) : vmst :=
  let vu := unwound_vm (vset_st v (set_input_raw (v_st v) (Some input))) in
  vset_st vu (set_input_raw (set_code (v_st vu) (encode (IMove (cfg_root c)))) (s_input (v_st v))).

Lemma eng_init_stale fuel rs c e input :
  c_first c = None -> e_initd e = false -> e_execd e = false -> stale (v_st (e_v e)) -> len input <= INPUT_LIMIT ->
  eng_init fuel rs c e input = (mkEng (init_unwound_vm c (e_v e) input) true [] false false, true, SOk).
Proof.
  intros Hf Hi Hx Hst Hlen. pose proof Hst as (Hcode & _ & Hne).
  destruct e as [[st ca pg w lg t] i x q d]. cbn [v_st e_v e_initd e_execd] in *. subst i d.
  rewrite EngineProofs.eng_init_fresh, (proj2 (N.ltb_ge _ _) Hlen) by exact Hf.
  unfold EngineProofs.init_sc. rewrite Hcode, (stale_true _ Hst), EngineProofs.reset_sc_eq.
  destruct (s_path st) eqn:Ep; [contradiction|]. rewrite <- Ep. reflexivity.
Qed.

(* Fixtures of props/C04reset.v.  Corpus case reset-on-empty-at-entry-page: C04_reset_on_empty_corpus,
   C04_reset_on_empty_at_entry_page_nonvacuous *)
Definition nlb : bytes := [10].
Definition roe_app : app :=
  mkApp [(s2b "root", encode_prog [ILoad (s2b "aa") 0; IMap (s2b "aa"); IMNext (s2b "nxt") (s2b "11"); IMPrev (s2b "prv") (s2b "22");
                                    IHalt; IInCmp (s2b ">") (s2b "11"); IInCmp (s2b "<") (s2b "22"); IInCmp (s2b "foo") (s2b "*")]);
         (s2b "foo", encode_prog [IHalt; IInCmp (s2b "_") (s2b "0")]);
         (s2b "_catch", encode_prog [IMOut (s2b "back") (s2b "0"); IHalt; IInCmp (s2b "_") (s2b "0")])]
        [(s2b "root", s2b "r {{.aa}}"); (s2b "foo", s2b "foo"); (s2b "_catch", s2b "catch")]
        []
        [(s2b "aa", [mkFres (s2b "one" ++ nlb ++ s2b "two" ++ nlb ++ s2b "three" ++ nlb ++ s2b "four" ++ nlb ++ s2b "five" ++ nlb ++ s2b "six")
                            false 0 [] [] false])].
Definition roe_cfg : config := mkCfg 30 (s2b "root") 1 0 [] [] true None.

(* corpus case restart-after-error: C04_restart_after_error_corpus, C04_init_unwinds_stale_position_nonvacuous.
   ContinueProofs has the case again for C08 under the same two names: the same application, and a configuration
   that leaves Root empty (cfg_root reads that as "root"). *)
Definition rae_app : app :=
  mkApp [(s2b "root", encode_prog [ILoad (s2b "aa") 5; IMap (s2b "aa"); IHalt; IInCmp (s2b "foo") (s2b "1")]);
         (s2b "foo", encode_prog [IHalt; IInCmp (s2b "_") (s2b "0")]);
         (s2b "_catch", encode_prog [IHalt; IInCmp (s2b "_") (s2b "*")])]
        [(s2b "root", s2b "root {{.aa}}"); (s2b "foo", s2b "foo"); (s2b "_catch", s2b "catch")]
        []
        [(s2b "aa", [mkFres (s2b "toolong") false 0 [] [] false; mkFres (s2b "ok") false 0 [] [] false])].
Definition rae_cfg : config := mkCfg 0 (s2b "root") 1 0 [] [] false None.

(* the position after every request of a list of inputs, and where that leaves the long-lived engine resp. the
   persisted world (there with the pending code of each record); fuel 300 is enough for every request of the two
   cases.  All four Examples read their runs through these two. *)
Fixpoint long_positions (rs : rsrc) (c : config) (e : engine) (inputs : list bytes) : list (list bytes * N) * engine :=
  match inputs with
  | [] => ([], e)
  | i :: r => let '(e1, _) := request_long 300 rs c e i in
              let '(ps, e2) := long_positions rs c e1 r in (pos_of (v_st (e_v e1)) :: ps, e2)
  end.
Fixpoint pers_positions (rs : rsrc) (c : config) (p : pworld) (inputs : list bytes)
  : list (option (list bytes * N * bytes)) * pworld :=
  match inputs with
  | [] => ([], p)
  | i :: r => let '(p1, _) := request_persisted 300 rs c p i in
              let '(ps, p2) := pers_positions rs c p1 r in
              (option_map (fun sn => (pos_of (fst sn), s_code (fst sn))) (pw_store p1) :: ps, p2)
  end.
