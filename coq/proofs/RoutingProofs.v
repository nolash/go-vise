(* C03 (input routing by INCMP) and C04 at engine level (the position changes only through
   logged moves, each according to the move table).  In order: one iteration of Run in the spelling the statements
   of props/C03.v and props/C04reset.v are written over (run_prelude, run_errcheck, run_post; run_unfold), tied to
   VmProofs' loop_* pieces so that the lemmas there apply; C03, blocks of INCMP lines: a line that does not fire
   only logs (block_logs), a block without a match (scan_nomatch), the first match (at_match, match_outcome), the
   lines after it (scan_skip); C04: the position is the fold of the move table over the logged moves
   (pos_follows: vm_ops_follows, run_follows); the engine's resets beside the moves (pos_reach, reach) through
   Flush, Init, Exec and a request; histories; the fixtures of the Examples. *)
From Coq Require Import Lia.
From Vise Require Import Bytes Errors Consts EngConsts Codec CacheModel StateModel NavModel NavSpec RenderModel
  VmModel EngineModel BytesProofs CodecProofs CacheProofs NavProofs VmProofs.
From Vise Require EngineProofs.
Local Open Scope N_scope.

(* what Run does before it decodes the instruction (TERMINATE already tested); WAIT is set when
   execution resumes after a HALT *)
Definition run_prelude (lang : option bytes) (v : vmst) : option bytes * vmst :=
  let st := v_st v in
  let change := getf st FLAG_LANG in
  let st := resetf st FLAG_LANG in
  let lang := if change then match s_lang st with Some l => Some l | None => lang end else lang in
  let wait := getf st FLAG_WAIT in
  let st := resetf st FLAG_WAIT in
  let st := if wait then resetf st FLAG_INMATCH else st in
  let pg := if wait then upd_menu menu_reset (page_reset (page_with_error (v_pg v) None)) else v_pg v in
  let st := setf st FLAG_DIRTY in
  (lang, vset_pg (vset_st v st) pg).

(* runErrCheck *)
Definition run_errcheck (h : hres) : hres :=
  let '(v1, b2, s) := h in
  match s with
  | SErr e msg =>
    let v2 := set_page_err v1 msg in
    if getf (v_st v2) FLAG_LOADFAIL && negb (bytes_eqb (where_sym (v_st v2)) catch_sym)
    then (v2, move_catch_code, SOk) else (v2, b2, s)
  | _ => (v1, b2, s)
  end.

(* what Run does with the handler's result (HALT excepted): runErrCheck, runDeadCheck on empty
   code, and the next iteration *)
Definition run_post (fuel : nat) (rs : rsrc) (sep : bytes) (lang : option bytes) (h : hres) : hres :=
  let '(v2, b3, s2) := run_errcheck h in
  match s2 with
  | SOk =>
    match b3 with
    | [] =>
      let '(v3, b4, s3) := dead_check v2 in
      match s3 with
      | SOk => match b4 with [] => (v3, [], SOk) | _ => run fuel rs sep lang b4 v3 end
      | _ => (v3, b4, s3)
      end
    | _ => run fuel rs sep lang b3 v2
    end
  | _ => (v2, b3, s2)
  end.

(* run_prelude lang v is (loop_lang lang (v_st v), loop_pre v) of VmProofs by computation; run_errcheck and
   run_post agree with loop_errcheck and loop_after after a case split *)
Lemma run_post_loop fuel rs sep lang h :
  run_post fuel rs sep lang h = loop_after (run fuel rs sep lang) (loop_errcheck h).
Proof.
  assert (E : run_errcheck h = loop_errcheck h) by (destruct h as [[v b] []]; reflexivity).
  unfold run_post. rewrite E. destruct (loop_errcheck h) as [[v2 b3] []]; reflexivity.
Qed.

(* CodecProofs.instr_op under the name of the C03 statements (convertible: run_unfold rewrites with
   VmProofs.run_S_instr, which is stated with instr_op) *)
Definition opcode_of (i : instr) : N :=
  match i with
  | INoop => op_NOOP | ICatch _ _ _ => op_CATCH | ICroak _ _ => op_CROAK | ILoad _ _ => op_LOAD
  | IReload _ => op_RELOAD | IMap _ => op_MAP | IMove _ => op_MOVE | IHalt => op_HALT
  | IInCmp _ _ => op_INCMP | IMSink => op_MSINK | IMOut _ _ => op_MOUT | IMNext _ _ => op_MNEXT
  | IMPrev _ _ => op_MPREV
  end.

Lemma run_unfold fuel rs sep lang i rest v :
  wf_instr i ->
  run (S fuel) rs sep lang (encode i ++ rest) v =
  if getf (v_st v) FLAG_TERMINATE then (v, [], SOk) else
  let h := exec_instr rs sep (fst (run_prelude lang v)) i rest
             (vlog (snd (run_prelude lang v)) (EvInstr (opcode_of i))) in
  if is_halt i then h else run_post fuel rs sep (fst (run_prelude lang v)) h.
Proof.
  intros Hwf. rewrite run_S_instr by exact Hwf. unfold loop_tail. rewrite instr_op_halt. cbv zeta.
  destruct (getf (v_st v) FLAG_TERMINATE), (is_halt i); try reflexivity.
  symmetry. apply run_post_loop.
Qed.

Lemma run_post_ok_more fuel rs sep lang v x b :
  run_post fuel rs sep lang (v, x :: b, SOk) = run fuel rs sep lang (x :: b) v.
Proof. reflexivity. Qed.
Lemma run_post_ok_nonempty fuel rs sep lang v b :
  b <> [] -> run_post fuel rs sep lang (v, b, SOk) = run fuel rs sep lang b v.
Proof. destruct b; [contradiction|intros _; apply run_post_ok_more]. Qed.
Lemma run_post_ok_empty fuel rs sep lang v :
  run_post fuel rs sep lang (v, [], SOk) =
  let '(v3, b4, s3) := dead_check v in
  match s3 with
  | SOk => match b4 with [] => (v3, [], SOk) | _ => run fuel rs sep lang b4 v3 end
  | _ => (v3, b4, s3)
  end.
Proof. reflexivity. Qed.
Lemma run_post_panic fuel rs sep lang v b n : run_post fuel rs sep lang (v, b, SPanic n) = (v, b, SPanic n).
Proof. reflexivity. Qed.
Lemma run_post_fuel fuel rs sep lang v b : run_post fuel rs sep lang (v, b, SFuel) = (v, b, SFuel).
Proof. reflexivity. Qed.

Lemma run_post_dead_catch fuel rs sep lang v :
  getf (v_st v) FLAG_READIN = true -> getf (v_st v) FLAG_TERMINATE = false ->
  where_sym (v_st v) <> [] -> where_sym (v_st v) <> catch_sym ->
  run_post fuel rs sep lang (v, [], SOk) =
  run fuel rs sep lang move_catch_code
      (vset_pg v (page_with_error (v_pg v) (Some (msg_invalid_input (s_input (v_st v)))))).
Proof.
  intros H1 H2 H3 H4. rewrite run_post_ok_empty, dead_check_catch; try assumption; [reflexivity|].
  apply bytes_eqb_neq, H4.
Qed.
Lemma run_post_dead_nowhere fuel rs sep lang v :
  getf (v_st v) FLAG_READIN = true -> getf (v_st v) FLAG_TERMINATE = false ->
  (where_sym (v_st v) = [] \/ where_sym (v_st v) = catch_sym) ->
  run_post fuel rs sep lang (v, [], SOk) = (v, [], SErr EGen None).
Proof. intros H1 H2 H3. rewrite run_post_ok_empty, dead_check_nowhere by assumption. reflexivity. Qed.

(* the flag field holds the built-in flags (numbers 0 to 7, FLAG_READIN to FLAG_LANG): setting one of them is
   not out of range and takes effect *)
Definition flags_ok (st : state) : Prop := (8 <= List.length (s_flags st))%nat.

Lemma flags_ok_flagish a b : flagish a b -> flags_ok a -> flags_ok b.
Proof. unfold flags_ok. intros (_ & _ & _ & L & _). rewrite L. auto. Qed.
Lemma flags_ok_setf s i : flags_ok s -> flags_ok (setf s i).
Proof. apply flags_ok_flagish, flagish_setf. Qed.
Lemma flags_ok_resetf s i : flags_ok s -> flags_ok (resetf s i).
Proof. apply flags_ok_flagish, flagish_resetf. Qed.
Lemma getf_setf_builtin s i : flags_ok s -> i < 8 -> getf (setf s i) i = true.
Proof. unfold flags_ok. intros H Hi. apply getf_setf_same. lia. Qed.

Lemma set_nth_bit_idem : forall l n b, set_nth_bit n b (set_nth_bit n b l) = set_nth_bit n b l.
Proof.
  induction l as [|x l IH]; intros [|n] b; cbn [set_nth_bit]; try reflexivity. rewrite IH. reflexivity.
Qed.
Lemma setf_idem s i : setf (setf s i) i = setf s i.
Proof. unfold setf. cbn [s_flags set_flags]. rewrite set_nth_bit_idem. reflexivity. Qed.

Lemma pos_setf s i : pos_of (setf s i) = pos_of s. Proof. reflexivity. Qed.
Lemma pos_resetf s i : pos_of (resetf s i) = pos_of s. Proof. reflexivity. Qed.
Lemma where_setf s i : where_sym (setf s i) = where_sym s. Proof. reflexivity. Qed.
Lemma where_resetf s i : where_sym (resetf s i) = where_sym s. Proof. reflexivity. Qed.
Lemma pos_path_idx a b : pos_of a = pos_of b -> s_path a = s_path b /\ s_idx a = s_idx b.
Proof. unfold pos_of. intros H. injection H. auto. Qed.
Lemma pos_where a b : pos_of a = pos_of b -> where_sym a = where_sym b.
Proof. unfold pos_of, where_sym. intros H. injection H as H1 _. rewrite H1. reflexivity. Qed.
Lemma flagish_pos a b : flagish a b -> pos_of b = pos_of a.
Proof. intros (P & I & _). unfold pos_of. rewrite P, I. reflexivity. Qed.

(* the state after the preamble: VmProofs.loop_st up to conversion, so that the lemmas about that one apply to
   goals written with this one *)
Definition pre_state (st : state) : state :=
  setf (if getf (resetf st FLAG_LANG) FLAG_WAIT
        then resetf (resetf (resetf st FLAG_LANG) FLAG_WAIT) FLAG_INMATCH
        else resetf (resetf st FLAG_LANG) FLAG_WAIT) FLAG_DIRTY.

Lemma pre_state_pos st : pos_of (pre_state st) = pos_of st.
Proof. apply flagish_pos, loop_st_flagish. Qed.
Lemma pre_state_where st : where_sym (pre_state st) = where_sym st.
Proof. apply pos_where, pre_state_pos. Qed.
Lemma pre_state_input st : s_input (pre_state st) = s_input st.
Proof. apply (loop_st_flagish st). Qed.
Lemma pre_state_flags_ok st : flags_ok st -> flags_ok (pre_state st).
Proof. apply flags_ok_flagish, loop_st_flagish. Qed.
(* after its first preamble a run is in the middle: the later ones change nothing *)
Lemma pre_state_midrun st : flags_ok st -> midrun (pre_state st).
Proof. intros H. apply loop_st_midrun. unfold flags_ok in H. assert (FLAG_DIRTY < 8) by reflexivity. lia. Qed.
Lemma prelude_midrun lang v : midrun (v_st v) -> run_prelude lang v = (lang, v).
Proof.
  intros M. change (run_prelude lang v) with (loop_lang lang (v_st v), loop_pre v).
  rewrite loop_lang_midrun, loop_pre_midrun by exact M. reflexivity.
Qed.

Definition out_of_fuel (h : hres) : Prop := snd h = SFuel.

(* a block of INCMP lines: (target, selector) pairs *)
Definition incmp_prog (l : list (bytes * bytes)) : list instr := map (fun ds => IInCmp (fst ds) (snd ds)) l.
Definition incmp_block (l : list (bytes * bytes)) : bytes := encode_prog (incmp_prog l).
Definition wf_block (l : list (bytes * bytes)) : Prop := Forall (fun ds => wf_sym (fst ds) /\ wf_sym (snd ds)) l.
Lemma wf_sym_next : wf_sym t_next.
Proof. apply wf_symb_true. reflexivity. Qed.
Lemma wf_sym_prev : wf_sym t_prev.
Proof. apply wf_symb_true. reflexivity. Qed.
(* the INCMP handler's matching rule before any match was made *)
Definition sel_match (input sel : bytes) : bool := bytes_eqb sel input || bytes_eqb sel star.
Definition no_match (input : bytes) (l : list (bytes * bytes)) : bool :=
  forallb (fun ds => negb (sel_match input (snd ds))) l.
(* guard of the "at most one move" theorem: no later INCMP of the block repeats the input literally *)
Definition distinct_after (l : list (bytes * bytes)) (input : bytes) : bool :=
  forallb (fun ds => negb (bytes_eqb (snd ds) input)) l.

Lemma encode_prog_cons i p : encode_prog (i :: p) = encode i ++ encode_prog p.
Proof. reflexivity. Qed.
Lemma incmp_block_cons ds l r :
  incmp_block (ds :: l) ++ r = encode (IInCmp (fst ds) (snd ds)) ++ (incmp_block l ++ r).
Proof. symmetry. apply app_assoc. Qed.
Lemma incmp_block_app l1 l2 : incmp_block (l1 ++ l2) = incmp_block l1 ++ incmp_block l2.
Proof.
  unfold incmp_block, incmp_prog, encode_prog. rewrite !map_app, concat_app. reflexivity.
Qed.
Lemma incmp_block_cons_ne ds l r : incmp_block (ds :: l) ++ r <> [].
Proof. rewrite incmp_block_cons. destruct (encode_shape (IInCmp (fst ds) (snd ds))) as (a & b & t & ->). discriminate. Qed.
Lemma run_incmp_step fuel rs sep lang d s rest v :
  wf_sym d -> wf_sym s -> getf (v_st v) FLAG_TERMINATE = false ->
  run (S fuel) rs sep lang (encode (IInCmp d s) ++ rest) v =
  run_post fuel rs sep (fst (run_prelude lang v))
    (run_incmp rs sep d s rest (vlog (snd (run_prelude lang v)) (EvInstr op_INCMP))).
Proof.
  intros Hd Hs Ht. rewrite run_unfold by (split; assumption). rewrite Ht. reflexivity.
Qed.

(* an INCMP line that does not fire.  Nothing matched yet and this selector does not match: READIN is set *)
Definition step_nomatch (lv : option bytes * vmst) (ds : bytes * bytes) : option bytes * vmst :=
  let v0 := snd (run_prelude (fst lv) (snd lv)) in
  (fst (run_prelude (fst lv) (snd lv)),
   vlog (vset_st (vlog v0 (EvInstr op_INCMP)) (setf (v_st v0) FLAG_READIN)) (EvInCmp (fst ds) (snd ds) false)).
(* a match was made (INMATCH set): the line is passed over, only the prelude acts *)
Definition step_skip (lv : option bytes * vmst) (ds : bytes * bytes) : option bytes * vmst :=
  let v0 := snd (run_prelude (fst lv) (snd lv)) in
  (fst (run_prelude (fst lv) (snd lv)), vlog (vlog v0 (EvInstr op_INCMP)) (EvInCmp (fst ds) (snd ds) false)).
Definition scan_nomatch (lv : option bytes * vmst) (l : list (bytes * bytes)) := fold_left step_nomatch l lv.
Definition scan_skip (lv : option bytes * vmst) (l : list (bytes * bytes)) := fold_left step_skip l lv.

(* "no match so far": execution resumes after HALT (the prelude will clear INMATCH), or INMATCH is clear *)
Definition unmatched (st : state) : Prop := getf st FLAG_WAIT = true \/ getf st FLAG_INMATCH = false.

Lemma unmatched_pre st : unmatched st -> getf (pre_state st) FLAG_INMATCH = false.
Proof.
  intros [H|H]; rewrite loop_st_inmatch; [rewrite H; reflexivity|]. rewrite H. destruct (getf st FLAG_WAIT); reflexivity.
Qed.

(* the ghost events of a block no line of which fired (newest first, on top of acc) *)
Fixpoint block_log (l : list (bytes * bytes)) (acc : list ev) : list ev :=
  match l with
  | [] => acc
  | ds :: l' => block_log l' (EvInCmp (fst ds) (snd ds) false :: EvInstr op_INCMP :: acc)
  end.
Lemma block_log_app l : forall acc, exists new, block_log l acc = new ++ acc
  /\ Forall (fun e => match e with EvInstr _ | EvInCmp _ _ false => True | _ => False end) new.
Proof.
  induction l as [|ds l IH]; intros acc; [exists []; split; [reflexivity|constructor]|].
  cbn [block_log]. destruct (IH (EvInCmp (fst ds) (snd ds) false :: EvInstr op_INCMP :: acc)) as (new & -> & Hn).
  exists (new ++ [EvInCmp (fst ds) (snd ds) false; EvInstr op_INCMP]). split.
  - rewrite <- app_assoc. reflexivity.
  - apply Forall_app. split; [exact Hn|]. repeat constructor.
Qed.
Lemma block_log_app_eq a : forall b acc, block_log (a ++ b) acc = block_log b (block_log a acc).
Proof. induction a as [|x a IH]; intros b acc; [reflexivity|]. cbn [List.app block_log]. apply IH. Qed.

(* In the middle of a run a line that does not fire leaves the machine as it is, but for the log: the
   preamble does nothing, READIN is set already if nothing matched yet.  Only the first line of a block
   (or the line that fires) meets a machine that is not yet there. *)
Definition relog (v : vmst) (lg : list ev) : vmst := mkVm (v_st v) (v_ca v) (v_pg v) (v_w v) lg (v_taint v).
Lemma relog_same v : relog v (v_log v) = v.
Proof. destruct v; reflexivity. Qed.

Lemma scan_logs (P : state -> Prop) (step : option bytes * vmst -> bytes * bytes -> option bytes * vmst) :
  (forall lang v ds, P (v_st v) ->
     step (lang, v) ds = (lang, relog v (EvInCmp (fst ds) (snd ds) false :: EvInstr op_INCMP :: v_log v))) ->
  forall l lang v, P (v_st v) -> fold_left step l (lang, v) = (lang, relog v (block_log l (v_log v))).
Proof.
  intros H. induction l as [|ds l IH]; intros lang v Hv; [rewrite relog_same; reflexivity|].
  cbn [fold_left]. rewrite H, IH by exact Hv. reflexivity.
Qed.
Lemma scan_skip_logs l lang v : midrun (v_st v) -> scan_skip (lang, v) l = (lang, relog v (block_log l (v_log v))).
Proof.
  apply (scan_logs midrun step_skip). intros L u ds M. unfold step_skip. cbn [fst snd].
  rewrite prelude_midrun by exact M. reflexivity.
Qed.
Lemma scan_nomatch_logs l lang v :
  midrun (v_st v) -> getf (v_st v) FLAG_READIN = true ->
  scan_nomatch (lang, v) l = (lang, relog v (block_log l (v_log v))).
Proof.
  intros M R. apply (scan_logs (fun st => midrun st /\ getf st FLAG_READIN = true) step_nomatch); [|split; assumption].
  intros L u ds [Mu Ru]. unfold step_nomatch. cbn [fst snd]. rewrite prelude_midrun by exact Mu. cbn [snd fst].
  rewrite setf_id by exact Ru. destruct u; reflexivity.
Qed.

(* a machine in the middle of a run that compares lines with the input *)
Definition scanning (input : bytes) (st : state) : Prop :=
  midrun st /\ getf st FLAG_TERMINATE = false /\ s_input st = Some input.
(* the line does not fire in such a state, and does not change it *)
Definition passed (input : bytes) (st : state) (ds : bytes * bytes) : Prop :=
  wf_sym (fst ds) /\ wf_sym (snd ds) /\
  if getf st FLAG_INMATCH then getf st FLAG_READIN = true \/ bytes_eqb (snd ds) input = false
  else getf st FLAG_READIN = true /\ sel_match input (snd ds) = false.

Lemma line_logs fuel rs sep lang input ds rest v :
  scanning input (v_st v) -> passed input (v_st v) ds ->
  run (S fuel) rs sep lang (encode (IInCmp (fst ds) (snd ds)) ++ rest) v =
  run_post fuel rs sep lang (relog v (EvInCmp (fst ds) (snd ds) false :: EvInstr op_INCMP :: v_log v), rest, SOk).
Proof.
  intros (M & Ht & Hi) (Hd & Hs & Hq). rewrite run_incmp_step, prelude_midrun by assumption. cbn [fst snd].
  set (vI := vlog v (EvInstr op_INCMP)). change (v_st v) with (v_st vI) in *.
  destruct (getf (v_st vI) FLAG_INMATCH) eqn:Hm; [destruct (getf (v_st vI) FLAG_READIN) eqn:Hr|].
  - rewrite run_incmp_skipped by assumption. reflexivity.
  - destruct Hq as [Hq|Hq]; [discriminate|].
    rewrite (run_incmp_after_match_other _ _ _ _ _ _ input) by assumption. reflexivity.
  - destruct Hq as [Hr Hq]. apply orb_false_iff in Hq. destruct Hq as [H1 H2].
    rewrite (run_incmp_no_match _ _ _ _ _ _ input), setf_id by assumption. destruct v; reflexivity.
Qed.

Lemma block_logs rs sep lang input l : forall fuel r v,
  scanning input (v_st v) -> Forall (passed input (v_st v)) l ->
  out_of_fuel (run_post fuel rs sep lang (v, incmp_block l ++ r, SOk)) \/
  exists f, (f + List.length l <= fuel)%nat /\
    run_post fuel rs sep lang (v, incmp_block l ++ r, SOk) =
    run_post f rs sep lang (relog v (block_log l (v_log v)), r, SOk).
Proof.
  induction l as [|ds l IH]; intros fuel r v Hv Hok.
  - right. exists fuel. split; [cbn [List.length]; lia|rewrite relog_same; reflexivity].
  - rewrite run_post_ok_nonempty by apply incmp_block_cons_ne.
    destruct fuel as [|f]; [left; reflexivity|]. inversion Hok as [|x y Hok1 Hok2]; subst.
    rewrite incmp_block_cons, (line_logs _ _ _ _ input) by assumption.
    destruct (IH f r (relog v (EvInCmp (fst ds) (snd ds) false :: EvInstr op_INCMP :: v_log v)) Hv Hok2)
      as [H|(f' & Hf' & H)]; [left; exact H|].
    right. exists f'. split; [cbn [List.length]; lia|exact H].
Qed.

(* start of a routing block: TERMINATE clear, an input is set, no match so far (in particular:
   WAIT set, the resume after a HALT — then INMATCH and READIN may be anything), 8 built-in flags *)
Definition routing_start (input : bytes) (v : vmst) : Prop :=
  getf (v_st v) FLAG_TERMINATE = false /\ s_input (v_st v) = Some input /\ unmatched (v_st v) /\ flags_ok (v_st v).
Lemma resume_is_start input v :
  getf (v_st v) FLAG_TERMINATE = false -> s_input (v_st v) = Some input -> getf (v_st v) FLAG_WAIT = true ->
  flags_ok (v_st v) -> routing_start input v.
Proof. intros. unfold routing_start, unmatched. auto. Qed.

Lemma start_pre input v :
  routing_start input v ->
  scanning input (pre_state (v_st v)) /\ getf (pre_state (v_st v)) FLAG_INMATCH = false /\ flags_ok (pre_state (v_st v)).
Proof.
  intros (Ht & Hi & Hu & Hf). unfold scanning. rewrite loop_st_other, pre_state_input by discriminate.
  auto using pre_state_midrun, unmatched_pre, pre_state_flags_ok.
Qed.
Lemma start_nomatch input v :
  routing_start input v ->
  let st1 := setf (pre_state (v_st v)) FLAG_READIN in
  scanning input st1 /\ getf st1 FLAG_INMATCH = false /\ getf st1 FLAG_READIN = true /\ flags_ok st1.
Proof.
  intros Hs. destruct (start_pre input v Hs) as ((M & Ht & Hi) & Hm & Hf). cbv zeta. unfold scanning.
  rewrite !getf_setf_other by discriminate. rewrite (getf_setf_builtin _ _ Hf) by reflexivity.
  (* READIN is none of the flags midrun reads *)
  assert (M1 : midrun (setf (pre_state (v_st v)) FLAG_READIN))
    by (apply (midrun_flag (pre_state (v_st v))); [intros i H _; apply getf_setf_other, H|exact M]).
  auto using flags_ok_setf.
Qed.

Lemma passed_nomatch input st l :
  wf_block l -> no_match input l = true -> getf st FLAG_INMATCH = false -> getf st FLAG_READIN = true ->
  Forall (passed input st) l.
Proof.
  unfold wf_block, no_match, passed. intros Hw Hn Hm Hr. rewrite forallb_forall in Hn. rewrite Forall_forall in *.
  intros ds Hin. destruct (Hw ds Hin) as [H1 H2]. rewrite Hm. split; [exact H1|split; [exact H2|split; [exact Hr|]]].
  apply negb_true_iff, Hn, Hin.
Qed.

Lemma first_nomatch fuel rs sep lang input ds rest v :
  routing_start input v -> wf_sym (fst ds) -> wf_sym (snd ds) -> sel_match input (snd ds) = false ->
  run (S fuel) rs sep lang (encode (IInCmp (fst ds) (snd ds)) ++ rest) v =
  run_post fuel rs sep (fst (step_nomatch (lang, v) ds)) (snd (step_nomatch (lang, v) ds), rest, SOk).
Proof.
  intros Hs Hd Hsel Hm. destruct (start_pre input v Hs) as ((_ & _ & Hi) & Him & _).
  apply orb_false_iff in Hm. destruct Hm as [Hm1 Hm2].
  rewrite run_incmp_step by (try assumption; apply Hs).
  rewrite (run_incmp_no_match rs sep _ _ rest _ input) by assumption. reflexivity.
Qed.

(* a block without a match, whole: the first line settles the state, the others only log *)
Lemma scan_nomatch_cons lang v ds l input :
  routing_start input v ->
  scan_nomatch (lang, v) (ds :: l) =
  (loop_lang lang (v_st v),
   mkVm (setf (pre_state (v_st v)) FLAG_READIN) (v_ca v) (v_pg (loop_pre v)) (v_w v)
        (block_log (ds :: l) (v_log v)) (v_taint v)).
Proof.
  intros Hs. destruct (start_nomatch input v Hs) as ((M & _) & _ & Hr & _).
  unfold scan_nomatch. cbn [fold_left]. rewrite (surjective_pairing (step_nomatch (lang, v) ds)).
  exact (scan_nomatch_logs l _ (snd (step_nomatch (lang, v) ds)) M Hr).
Qed.

Lemma scan_nomatch_post rs sep input l fuel lang r v :
  routing_start input v -> wf_block l -> no_match input l = true ->
  routing_start input (snd (scan_nomatch (lang, v) l)) /\
  (out_of_fuel (run_post fuel rs sep lang (v, incmp_block l ++ r, SOk)) \/
   exists f, (f + List.length l <= fuel)%nat /\
     run_post fuel rs sep lang (v, incmp_block l ++ r, SOk) =
     run_post f rs sep (fst (scan_nomatch (lang, v) l)) (snd (scan_nomatch (lang, v) l), r, SOk)).
Proof.
  intros Hs Hw Hn. destruct l as [|ds l]; [split; [exact Hs|right; exists fuel; split; [cbn [List.length]; lia|reflexivity]]|].
  destruct (start_nomatch input v Hs) as (Hsc & Hm & Hr & Hf). pose proof Hsc as (_ & Ht & Hi).
  rewrite (scan_nomatch_cons lang v ds l input Hs). cbn [fst snd].
  split; [unfold routing_start, unmatched; cbn [v_st]; auto|].
  rewrite run_post_ok_nonempty by apply incmp_block_cons_ne. destruct fuel as [|f]; [left; reflexivity|].
  inversion Hw as [|x y [Hw1 Hw2] Hw3]; subst. cbn [no_match forallb] in Hn. apply andb_true_iff in Hn. destruct Hn as [Hn1 Hn2].
  rewrite incmp_block_cons, (first_nomatch _ _ _ _ input) by (try assumption; apply negb_true_iff, Hn1).
  destruct (block_logs rs sep (loop_lang lang (v_st v)) input l f r (snd (step_nomatch (lang, v) ds)) Hsc
              (passed_nomatch _ _ _ Hw3 Hn2 Hm Hr)) as [H|(f' & Hf' & H)]; [left; exact H|].
  right. exists f'. split; [clear - Hf'; cbn [List.length]; lia|exact H].
Qed.

Lemma scan_nomatch_run rs sep input l ds fuel lang r v :
  routing_start input v -> wf_block (ds :: l) -> no_match input (ds :: l) = true ->
  let lv := scan_nomatch (lang, v) (ds :: l) in
  (out_of_fuel (run fuel rs sep lang (incmp_block (ds :: l) ++ r) v) \/
   exists f, (f < fuel)%nat /\
     run fuel rs sep lang (incmp_block (ds :: l) ++ r) v = run_post f rs sep (fst lv) (snd lv, r, SOk))
  /\ v_st (snd lv) = setf (pre_state (v_st v)) FLAG_READIN /\ v_ca (snd lv) = v_ca v
  /\ v_log (snd lv) = block_log (ds :: l) (v_log v).
Proof.
  intros Hs Hw Hn. split; [|rewrite (scan_nomatch_cons lang v ds l input Hs); auto].
  rewrite <- (run_post_ok_nonempty fuel rs sep lang v) by apply incmp_block_cons_ne.
  destruct (proj2 (scan_nomatch_post rs sep input (ds :: l) fuel lang r v Hs Hw Hn)) as [H|(f & Hf & H)]; [left; exact H|].
  right. exists f. split; [cbn [List.length] in Hf; lia|exact H].
Qed.

(* the state applyTarget is called on: INMATCH set, READIN clear (st = state after the prelude).
   Spelt as run_incmp arrives at it: with INMATCH clear it first sets READIN (the input is being
   read), then on a match sets INMATCH and resets READIN. *)
Definition match_st (st : state) : state :=
  resetf (setf (setf st FLAG_READIN) FLAG_INMATCH) FLAG_READIN.

Lemma match_st_pos st : pos_of (match_st st) = pos_of st.
Proof. reflexivity. Qed.
Lemma match_st_input st : s_input (match_st st) = s_input st.
Proof. reflexivity. Qed.
Lemma match_st_flags_ok st : flags_ok st -> flags_ok (match_st st).
Proof. intros Hf. apply flags_ok_resetf, flags_ok_setf, flags_ok_setf, Hf. Qed.
Lemma match_st_flags st :
  flags_ok st ->
  getf (match_st st) FLAG_INMATCH = true /\ getf (match_st st) FLAG_READIN = false
  /\ (forall i, i <> FLAG_INMATCH -> i <> FLAG_READIN -> getf (match_st st) i = getf st i).
Proof.
  intros Hf. unfold match_st. repeat split.
  - rewrite getf_resetf_other by discriminate. apply getf_setf_builtin; [apply flags_ok_setf; exact Hf|reflexivity].
  - apply getf_resetf_same.
  - intros i H1 H2. rewrite getf_resetf_other by exact H2. rewrite getf_setf_other by exact H1.
    apply getf_setf_other. exact H2.
Qed.

(* machine after a firing INCMP whose target's code could be fetched (or not): vI = machine the
   handler was entered with *)
Definition fire_vm (rs : rsrc) (sep : bytes) (vI : vmst) (d s : bytes) (st' : state) (ca' : cache) (nsym : bytes) : vmst :=
  let v1 := vset_ca (vset_st vI st') ca' in
  let v2 := vlog (vlog (vset_pg v1 (vm_reset sep (v_pg v1))) (EvInCmp d s true)) (EvMove 1 d nsym) in
  if rs_observed rs then vlog v2 (EvCode nsym) else v2.
(* machine after a matching "previous" on the first page (IndexError): READIN set again *)
Definition noprev_vm (vI : vmst) (d s : bytes) (st' : state) (ca' : cache) : vmst :=
  vlog (vset_st (vset_ca (vset_st vI st') ca') (setf st' FLAG_READIN)) (EvInCmp d s false).

Definition match_outcome (rs : rsrc) (sep : bytes) (d s rest : bytes) (vI : vmst) : hres :=
  let '(st', ca', nsym, r) := apply_target d (match_st (v_st vI)) (v_ca vI) in
  match r with
  | SOk =>
    match rs_code rs nsym with
    | Ok code => (fire_vm rs sep vI d s st' ca' nsym, rest ++ code, SOk)
    | Err e => (fire_vm rs sep vI d s st' ca' nsym, rest, SErr e None)
    | Panic n => (fire_vm rs sep vI d s st' ca' nsym, rest, SPanic n)
    end
  | SErr EIndex _ => (noprev_vm vI d s st' ca', rest, SOk)
  | _ => (vset_ca (vset_st vI st') ca', rest, r)
  end.

Lemma run_incmp_match rs sep d s rest vI input :
  getf (v_st vI) FLAG_INMATCH = false -> s_input (v_st vI) = Some input -> sel_match input s = true ->
  run_incmp rs sep d s rest vI = match_outcome rs sep d s rest vI.
Proof.
  intros Hm Hi Hs. unfold run_incmp, match_outcome, match_st. rewrite Hm. cbn [andb negb].
  destruct vI as [st ca pg w lg t]. cbn [v_st vset_st v_ca] in *. rewrite s_input_setf, Hi.
  assert (Hc : bytes_eqb s star || bytes_eqb s input = true).
  { unfold sel_match in Hs. rewrite orb_comm. exact Hs. }
  rewrite Hc.
  destruct (apply_target d _ ca) as [[[st' ca'] nsym] r].
  destruct r as [|e m|n|]; try reflexivity.
Qed.

Lemma run_match_step fuel rs sep lang d s rest v input :
  wf_sym d -> wf_sym s -> routing_start input v -> sel_match input s = true ->
  run (S fuel) rs sep lang (encode (IInCmp d s) ++ rest) v =
  run_post fuel rs sep (fst (run_prelude lang v))
    (match_outcome rs sep d s rest (vlog (snd (run_prelude lang v)) (EvInstr op_INCMP))).
Proof.
  intros Hd Hs Hv Hm. destruct (start_pre input v Hv) as ((_ & _ & Hi) & Him & _).
  rewrite run_incmp_step by (try assumption; apply Hv).
  rewrite (run_incmp_match rs sep d s rest _ input) by assumption. reflexivity.
Qed.

(* (context language, machine) with which the handler of the first matching line is entered:
   the lines before it have been passed without a match, the prelude has run, the opcode is logged *)
Definition at_match (lang : option bytes) (v : vmst) (l1 : list (bytes * bytes)) : option bytes * vmst :=
  let lv1 := scan_nomatch (lang, v) l1 in
  (fst (run_prelude (fst lv1) (snd lv1)), vlog (snd (run_prelude (fst lv1) (snd lv1))) (EvInstr op_INCMP)).

Lemma at_match_eq lang v l1 input :
  routing_start input v ->
  at_match lang v l1 =
  (loop_lang lang (v_st v),
   mkVm (match l1 with [] => pre_state (v_st v) | _ => setf (pre_state (v_st v)) FLAG_READIN end)
        (v_ca v) (v_pg (loop_pre v)) (v_w v) (EvInstr op_INCMP :: block_log l1 (v_log v)) (v_taint v)).
Proof.
  intros Hs. unfold at_match. destruct l1 as [|ds l]; [reflexivity|].
  rewrite (scan_nomatch_cons lang v ds l input Hs). cbn [fst snd].
  rewrite prelude_midrun by apply (start_nomatch input v Hs). reflexivity.
Qed.

Lemma at_match_facts lang v l1 input :
  routing_start input v ->
  let vI := snd (at_match lang v l1) in
  pos_of (v_st vI) = pos_of (v_st v) /\ v_ca vI = v_ca v
  /\ v_log vI = EvInstr op_INCMP :: block_log l1 (v_log v)
  /\ scanning input (v_st vI) /\ flags_ok (v_st vI) /\ getf (v_st vI) FLAG_INMATCH = false
  /\ same_but_flags (v_st v) (v_st vI).
Proof.
  intros Hs. rewrite (at_match_eq lang v l1 input Hs). cbn [snd v_st v_ca v_log].
  destruct (start_pre input v Hs) as (S0 & M0 & F0), (start_nomatch input v Hs) as (S1 & M1 & _ & F1).
  (* the state is pre_state (v_st v), with READIN set once a line has been passed: start_pre resp. start_nomatch
     say what holds of it; setting a flag changes nothing same_but_flags compares *)
  destruct l1; rewrite ?pos_setf, pre_state_pos; repeat (split; [auto; fail|]); exact (loop_st_sbf _).
Qed.

Lemma first_match_general fuel rs sep lang input l1 d s l2 r v :
  routing_start input v -> wf_block l1 -> wf_sym d -> wf_sym s ->
  no_match input l1 = true -> sel_match input s = true ->
  out_of_fuel (run fuel rs sep lang (incmp_block (l1 ++ (d, s) :: l2) ++ r) v) \/
  exists f, (f < fuel)%nat /\
    run fuel rs sep lang (incmp_block (l1 ++ (d, s) :: l2) ++ r) v =
    run_post f rs sep (fst (at_match lang v l1))
      (match_outcome rs sep d s (incmp_block l2 ++ r) (snd (at_match lang v l1))).
Proof.
  intros Hs Hw Hd Hsel Hn Hm.
  rewrite incmp_block_app, <- app_assoc, (incmp_block_cons (d, s) l2 r). cbn [fst snd].
  assert (Hne : forall x, x ++ encode (IInCmp d s) ++ incmp_block l2 ++ r <> []).
  { intros x. destruct (encode_shape (IInCmp d s)) as (a & b & t & ->). destruct x; discriminate. }
  rewrite <- run_post_ok_nonempty by apply Hne.
  destruct (scan_nomatch_post rs sep input l1 fuel lang (encode (IInCmp d s) ++ incmp_block l2 ++ r) v Hs Hw Hn)
    as (Hs1 & [H|(f & Hf & H)]); [left; exact H|].
  rewrite H, run_post_ok_nonempty by apply (Hne []).
  destruct f as [|f]; [left; reflexivity|]. right. exists f. split; [lia|].
  apply (run_match_step f rs sep _ d s _ _ input); assumption.
Qed.

(* Once a line has matched, the others are passed over when READIN is set (the match was a failed
   "previous"), or when their selector is not literally the input.  x is a run that has arrived in front of
   the rest l2 of the block with a machine vX in the middle of the run: it arrives behind l2 with vX, all
   lines logged *)
Definition sk_guard (input : bytes) (st : state) (l : list (bytes * bytes)) : Prop :=
  getf st FLAG_READIN = true \/ distinct_after l input = true.

Lemma skip_rest fuel rs sep input l2 r langX vX (x : hres) :
  scanning input (v_st vX) -> getf (v_st vX) FLAG_INMATCH = true -> wf_block l2 -> sk_guard input (v_st vX) l2 ->
  (out_of_fuel x \/ exists f, (f < fuel)%nat /\ x = run_post f rs sep langX (vX, incmp_block l2 ++ r, SOk)) ->
  out_of_fuel x \/ exists f, (f < fuel)%nat /\
    x = run_post f rs sep (fst (scan_skip (langX, vX) l2)) (snd (scan_skip (langX, vX) l2), r, SOk).
Proof.
  intros Hsc Hm Hw Hg G. rewrite scan_skip_logs by apply Hsc. cbn [fst snd].
  destruct G as [G|(f & Hf & ->)]; [left; exact G|].
  assert (Hok : Forall (passed input (v_st vX)) l2).
  { unfold wf_block, passed, sk_guard, distinct_after in *. rewrite Hm, Forall_forall in *.
    intros ds Hin. destruct (Hw ds Hin) as [H1 H2]. split; [exact H1|split; [exact H2|]].
    destruct Hg as [Hg|Hg]; [left; exact Hg|right]. rewrite forallb_forall in Hg. apply negb_true_iff, Hg, Hin. }
  destruct (block_logs rs sep langX input l2 f r vX Hsc Hok) as [H|(f' & Hf' & H)]; [left; exact H|].
  right. exists f'. split; [lia|exact H].
Qed.

(* whatever a matching line leaves, if it differs from the state applyTarget was called on (match_st of
   stI) in the position and READIN at most, it still compares lines with the input, and has matched *)
Lemma scanning_after_match input stI st' :
  scanning input stI -> flags_ok stI ->
  (forall i, i <> FLAG_READIN -> getf st' i = getf (match_st stI) i) -> s_input st' = s_input (match_st stI) ->
  scanning input st' /\ getf st' FLAG_INMATCH = true.
Proof.
  intros (M & Ht & Hi) Hf G I. destruct (match_st_flags _ Hf) as (M1 & _ & M3).
  assert (K : forall i, i <> FLAG_READIN -> i <> FLAG_INMATCH -> getf st' i = getf stI i)
    by (intros i H1 H2; rewrite G, M3 by assumption; reflexivity).
  split; [|rewrite G by discriminate; exact M1].
  split; [exact (midrun_flag _ _ K M)|]. split; [rewrite K by discriminate; exact Ht|rewrite I, match_st_input; exact Hi].
Qed.

Lemma prev_on_first_page_lemma : forall fuel rs sep lang input l1 s l2 r v,
  routing_start input v -> wf_block l1 -> wf_sym s -> wf_block l2 ->
  no_match input l1 = true -> sel_match input s = true ->
  s_path (v_st v) <> [] -> s_idx (v_st v) = 0 ->
  let vI := snd (at_match lang v l1) in
  let vN := noprev_vm vI t_prev s (match_st (v_st vI)) (v_ca vI) in
  let lv := scan_skip (fst (at_match lang v l1), vN) l2 in
  (* every remaining line of the block is passed over, whatever its selector *)
  (out_of_fuel (run fuel rs sep lang (incmp_block (l1 ++ (t_prev, s) :: l2) ++ r) v) \/
   exists f, (f < fuel)%nat /\
     run fuel rs sep lang (incmp_block (l1 ++ (t_prev, s) :: l2) ++ r) v =
     run_post f rs sep (fst lv) (snd lv, r, SOk))
  (* nothing moved, no line fired, READIN is set again (and INMATCH stays set) *)
  /\ pos_of (v_st (snd lv)) = pos_of (v_st v) /\ v_ca (snd lv) = v_ca v
  /\ v_log (snd lv) = block_log (l1 ++ (t_prev, s) :: l2) (v_log v)
  /\ getf (v_st (snd lv)) FLAG_READIN = true /\ getf (v_st (snd lv)) FLAG_INMATCH = true
  /\ getf (v_st (snd lv)) FLAG_TERMINATE = false /\ s_input (v_st (snd lv)) = Some input.
Proof.
  intros fuel rs sep lang input l1 s l2 r v Hs Hw1 Hsel Hw2 Hn Hm Hpath Hidx.
  pose proof (at_match_facts lang v l1 input Hs) as F.
  pose proof (first_match_general fuel rs sep lang input l1 t_prev s l2 r v Hs Hw1 wf_sym_prev Hsel Hn Hm) as G.
  (* from here on the machine at the match is any machine with these two properties *)
  cbv zeta in *. revert F G. generalize (at_match lang v l1). intros [langI vI]. cbn [fst snd].
  intros (Hp & Hca & Hlog & Hsc & Hf & _) G. rewrite <- (match_st_pos (v_st vI)) in Hp.
  destruct (pos_path_idx _ _ Hp) as [Hpp Hpi].
  unfold match_outcome in G. rewrite fail_prev_at_zero in G by (rewrite ?Hpp, ?Hpi; assumption).
  (* the state of vN is match_st (v_st vI) with READIN set again *)
  set (vN := noprev_vm vI t_prev s (match_st (v_st vI)) (v_ca vI)) in *.
  assert (HrN : getf (v_st vN) FLAG_READIN = true)
    by (apply getf_setf_builtin; [apply match_st_flags_ok, Hf|reflexivity]).
  destruct (scanning_after_match input (v_st vI) (v_st vN) Hsc Hf (fun i H => getf_setf_other _ i _ H) eq_refl)
    as [HscN HmN].
  split; [exact (skip_rest fuel rs sep input l2 r _ _ _ HscN HmN Hw2 (or_introl HrN) G)|].
  rewrite scan_skip_logs by apply HscN. cbn [fst snd v_st v_ca v_log relog].
  split; [exact Hp|]. split; [exact Hca|].
  split; [cbn [vN noprev_vm v_log vlog vset_st vset_ca]; rewrite Hlog, block_log_app_eq; reflexivity|].
  destruct HscN as (_ & HtN & HiN). auto.
Qed.

(* ... so that a block ending there goes to the catch node exactly as if nothing had matched *)
Lemma prev_on_first_page_catch_lemma : forall fuel rs sep lang input l1 s l2 v,
  routing_start input v -> wf_block l1 -> wf_sym s -> wf_block l2 ->
  no_match input l1 = true -> sel_match input s = true ->
  where_sym (v_st v) <> [] -> s_idx (v_st v) = 0 -> where_sym (v_st v) <> catch_sym ->
  let vI := snd (at_match lang v l1) in
  let vN := noprev_vm vI t_prev s (match_st (v_st vI)) (v_ca vI) in
  let lv := scan_skip (fst (at_match lang v l1), vN) l2 in
  out_of_fuel (run fuel rs sep lang (incmp_block (l1 ++ (t_prev, s) :: l2)) v) \/
  exists f, (f < fuel)%nat /\
    run fuel rs sep lang (incmp_block (l1 ++ (t_prev, s) :: l2)) v =
    run f rs sep (fst lv) move_catch_code
        (vset_pg (snd lv) (page_with_error (v_pg (snd lv)) (Some (msg_invalid_input (Some input))))).
Proof.
  intros fuel rs sep lang input l1 s l2 v Hs Hw1 Hsel Hw2 Hn Hm Hnw Hidx Hcatch.
  assert (Hpath : s_path (v_st v) <> []) by (intros E; apply Hnw; unfold where_sym; rewrite E; reflexivity).
  destruct (prev_on_first_page_lemma fuel rs sep lang input l1 s l2 [] v Hs Hw1 Hsel Hw2 Hn Hm Hpath Hidx)
    as (Hrun & Hp & _ & _ & Hr & _ & Ht & Hi).
  rewrite app_nil_r in Hrun. pose proof (pos_where _ _ Hp) as Hwh.
  destruct Hrun as [H|(f & Hf & H)]; [left; exact H|]. right. exists f. split; [exact Hf|].
  rewrite H, run_post_dead_catch, Hi by (rewrite ?Hwh; assumption). reflexivity.
Qed.

(* targets of the moves in a log (newest first), oldest first *)
Fixpoint log_moves (l : list ev) : list bytes :=
  match l with
  | [] => []
  | EvMove _ t _ :: l' => log_moves l' ++ [t]
  | _ :: l' => log_moves l'
  end.
Lemma log_moves_app a : forall b, log_moves (a ++ b) = log_moves b ++ log_moves a.
Proof.
  induction a as [|e a IH]; intros b; cbn [List.app log_moves]; [rewrite app_nil_r; reflexivity|].
  destruct e; rewrite IH; try reflexivity. rewrite app_assoc. reflexivity.
Qed.
Lemma block_log_moves l : forall acc, log_moves (block_log l acc) = log_moves acc.
Proof. induction l as [|ds l IH]; intros acc; [reflexivity|]. cbn [block_log]. rewrite IH. reflexivity. Qed.
Fixpoint log_fired (l : list ev) : list (bytes * bytes) :=
  match l with
  | [] => []
  | EvInCmp d s true :: l' => log_fired l' ++ [(d, s)]
  | _ :: l' => log_fired l'
  end.
Lemma block_log_fired l : forall acc, log_fired (block_log l acc) = log_fired acc.
Proof. induction l as [|ds l IH]; intros acc; [reflexivity|]. cbn [block_log]. rewrite IH. reflexivity. Qed.

Lemma fire_vm_eq rs sep vI d s st' ca' nsym :
  fire_vm rs sep vI d s st' ca' nsym =
  mkVm st' ca' (vm_reset sep (v_pg vI)) (v_w vI)
       ((if rs_observed rs then [EvCode nsym] else []) ++ EvMove 1 d nsym :: EvInCmp d s true :: v_log vI) (v_taint vI).
Proof. unfold fire_vm. destruct (rs_observed rs); reflexivity. Qed.

(* the machine behind the block once a line has fired, in terms of the machine v before the block *)
Lemma fired_eq rs sep lang input l1 d s l2 v st' ca' nsym :
  routing_start input v ->
  let vI := snd (at_match lang v l1) in
  forall p i, st' = set_path_idx (match_st (v_st vI)) p i ->
  scan_skip (fst (at_match lang v l1), fire_vm rs sep vI d s st' ca' nsym) l2 =
  (loop_lang lang (v_st v),
   mkVm st' ca' (vm_reset sep (v_pg (loop_pre v))) (v_w v)
        (block_log l2 (v_log (fire_vm rs sep vI d s st' ca' nsym))) (v_taint v))
  /\ scanning input st' /\ getf st' FLAG_INMATCH = true.
Proof.
  intros Hs vI p i ->. destruct (at_match_facts lang v l1 input Hs) as (_ & _ & _ & Hsc & Hf & _). fold vI in Hsc, Hf.
  destruct (scanning_after_match input (v_st vI) (set_path_idx (match_st (v_st vI)) p i) Hsc Hf) as [HscF HmF];
    [unfold getf; reflexivity|reflexivity|].
  split; [|auto]. rewrite scan_skip_logs by (rewrite fire_vm_eq; apply HscF).
  subst vI. rewrite (at_match_eq lang v l1 input Hs), fire_vm_eq. reflexivity.
Qed.

(* Full statement (FALSE, see C03_at_most_one_move_refuted_dupsel): the same without `distinct_after`.
   Partial: if no later line of the block repeats the input literally (wildcards are fine: `*`
   does not match once INMATCH is set), no line of l2 fires and the only move is the first match's;
   the target's code, appended after the rest of the block and r, runs next. *)
Lemma at_most_one_move_partial_lemma : forall fuel rs sep lang input l1 d s l2 r v st' ca' nsym code,
  routing_start input v -> wf_block l1 -> wf_sym d -> wf_sym s -> wf_block l2 ->
  no_match input l1 = true -> sel_match input s = true ->
  distinct_after l2 input = true ->
  let vI := snd (at_match lang v l1) in
  apply_target d (match_st (v_st vI)) (v_ca vI) = (st', ca', nsym, SOk) ->
  rs_code rs nsym = Ok code ->
  let vF := fire_vm rs sep vI d s st' ca' nsym in
  let lv := scan_skip (fst (at_match lang v l1), vF) l2 in
  (out_of_fuel (run fuel rs sep lang (incmp_block (l1 ++ (d, s) :: l2) ++ r) v) \/
   exists f, (f < fuel)%nat /\
     run fuel rs sep lang (incmp_block (l1 ++ (d, s) :: l2) ++ r) v =
     run_post f rs sep (fst lv) (snd lv, r ++ code, SOk))
  /\ pos_of (v_st (snd lv)) = pos_of st' /\ v_ca (snd lv) = ca'
  /\ v_log (snd lv) = block_log l2 (v_log vF)
  /\ log_moves (v_log (snd lv)) = log_moves (v_log v) ++ [d]
  /\ log_fired (v_log (snd lv)) = log_fired (v_log v) ++ [(d, s)].
Proof.
  intros fuel rs sep lang input l1 d s l2 r v st' ca' nsym code Hs Hw1 Hd Hsel Hw2 Hn Hm Hdist vI Ha Hc vF lv.
  destruct (at_match_facts lang v l1 input Hs) as (_ & _ & Hlog & _). fold vI in Hlog.
  destruct (apply_target_pos_only d (match_st (v_st vI)) (v_ca vI)) as (p & i & Ho). rewrite Ha in Ho.
  destruct (fired_eq rs sep lang input l1 d s l2 v st' ca' nsym Hs p i Ho) as (El & HscF & HmF). fold vI vF lv in El.
  assert (EF : vF = _) by apply fire_vm_eq.
  pose proof (first_match_general fuel rs sep lang input l1 d s l2 r v Hs Hw1 Hd Hsel Hn Hm) as G.
  unfold match_outcome in G. fold vI in G. rewrite Ha, Hc, <- app_assoc in G.
  split.
  - apply (skip_rest fuel rs sep input l2 (r ++ code) _ vF _);
      [rewrite EF; exact HscF|rewrite EF; exact HmF|exact Hw2|right; exact Hdist|exact G].
  - (* the five equations, with and without the EvCode that an observed resource logs on top *)
    rewrite El. cbn [snd v_st v_ca v_log]. rewrite block_log_moves, block_log_fired, EF. cbn [v_log]. rewrite Hlog.
    repeat split; destruct (rs_observed rs); cbn [List.app log_moves log_fired];
      rewrite ?block_log_moves, ?block_log_fired; reflexivity.
Qed.

(* decidable guard of K-C03-stale-readin: the code the session resumes with starts with an INCMP *)
Definition starts_with_incmp (b : bytes) : bool :=
  match decode_one b with Ok (IInCmp _ _, _) => true | _ => false end.

Lemma incmp_block_starts ds l r : wf_block (ds :: l) -> starts_with_incmp (incmp_block (ds :: l) ++ r) = true.
Proof.
  intros Hw. inversion Hw as [|x y [H1 H2] _]; subst. rewrite incmp_block_cons. unfold starts_with_incmp.
  rewrite instr_roundtrip_lemma by (split; assumption). reflexivity.
Qed.

Fixpoint log_incmps (l : list ev) : nat :=
  match l with [] => O | EvInCmp _ _ _ :: l' => S (log_incmps l') | _ :: l' => log_incmps l' end.
Lemma block_log_incmps l : forall acc, log_incmps (block_log l acc) = (List.length l + log_incmps acc)%nat.
Proof.
  induction l as [|ds l IH]; intros acc; [reflexivity|]. cbn [block_log List.length]. rewrite IH. cbn [log_incmps]. lia.
Qed.

(* `c_frames ca <> []` under the name the C04 statements use *)
Definition cache_ok (ca : cache) : Prop := c_frames ca <> [].

(* v' is reached from v by moves that are all in the log, each a row of the code's table *)
Definition pos_follows (v v' : vmst) : Prop :=
  cache_ok (v_ca v') /\
  exists new, v_log v' = new ++ v_log v
    /\ nav_fold nav_code (pos_of (v_st v)) (log_moves new) = Some (pos_of (v_st v')).
Definition quiet (v v' : vmst) : Prop :=
  pos_of (v_st v') = pos_of (v_st v) /\ (cache_ok (v_ca v) -> cache_ok (v_ca v'))
  /\ exists new, v_log v' = new ++ v_log v /\ log_moves new = [].

Lemma nav_fold_app step a : forall p b,
  nav_fold step p (a ++ b) = match nav_fold step p a with Some p' => nav_fold step p' b | None => None end.
Proof.
  induction a as [|m a IH]; intros p b; [reflexivity|]. cbn [List.app nav_fold].
  destruct (step p m); [apply IH|reflexivity].
Qed.

Lemma quiet_same v v' :
  pos_of (v_st v') = pos_of (v_st v) -> (cache_ok (v_ca v) -> cache_ok (v_ca v')) -> v_log v' = v_log v -> quiet v v'.
Proof. intros P C L. split; [exact P|]. split; [exact C|]. exists []. split; [exact L|reflexivity]. Qed.
Lemma quiet_refl v : quiet v v.
Proof. apply quiet_same; auto. Qed.
Lemma quiet_vlog v e : match e with EvMove _ _ _ => False | _ => True end -> quiet v (vlog v e).
Proof.
  intros He. split; [reflexivity|]. split; [auto|]. exists [e]. split; [reflexivity|].
  destruct e; try contradiction; reflexivity.
Qed.
Lemma pf_cache_ok a b : pos_follows a b -> cache_ok (v_ca b).
Proof. intros [C _]. exact C. Qed.
Lemma pf_trans a b c : pos_follows a b -> pos_follows b c -> pos_follows a c.
Proof.
  intros (C1 & n1 & L1 & F1) (C2 & n2 & L2 & F2). split; [exact C2|].
  exists (n2 ++ n1). split; [rewrite L2, L1, app_assoc; reflexivity|].
  rewrite log_moves_app, nav_fold_app, F1. exact F2.
Qed.
Lemma quiet_pf a b : cache_ok (v_ca a) -> quiet a b -> pos_follows a b.
Proof.
  intros H (P & C & n & L & M). split; [exact (C H)|]. exists n. split; [exact L|].
  rewrite M, P. reflexivity.
Qed.
Lemma pf_refl v : cache_ok (v_ca v) -> pos_follows v v.
Proof. intros H. apply quiet_pf; [exact H|apply quiet_refl]. Qed.
Lemma pf_quiet_r a b c : pos_follows a b -> quiet b c -> pos_follows a c.
Proof. intros F Q. eapply pf_trans; [exact F|]. apply quiet_pf; [apply F|exact Q]. Qed.

Lemma apply_follows t st ca st' ca' nsym r :
  cache_ok ca -> apply_target t st ca = (st', ca', nsym, r) ->
  cache_ok ca'
  /\ match r with SOk => nav_code (pos_of st) t = Some (pos_of st') | _ => st' = st /\ ca' = ca end.
Proof.
  intros Hc Ha. split; [exact (apply_keeps_frames Hc Ha)|].
  destruct r; [exact (proj1 (apply_ok_exact Hc Ha))|..];
    apply (apply_fail_unchanged Hc Ha); discriminate.
Qed.

Lemma flag_op_pos fail a b : flag_op fail a b -> pos_of b = pos_of a.
Proof. intros H. exact (flagish_pos _ _ (flag_op_frame _ H)). Qed.

(* Of the machine's operations only applyTarget moves, and it logs the move exactly when it made one:
   the position is the fold of the code's move table over the moves logged. *)
Lemma vm_ops_follows fail rd sep v v' : vm_ops fail rd sep v v' -> cache_ok (v_ca v) -> pos_follows v v'.
Proof.
  induction 1 as [v|a b c _ IH1 _ IH2|v st' H|v ca' H|v pg' H|v w'|v e H|v|v k t st' ca' nsym s H|v|v]; intros Hc.
  (* vo_refl, vo_pg, vo_w, vo_taint, vo_clean, vo_render: position, cache and log are untouched *)
  all: try (apply quiet_pf; [exact Hc|apply quiet_same; auto]; fail).
  - (* vo_trans *) eapply pf_trans; [apply IH1, Hc|apply IH2, (pf_cache_ok _ _ (IH1 Hc))].
  - (* vo_st *) apply quiet_pf; [exact Hc|apply quiet_same; auto]. apply (flag_op_pos _ _ _ H).
  - (* vo_ca *) apply quiet_pf; [exact Hc|apply quiet_same; auto].
    intros _. exact (vm_ops_frames _ _ _ _ _ (vo_ca fail rd sep v ca' H) Hc).
  - (* vo_log: e is not a move *) apply quiet_pf; [exact Hc|apply quiet_vlog]. destruct e; try exact I; discriminate.
  - (* vo_target: a row of the table, logged, when applyTarget succeeds; nothing otherwise *)
    destruct (apply_follows _ _ _ _ _ _ _ Hc H) as (Hc' & Hr).
    destruct s; [|destruct Hr as [-> ->]; apply quiet_pf; [exact Hc|apply quiet_same; auto] ..].
    split; [exact Hc'|]. exists [EvMove k t nsym]. split; [reflexivity|].
    cbn [log_moves List.app nav_fold]. rewrite Hr. reflexivity.
Qed.

Lemma exec_instr_follows rs sep lang i b v :
  cache_ok (v_ca v) -> pos_follows v (fst (fst (exec_instr rs sep lang i b v))).
Proof. eapply vm_ops_follows, exec_instr_vm_ops. Qed.

(* THE invariant: whatever the code, the machine (with a cache of at least one frame), the fuel
   and the outcome (including errors, SPanic and SFuel), the position after `run` is the fold of the
   code's move table over the targets of the EvMove events this run appended to the log *)
Theorem run_follows fuel rs sep lang b v :
  cache_ok (v_ca v) -> pos_follows v (fst (fst (run fuel rs sep lang b v))).
Proof. eapply vm_ops_follows, run_vm_ops. Qed.

Lemma run_post_follows fuel rs sep lang v h :
  pos_follows v (fst (fst h)) -> pos_follows v (fst (fst (run_post fuel rs sep lang h))).
Proof.
  assert (K : forall x y, vm_ops (rs_can_fail rs) False sep x y -> pos_follows v x -> pos_follows v y)
    by (intros x y O F; eapply pf_trans; [exact F|apply (vm_ops_follows _ _ _ _ _ O), (pf_cache_ok _ _ F)]).
  (* loop_tail on an opcode other than HALT (op_NOOP stands for any) is loop_after over loop_errcheck *)
  intros F. rewrite run_post_loop. apply (loop_tail_keeps (pos_follows v) _ op_NOOP); [..|exact F]; intros; eapply K;
    eauto using set_page_err_vm_ops, dead_check_vm_ops, run_vm_ops.
Qed.

(* what Engine.reset does to a position: the empty stack, index 0 (nothing when the stack is
   already empty: Top() fails first) *)
Definition preset (p : list bytes * N) : list bytes * N := match fst p with [] => p | _ => ([], 0) end.

Lemma eng_reset_inner_spec v v' s :
  eng_reset_inner v = (v', s) ->
  pos_of (v_st v') = preset (pos_of (v_st v)) /\ v_log v' = v_log v
  /\ (cache_ok (v_ca v) -> cache_ok (v_ca v'))
  /\ (s_path (v_st v) <> [] -> s = SOk).
Proof.
  rewrite EngineProofs.eng_reset_inner_sc, EngineProofs.reset_sc_eq. unfold preset, pos_of. cbn [fst].
  destruct (s_path (v_st v)) as [|a l] eqn:Ep; intros H; injection H; intros; subst; cbn [v_st v_ca v_log vset_st vset_ca].
  - rewrite Ep. repeat split; [auto|contradiction].
  - repeat split. apply (pops_ne (S (List.length l))).
Qed.

Inductive pstep : Type := PMove (t : bytes) | PReset.
Fixpoint pos_trace (p : list bytes * N) (tr : list pstep) : option (list bytes * N) :=
  match tr with
  | [] => Some p
  | PMove t :: tr' => match nav_code p t with Some p' => pos_trace p' tr' | None => None end
  | PReset :: tr' => pos_trace (preset p) tr'
  end.
Fixpoint trace_moves (tr : list pstep) : list bytes :=
  match tr with [] => [] | PMove t :: tr' => t :: trace_moves tr' | PReset :: tr' => trace_moves tr' end.
Fixpoint trace_resets (tr : list pstep) : nat :=
  match tr with [] => O | PMove _ :: tr' => trace_resets tr' | PReset :: tr' => S (trace_resets tr') end.

(* v' is reached from v by logged moves of the table and engine resets, in some interleaving *)
Definition pos_reach (v v' : vmst) : Prop :=
  cache_ok (v_ca v') /\
  exists new tr, v_log v' = new ++ v_log v /\ trace_moves tr = log_moves new
    /\ pos_trace (pos_of (v_st v)) tr = Some (pos_of (v_st v')).

Lemma pos_trace_app a : forall p b,
  pos_trace p (a ++ b) = match pos_trace p a with Some p' => pos_trace p' b | None => None end.
Proof.
  induction a as [|x a IH]; intros p b; [reflexivity|]. cbn [List.app pos_trace].
  destruct x; [destruct (nav_code p t); [apply IH|reflexivity]|apply IH].
Qed.
Lemma trace_moves_app a b : trace_moves (a ++ b) = trace_moves a ++ trace_moves b.
Proof. induction a as [|x a IH]; [reflexivity|]. destruct x; cbn [List.app trace_moves]; rewrite IH; reflexivity. Qed.
Lemma trace_resets_app a b : trace_resets (a ++ b) = (trace_resets a + trace_resets b)%nat.
Proof. induction a as [|x a IH]; [reflexivity|]. destruct x; cbn [List.app trace_resets]; rewrite IH; reflexivity. Qed.
Lemma pos_trace_moves ms : forall p, pos_trace p (map PMove ms) = nav_fold nav_code p ms.
Proof. induction ms as [|m ms IH]; intros p; [reflexivity|]. cbn [map pos_trace nav_fold]. destruct (nav_code p m); [apply IH|reflexivity]. Qed.
Lemma trace_moves_map ms : trace_moves (map PMove ms) = ms.
Proof. induction ms as [|m ms IH]; [reflexivity|]. cbn [map trace_moves]. rewrite IH. reflexivity. Qed.
Lemma trace_resets_map ms : trace_resets (map PMove ms) = O.
Proof. induction ms as [|m ms IH]; [reflexivity|]. exact IH. Qed.

Lemma pr_follows a b : pos_follows a b -> pos_reach a b.
Proof.
  intros (C & new & L & F). split; [exact C|]. exists new, (map PMove (log_moves new)).
  split; [exact L|]. split; [apply trace_moves_map|]. rewrite pos_trace_moves. exact F.
Qed.
Lemma pr_trans a b c : pos_reach a b -> pos_reach b c -> pos_reach a c.
Proof.
  intros (C1 & n1 & t1 & L1 & M1 & T1) (C2 & n2 & t2 & L2 & M2 & T2). split; [exact C2|].
  exists (n2 ++ n1), (t1 ++ t2). split; [rewrite L2, L1, app_assoc; reflexivity|].
  split; [rewrite trace_moves_app, log_moves_app, M1, M2; reflexivity|].
  rewrite pos_trace_app, T1. exact T2.
Qed.

(* Through a request two things are carried along: pos_reach, and pos_follows as long as a condition
   `strict` excludes the engine's resets.  Each stage states its own condition; the request's is their
   conjunction. *)
Definition reach (strict : Prop) (v v' : vmst) : Prop := pos_reach v v' /\ (strict -> pos_follows v v').

Lemma reach_follows S a b : pos_follows a b -> reach S a b.
Proof. intros F. split; [apply pr_follows, F|intros _; exact F]. Qed.
Lemma reach_trans S a b c : reach S a b -> reach S b c -> reach S a c.
Proof. intros [R1 F1] [R2 F2]. split; [eapply pr_trans; eassumption|]. intros H. eapply pf_trans; auto. Qed.
Lemma reach_weaken (S S' : Prop) a b : (S' -> S) -> reach S a b -> reach S' a b.
Proof. intros H [R F]. split; [exact R|auto]. Qed.
Lemma reach_cache_ok S a b : reach S a b -> cache_ok (v_ca b).
Proof. intros [[C _] _]. exact C. Qed.
Lemma reach_reset v v' s : cache_ok (v_ca v) -> eng_reset_inner v = (v', s) -> reach False v v'.
Proof.
  intros Hc H. destruct (eng_reset_inner_spec _ _ _ H) as (P & L & C & _). split; [|contradiction].
  split; [exact (C Hc)|]. exists [], [PReset]. split; [exact L|]. split; [reflexivity|].
  cbn [pos_trace]. rewrite P. reflexivity.
Qed.

Lemma vm_render_follows fuel rs sep lang v :
  cache_ok (v_ca v) -> pos_follows v (fst (vm_render fuel rs sep lang v)).
Proof. eapply vm_ops_follows, vm_render_vm_ops. Qed.

Lemma set_code_eng_quiet e code :
  quiet (e_v e) (e_v (fst (set_code_eng e code))) /\ e_initd (fst (set_code_eng e code)) = e_initd e
  /\ (snd (set_code_eng e code) = true -> e_exiting (fst (set_code_eng e code)) = e_exiting e).
Proof.
  rewrite EngineProofs.set_code_eng_eq. destruct code as [|x code]; [destruct (getf _ FLAG_DIRTY)|]; cbn [fst snd e_v e_initd e_exiting eset_v].
  - split; [apply quiet_same; auto|]. split; [reflexivity|discriminate].
  - split; [apply quiet_same; auto|]. split; [reflexivity|discriminate].
  - split; [apply quiet_same; auto|]. split; reflexivity.
Qed.

Lemma eng_flush_reach fuel rs c e e' out f :
  cache_ok (v_ca (e_v e)) -> eng_flush fuel rs c e = (e', out, f) ->
  pos_reach (e_v e) (e_v e') /\ e_initd e' = e_initd e /\ e_execd e' = e_execd e
  /\ (e_exiting e = false -> pos_follows (e_v e) (e_v e') /\ e_exiting e' = false).
Proof.
  intros Hc H. pose proof (proj1 (EngineProofs.eng_flush_cases fuel rs c e)) as E. rewrite H in E. cbn [fst] in E.
  pose proof (vm_render_follows fuel rs (c_sep c) (s_lang (v_st (e_v e))) (e_v e) Hc) as F.
  destruct E as [->|[->|[Hx ->]]].
  - split; [apply pr_follows, pf_refl, Hc|]. split; [reflexivity|]. split; [reflexivity|].
    intros Hx. split; [apply pf_refl, Hc|exact Hx].
  - split; [apply pr_follows, F|]. split; [reflexivity|]. split; [reflexivity|]. intros Hx. split; [exact F|exact Hx].
  - split; [|split; [reflexivity|split; [reflexivity|congruence]]].
    eapply pr_trans; [apply pr_follows, F|]. eapply reach_reset; [exact (pf_cache_ok _ _ F)|apply surjective_pairing].
Qed.

Lemma eng_exec_inner_quiet fuel rs c e e' cont s :
  s_code (v_st (e_v e)) <> [] -> eng_exec_inner fuel rs c e = (e', cont, s) ->
  let v0 := vset_st (e_v e) (set_code (v_st (e_v e)) []) in
  quiet (fst (fst (run fuel rs (c_sep c) (s_lang (v_st v0)) (s_code (v_st (e_v e))) v0))) (e_v e')
  /\ e_initd e' = e_initd e /\ (cont = true -> e_exiting e' = e_exiting e /\ s = SOk).
Proof.
  intros Hne H. rewrite EngineProofs.eng_exec_inner_run in H by exact Hne. cbv zeta in H |- *.
  change (s_lang (v_st (e_v e))) with (s_lang (v_st (vset_st (e_v e) (set_code (v_st (e_v e)) [])))) in H.
  destruct (run fuel rs (c_sep c) _ _ _) as [[v1 b] s1]. cbn [fst].
  destruct s1; try (injection H; intros; subst; split; [apply quiet_refl|split; [reflexivity|discriminate]]).
  destruct (getf (v_st v1) FLAG_TERMINATE).
  { injection H; intros; subst. split; [apply quiet_refl|]. split; [reflexivity|discriminate]. }
  destruct (set_code_eng_quiet (mkEng v1 (e_initd e) (e_exit e) (e_exiting e) true) b) as (Q2 & I2 & X2).
  destruct (set_code_eng _ b) as [e2 cont2]. injection H; intros; subst. cbn [fst snd e_v e_initd e_exiting] in *.
  split; [exact Q2|]. split; [exact I2|]. intros Hcont. split; [apply X2; exact Hcont|reflexivity].
Qed.

Lemma eng_exec_inner_follows fuel rs c e e' cont s :
  cache_ok (v_ca (e_v e)) -> eng_exec_inner fuel rs c e = (e', cont, s) ->
  pos_follows (e_v e) (e_v e') /\ e_initd e' = e_initd e
  /\ (cont = true -> e_exiting e' = e_exiting e /\ s = SOk).
Proof.
  intros Hc H.
  assert (F0 : pos_follows (e_v e) (vset_st (e_v e) (set_code (v_st (e_v e)) [])))
    by (apply quiet_pf; [exact Hc|apply quiet_same; auto]).
  destruct (s_code (v_st (e_v e))) as [|x code] eqn:Ec.
  - unfold eng_exec_inner in H. rewrite Ec in H. injection H; intros; subst. split; [exact F0|]. split; [reflexivity|discriminate].
  - apply eng_exec_inner_quiet in H; [|rewrite Ec; discriminate]. destruct H as (Q & IX). split; [|exact IX].
    eapply pf_quiet_r; [|exact Q]. eapply pf_trans; [exact F0|]. apply run_follows, (pf_cache_ok _ _ F0).
Qed.

(* Reset(force) (EngineProofs.forced): nothing at the empty position; elsewhere the pending code is replaced, which
   moves nothing, and the machine is reset *)
Lemma forced_reach c e :
  cache_ok (v_ca (e_v e)) ->
  reach False (e_v e) (e_v (EngineProofs.forced c e)) /\ e_initd (EngineProofs.forced c e) = e_initd e
  /\ e_exiting (EngineProofs.forced c e) = e_exiting e.
Proof.
  intros Hc. unfold EngineProofs.forced.
  destruct (s_path (v_st (e_v e))) as [|a p] eqn:Ep; [split; [apply reach_follows, pf_refl, Hc|split; reflexivity]|].
  split; [|split; reflexivity]. cbn [e_v eset_v].
  set (v0 := vset_st (e_v e) (set_code (v_st (e_v e)) (encode (IMove (cfg_root c))))).
  eapply reach_trans; [apply reach_follows, (quiet_pf _ v0 Hc), quiet_same; auto|].
  assert (E : eng_reset_inner v0 = _) by (apply EngineProofs.eng_reset_inner_eq; cbn; rewrite Ep; discriminate).
  cbn [v0 v_st vset_st s_path set_code] in E. rewrite Ep in E. exact (reach_reset v0 _ _ Hc E).
Qed.

(* no stale position to unwind when a new engine object takes over the session: the test Init makes,
   EngineProofs.stale, answers false *)
Definition no_stale (st : state) : Prop :=
  s_code st <> [] \/ s_path st = [] \/ getf st FLAG_TERMINATE = true.

Lemma init_sc_reach c st ca :
  cache_ok ca ->
  cache_ok (snd (EngineProofs.init_sc c st ca))
  /\ (pos_of (fst (EngineProofs.init_sc c st ca)) = preset (pos_of st) \/ pos_of (fst (EngineProofs.init_sc c st ca)) = pos_of st)
  /\ (no_stale st -> pos_of (fst (EngineProofs.init_sc c st ca)) = pos_of st).
Proof.
  intros Hc. unfold EngineProofs.init_sc, EngineProofs.stale, no_stale.
  destruct (s_code st) as [|x cd]; [|auto].
  destruct (s_path st) as [|a p] eqn:Ep; [auto|].
  destruct (getf st FLAG_TERMINATE); cbn [negb]; [auto|].
  rewrite EngineProofs.reset_sc_eq, Ep. cbn [fst snd].
  split; [apply pops_ne, Hc|]. split; [left; unfold preset, pos_of; rewrite Ep; reflexivity|].
  intros [N|[N|N]]; [elim N; reflexivity|discriminate ..].
Qed.

Lemma init_new_reach fuel c v input e' cont s :
  c_first c = None -> cache_ok (v_ca v) ->
  EngineProofs.init_new fuel c (mkEng v false [] false false) input = (e', cont, s) ->
  reach (no_stale (v_st v)) v (e_v e') /\ v_log (e_v e') = v_log v
  /\ e_execd e' = false /\ e_exiting e' = false
  /\ (s = SOk -> cont = true /\ e_initd e' = true) /\ (s <> SOk -> e_initd e' = false).
Proof.
  intros Hf Hc. destruct v as [st ca pg w lg t]. rewrite EngineProofs.init_new_plain by exact Hf.
  destruct (INPUT_LIMIT <? len input).
  - intros H. injection H; intros; subst. split; [apply reach_follows, pf_refl, Hc|]. repeat split; discriminate.
  - destruct (init_sc_reach c st ca Hc) as (C & P & N). destruct (EngineProofs.init_sc c st ca) as [st' ca'].
    intros H. injection H; intros; subst. cbn [fst snd e_v v_st v_ca v_log e_execd e_exiting e_initd] in *.
    split; [|repeat split; contradiction].
    assert (R : forall tr, pos_trace (pos_of st) tr = Some (pos_of st') -> trace_moves tr = [] ->
                  pos_reach (mkVm st ca pg w lg t) (mkVm st' ca' pg w lg t)).
    { intros tr T M. split; [exact C|]. exists [], tr. auto. }
    split.
    + destruct P as [P|P]; [apply (R [PReset])|apply (R [])]; try reflexivity; cbn [pos_trace]; rewrite P; reflexivity.
    + intros Hn. split; [exact C|]. exists []. split; [reflexivity|]. cbn [log_moves nav_fold v_st]. rewrite (N Hn). reflexivity.
Qed.

Lemma prepare_reach fuel rs c e e1 s1 :
  cache_ok (v_ca (e_v e)) -> EngineProofs.prepare fuel rs c e = (e1, s1) ->
  reach (e_exiting e = false) (e_v e) (e_v e1) /\ e_initd e1 = e_initd e /\ (e_execd e = false -> e1 = e).
Proof.
  intros Hc. unfold EngineProofs.prepare. destruct (e_execd e).
  - destruct (eng_flush fuel rs c e) as [[ef o] f] eqn:Hf. intros [= <- _].
    destruct (eng_flush_reach _ _ _ _ _ _ _ Hc Hf) as (R & I1 & _ & X).
    split; [split; [exact R|apply X]|]. split; [exact I1|discriminate].
  - intros [= <- _]. split; [apply reach_follows, pf_refl, Hc|]. auto.
Qed.

Lemma eng_init_reach fuel rs c e input e' cont s :
  (e_initd e = true \/ c_first c = None) -> cache_ok (v_ca (e_v e)) ->
  eng_init fuel rs c e input = (e', cont, s) ->
  reach (e_exiting e = false /\ (e_initd e = true \/ (e_execd e = false /\ no_stale (v_st (e_v e))))) (e_v e) (e_v e')
  /\ (s = SOk -> cont = true /\ e_initd e' = true /\ e_exiting e' = false).
Proof.
  intros Hfirst Hc H. rewrite EngineProofs.eng_init_steps in H.
  destruct (EngineProofs.prepare fuel rs c e) as [e1 s1] eqn:Hp.
  destruct (prepare_reach _ _ _ _ _ _ Hc Hp) as (R1 & I1 & U1). unfold EngineProofs.then_ok, EngineProofs.cleared in H.
  (* R1 under the condition of the statement, whatever its second half B is *)
  pose proof (fun B => reach_weaken _ (e_exiting e = false /\ B) _ _ (@proj1 _ _) R1) as R1'.
  destruct s1; try (injection H; intros; subst; split; [apply R1'|discriminate]).
  destruct (e_initd e1) eqn:Hi1; [injection H; intros; subst; split; [apply R1'|auto]|].
  assert (Hf0 : c_first c = None) by (destruct Hfirst; congruence).
  destruct (init_new_reach _ _ _ _ _ _ _ Hf0 (reach_cache_ok _ _ _ R1) H) as (R2 & _ & _ & X2 & I2 & _).
  split; [|intros Hs; destruct (I2 Hs); auto].
  eapply reach_trans; [apply R1'|]. eapply reach_weaken; [|exact R2].
  intros (_ & [Hi|[Hx Hn]]); [congruence|]. rewrite (U1 Hx). exact Hn.
Qed.

Lemma exec_tail_reach fuel rs c e1 input e' cont s :
  cache_ok (v_ca (e_v e1)) -> EngineProofs.exec_tail fuel rs c e1 input = (e', cont, s) ->
  reach ((c_reset_empty c && (len input =? 0)) = false) (e_v e1) (e_v e') /\ e_initd e' = e_initd e1
  /\ (cont = true -> e_exiting e' = e_exiting e1).
Proof.
  intros Hc1 H. rewrite EngineProofs.exec_tail_cases in H. cbv zeta in H.
  assert (Hrf : reach ((c_reset_empty c && (len input =? 0)) = false) (e_v e1) (e_v (EngineProofs.reset_opt c input e1))
                /\ e_initd (EngineProofs.reset_opt c input e1) = e_initd e1
                /\ e_exiting (EngineProofs.reset_opt c input e1) = e_exiting e1).
  { unfold EngineProofs.reset_opt. destruct (c_reset_empty c && (len input =? 0)).
    - destruct (forced_reach c e1 Hc1) as (R & IX).
      split; [eapply reach_weaken; [|exact R]; discriminate|exact IX].
    - split; [apply reach_follows, pf_refl, Hc1|]. auto. }
  destruct Hrf as (R2 & I2 & X2). set (e2 := EngineProofs.reset_opt c input e1) in *.
  destruct ((0 <? len input) && negb (valid_input_b input)); [injection H; intros; subst; auto|].
  destruct (INPUT_LIMIT <? len input); [injection H; intros; subst; split; [exact R2|split; [exact I2|discriminate]]|].
  pose proof (reach_cache_ok _ _ _ R2) as Hc2.
  apply eng_exec_inner_follows in H; [|exact Hc2]. destruct H as (F4 & I4 & X4).
  split; [eapply reach_trans; [exact R2|apply reach_follows; eapply pf_trans; [apply quiet_pf; [exact Hc2|apply quiet_same; auto]|exact F4]]|].
  split; [rewrite I4; exact I2|]. intros Hcont. destruct (X4 Hcont) as [X5 _]. rewrite X5. exact X2.
Qed.

Lemma eng_exec_reach fuel rs c e input e' cont s :
  (e_initd e = true \/ c_first c = None) -> cache_ok (v_ca (e_v e)) ->
  eng_exec fuel rs c e input = (e', cont, s) ->
  reach ((e_exiting e = false /\ (e_initd e = true \/ (e_execd e = false /\ no_stale (v_st (e_v e)))))
         /\ (c_reset_empty c && (len input =? 0)) = false) (e_v e) (e_v e')
  /\ (cont = true -> e_initd e' = true /\ e_exiting e' = false).
Proof.
  intros Hfirst Hc H. rewrite EngineProofs.eng_exec_steps in H.
  destruct (eng_init fuel rs c e input) as [[e1 cont0] s0] eqn:Hi. cbn [EngineProofs.then_go EngineProofs.then_ok] in H.
  destruct (eng_init_reach _ _ _ _ _ _ _ _ Hfirst Hc Hi) as (R1 & I1).
  destruct s0; try (injection H; intros; subst; split; [exact (reach_weaken _ _ _ _ (@proj1 _ _) R1)|discriminate]).
  destruct (I1 eq_refl) as (-> & Hin1 & Hex1). cbn [negb] in H.
  destruct (exec_tail_reach _ _ _ _ _ _ _ _ (reach_cache_ok _ _ _ R1) H) as (R2 & I2 & X2).
  split; [exact (reach_trans _ _ _ _ (reach_weaken _ _ _ _ (@proj1 _ _) R1) (reach_weaken _ _ _ _ (@proj2 _ _) R2))|].
  intros Hcont. rewrite I2, (X2 Hcont). auto.
Qed.

(* persisted operation: the session record the request starts from *)
Definition start_snap (c : config) (p : pworld) : snapshot :=
  match pw_store p with Some sc => sc | None => (fresh_state c, fresh_cache c) end.

Lemma fresh_state_pos c : pos_of (fresh_state c) = ([], 0).
Proof. apply (flagish_pos _ _ (EngineProofs.fresh_state_flagish c)). Qed.
Lemma fresh_cache_ok c : cache_ok (fresh_cache c).
Proof. unfold cache_ok, fresh_cache, new_cache. cbn [c_frames]. discriminate. Qed.

Definition fstat_fatal (f : fstat) : bool := match f with FPanic _ | FFuel => true | _ => false end.
Definition resp_fatal (r : response) : bool :=
  match r_exec r with SPanic _ | SFuel => true | _ => fstat_fatal (r_flush r) end.

Lemma long_finish_reach fuel rs c e1 cont s e2 resp :
  cache_ok (v_ca (e_v e1)) -> EngineProofs.long_finish fuel rs c (e1, cont, s) = (e2, resp) ->
  pos_reach (e_v e1) (e_v e2) /\ (e_exiting e1 = false -> pos_follows (e_v e1) (e_v e2))
  /\ e_initd e2 = e_initd e1 /\ (e_execd e1 = false -> e2 = e1)
  /\ r_cont resp = cont /\ resp_fatal resp = fstat_fatal (r_flush resp).
Proof.
  intros Hc H. unfold EngineProofs.long_finish in H.
  assert (Hfl : forall ef out f, eng_flush fuel rs c e1 = (ef, out, f) ->
            pos_reach (e_v e1) (e_v ef) /\ (e_exiting e1 = false -> pos_follows (e_v e1) (e_v ef))
            /\ e_initd ef = e_initd e1 /\ (e_execd e1 = false -> ef = e1)).
  { intros ef out f Hf. destruct (eng_flush_reach _ _ _ _ _ _ _ Hc Hf) as (R2 & I2 & _ & X2).
    split; [exact R2|]. split; [intros Hx; apply X2, Hx|]. split; [exact I2|].
    intros Hx. rewrite (EngineProofs.flush_before_exec _ _ _ _ Hx) in Hf. congruence. }
  destruct s as [|er m|n|].
  (* Exec ended well or with an error: Flush *)
  1,2: destruct (eng_flush fuel rs c e1) as [[ef out] f]; injection H as <- <-;
       destruct (Hfl _ _ _ eq_refl) as (A1 & A2 & A3 & A4); auto 10.
  (* a panic, out of fuel: nothing follows *)
  all: injection H as <- <-; auto 10 using pr_follows, pf_refl.
Qed.

Lemma request_long_reach fuel rs c e input e' resp :
  (e_initd e = true \/ c_first c = None) -> cache_ok (v_ca (e_v e)) ->
  request_long fuel rs c e input = (e', resp) ->
  pos_reach (e_v e) (e_v e')
  /\ (e_exiting e = false -> (e_initd e = true \/ (e_execd e = false /\ no_stale (v_st (e_v e)))) ->
      (c_reset_empty c && (len input =? 0)) = false -> r_cont resp = true ->
      pos_follows (e_v e) (e_v e')).
Proof.
  intros Hfirst Hc H. rewrite EngineProofs.request_long_finish in H.
  destruct (eng_exec fuel rs c e input) as [[e1 cont] s] eqn:He.
  destruct (eng_exec_reach _ _ _ _ _ _ _ _ Hfirst Hc He) as ([R1 F1] & I1).
  destruct (long_finish_reach _ _ _ _ _ _ _ _ (proj1 R1) H) as (R2 & F2 & _ & _ & Hcont & _).
  split; [eapply pr_trans; eassumption|]. intros Hx Hy Hz Hk. rewrite Hcont in Hk.
  eapply pf_trans; [exact (F1 (conj (conj Hx Hy) Hz))|apply F2, I1, Hk].
Qed.

Lemma saved_eq e f :
  EngineProofs.saved e f = if fstat_fatal f || negb (e_initd e) then None else Some (snap_of (v_st (e_v e)) (v_ca (e_v e))).
Proof. unfold EngineProofs.saved, eng_finish. destruct f; try reflexivity; destruct (e_initd e); reflexivity. Qed.

Lemma new_engine_start c p :
  let e := new_engine c (pw_store p) (pw_w p) (pw_log p) in
  v_st (e_v e) = fst (start_snap c p) /\ v_ca (e_v e) = snd (start_snap c p) /\ v_log (e_v e) = pw_log p
  /\ e_initd e = false /\ e_execd e = false /\ e_exiting e = false
  /\ exists st0, EngineProofs.store0_of c (pw_store p) = Some (st0, snd (start_snap c p))
                 /\ pos_of st0 = pos_of (fst (start_snap c p)).
Proof.
  unfold new_engine, start_snap, EngineProofs.store0_of. destruct (pw_store p) as [[s ca]|];
    cbn [v_st v_ca v_log e_v e_initd e_execd e_exiting fst snd]; repeat split; eexists; split; reflexivity.
Qed.

Lemma eng_exec_new_failed fuel rs c e input e' cont s :
  c_first c = None -> e_execd e = false -> e_initd e = false -> cache_ok (v_ca (e_v e)) ->
  eng_exec fuel rs c e input = (e', cont, s) -> e_initd e' = false ->
  v_log (e_v e') = v_log (e_v e) /\ e_execd e' = false.
Proof.
  intros Hf Hx Hi Hc H Hi'. rewrite EngineProofs.eng_exec_steps, EngineProofs.eng_init_settled in H by (intros K; congruence).
  unfold EngineProofs.stuck, EngineProofs.cleared in H. rewrite Hx, Hi in H. cbn [andb] in H.
  destruct (EngineProofs.init_new fuel c _ input) as [[e1 cont0] s0] eqn:Hin. cbn [EngineProofs.then_go EngineProofs.then_ok] in H.
  destruct (init_new_reach _ _ _ _ _ _ _ Hf Hc Hin) as (R1 & L1 & X1 & _ & I1 & _).
  destruct s0; try (injection H; intros; subst; auto).
  destruct (I1 eq_refl) as [-> Hi1]. cbn [negb] in H.
  destruct (exec_tail_reach _ _ _ _ _ _ _ _ (reach_cache_ok _ _ _ R1) H) as (_ & I2 & _). congruence.
Qed.

(* One persisted request.  The stored record afterwards: the old one after a panic or out of fuel; otherwise it is
   reached from the old one by a trace whose moves are exactly the moves logged meanwhile (the empty trace when
   the engine was left uninitialised and the record was not rewritten); by the plain fold for a continuing
   request without a reset. *)
Lemma request_persisted_record fuel rs c p input p' resp :
  c_first c = None -> cache_ok (snd (start_snap c p)) ->
  request_persisted fuel rs c p input = (p', resp) ->
  resp_fatal resp = fstat_fatal (r_flush resp) /\
  exists st' ca', pw_store p' = Some (st', ca') /\ cache_ok ca'
  /\ (if fstat_fatal (r_flush resp)
      then pos_of st' = pos_of (fst (start_snap c p)) /\ ca' = snd (start_snap c p)
      else exists new tr, pw_log p' = new ++ pw_log p /\ trace_moves tr = log_moves new
             /\ pos_trace (pos_of (fst (start_snap c p))) tr = Some (pos_of st'))
  /\ (no_stale (fst (start_snap c p)) -> (c_reset_empty c && (len input =? 0)) = false ->
      r_cont resp = true -> fstat_fatal (r_flush resp) = false ->
      exists new, pw_log p' = new ++ pw_log p
        /\ nav_fold nav_code (pos_of (fst (start_snap c p))) (log_moves new) = Some (pos_of st')).
Proof.
  intros Hfirst Hc0 H. rewrite EngineProofs.request_persisted_long, EngineProofs.request_long_finish in H.
  destruct (new_engine_start c p) as (Est & Eca & Elog & Einit & Eexecd & Eexiting & st0 & Hs0 & Hp0).
  set (e := new_engine c (pw_store p) (pw_w p) (pw_log p)) in *. rewrite <- Eca in Hc0.
  destruct (eng_exec fuel rs c e input) as [[e1 cont] s] eqn:He.
  destruct (eng_exec_reach _ _ _ _ _ _ _ _ (or_intror Hfirst) Hc0 He) as ([R1 F1] & I1).
  destruct (EngineProofs.long_finish fuel rs c (e1, cont, s)) as [e2 r] eqn:Hfin.
  destruct (long_finish_reach _ _ _ _ _ _ _ _ (proj1 R1) Hfin) as (R2 & F2 & I2 & U2 & Hcont & Hrf).
  unfold EngineProofs.pers_of in H. rewrite saved_eq in H. injection H as <- ->.
  split; [exact Hrf|]. cbn [pw_store pw_log]. rewrite <- Est, <- Elog.
  destruct (fstat_fatal (r_flush resp)) eqn:Hfat; [|destruct (e_initd e2) eqn:Hi2]; cbn [orb negb].
  - exists st0, (snd (start_snap c p)). split; [exact Hs0|]. split; [rewrite <- Eca; exact Hc0|].
    split; [rewrite Est; auto|discriminate].
  - destruct (pr_trans _ _ _ R1 R2) as (C & new & tr & L & M & T).
    eexists _, _. split; [reflexivity|]. split; [exact C|]. split; [exists new, tr; auto|].
    intros Hns Hre Hc _. rewrite Hcont in Hc. destruct (I1 Hc) as [_ Hex1].
    destruct (pf_trans _ _ _ (F1 (conj (conj Eexiting (or_intror (conj Eexecd Hns))) Hre)) (F2 Hex1)) as (_ & new2 & L2 & N2).
    exists new2. auto.
  - destruct (eng_exec_new_failed _ _ _ _ _ _ _ _ Hfirst Eexecd Einit Hc0 He (eq_sym I2)) as [L1 X1].
    rewrite (U2 X1), L1. exists st0, (snd (start_snap c p)). split; [exact Hs0|]. split; [rewrite <- Eca; exact Hc0|].
    split; [exists [], []; cbn [pos_trace]; rewrite Hp0, Est; auto|].
    intros _ _ Hc _. rewrite Hcont in Hc. destruct (I1 Hc). congruence.
Qed.

Lemma request_persisted_trace fuel rs c p input p' resp :
  c_first c = None -> cache_ok (snd (start_snap c p)) ->
  request_persisted fuel rs c p input = (p', resp) -> resp_fatal resp = false ->
  exists st' ca', pw_store p' = Some (st', ca') /\ cache_ok ca'
    /\ exists new tr, pw_log p' = new ++ pw_log p /\ trace_moves tr = log_moves new
         /\ pos_trace (pos_of (fst (start_snap c p))) tr = Some (pos_of st').
Proof.
  intros Hfirst Hc0 H Hnf.
  destruct (request_persisted_record _ _ _ _ _ _ _ Hfirst Hc0 H) as (Hrf & st' & ca' & Hs & Hc' & D & _).
  rewrite <- Hrf, Hnf in D. exists st', ca'. auto.
Qed.

Fixpoint long_history (fuel : nat) (rs : rsrc) (c : config) (e : engine) (inputs : list bytes) : engine :=
  match inputs with
  | [] => e
  | i :: r => long_history fuel rs c (fst (request_long fuel rs c e i)) r
  end.
Lemma long_history_reach : forall inputs fuel rs c e,
  c_first c = None -> cache_ok (v_ca (e_v e)) ->
  pos_reach (e_v e) (e_v (long_history fuel rs c e inputs)).
Proof.
  induction inputs as [|i r IH]; intros fuel rs c e Hf Hc; [apply pr_follows, pf_refl, Hc|].
  cbn [long_history]. destruct (request_long fuel rs c e i) as [e1 resp] eqn:Hr. cbn [fst].
  destruct (request_long_reach _ _ _ _ _ _ _ (or_intror Hf) Hc Hr) as [R1 _].
  eapply pr_trans; [exact R1|]. apply IH; [exact Hf|apply R1].
Qed.
Fixpoint pers_history (fuel : nat) (rs : rsrc) (c : config) (p : pworld) (inputs : list bytes) : pworld * list response :=
  match inputs with
  | [] => (p, [])
  | i :: r =>
    let '(p1, resp) := request_persisted fuel rs c p i in
    let '(p2, resps) := pers_history fuel rs c p1 r in
    (p2, resp :: resps)
  end.
Definition no_fatal (resps : list response) : bool := forallb (fun r => negb (resp_fatal r)) resps.

(* "the trace explains the log": the session's current record is reached from the empty position by
   table moves and resets, the moves being exactly the logged ones, oldest first *)
Definition explained (c : config) (p : pworld) : Prop :=
  cache_ok (snd (start_snap c p)) /\
  exists tr, trace_moves tr = log_moves (pw_log p)
    /\ pos_trace ([], 0) tr = Some (pos_of (fst (start_snap c p))).

Lemma explained_fresh c : explained c (mkPw None [] [] false).
Proof.
  split; [apply fresh_cache_ok|]. exists []. split; [reflexivity|].
  unfold start_snap. cbn [pw_store fst pos_trace]. rewrite fresh_state_pos. reflexivity.
Qed.

Lemma pers_history_explained : forall inputs fuel rs c p p' resps,
  c_first c = None -> explained c p ->
  pers_history fuel rs c p inputs = (p', resps) -> no_fatal resps = true ->
  explained c p' /\ (inputs <> [] -> exists sn, pw_store p' = Some sn).
Proof.
  induction inputs as [|i r IH]; intros fuel rs c p p' resps Hf He H Hn; cbn [pers_history] in H.
  - injection H; intros; subst. split; [exact He|]. intros C; contradiction.
  - destruct (request_persisted fuel rs c p i) as [p1 resp] eqn:Hr.
    destruct (pers_history fuel rs c p1 r) as [p2 resps2] eqn:Hh. injection H; intros; subst p' resps.
    unfold no_fatal in Hn. cbn [forallb] in Hn. apply andb_true_iff in Hn. destruct Hn as [Hn1 Hn2].
    apply negb_true_iff in Hn1. destruct He as (Hc & tr & M & T).
    destruct (request_persisted_trace _ _ _ _ _ _ _ Hf Hc Hr Hn1) as (st' & ca' & Hs & Hc' & new & tr' & L & M' & T').
    assert (He1 : explained c p1).
    { unfold explained, start_snap. rewrite Hs. cbn [fst snd]. split; [exact Hc'|].
      exists (tr ++ tr'). split; [rewrite trace_moves_app, L, log_moves_app, M, M'; reflexivity|].
      rewrite pos_trace_app, T. exact T'. }
    destruct (IH fuel rs c p1 p2 resps2 Hf He1 Hh Hn2) as [He2 Hsome]. split; [exact He2|].
    intros _. destruct r as [|i2 r2].
    + cbn [pers_history] in Hh. inversion Hh; subst. eexists. exact Hs.
    + apply Hsome. discriminate.
Qed.

(* Fixtures.  ex_app, ex_vm: the machine-level Examples of props/C03.v (C03_start_nonvacuous, C03_no_match_nonvacuous,
   C03_first_match_nonvacuous, C03_prev_nonvacuous), C04_run_nonvacuous, and the witnesses of
   C03_at_most_one_move_refuted_dupsel and C04_position_follows_spec_refuted_up_at_entry *)
Definition ex_app : app :=
  mkApp [(s2b "root", encode_prog [IHalt]); (s2b "foo", encode_prog [IHalt]); (s2b "bar", encode_prog [IHalt]);
         (s2b "_catch", encode_prog [IHalt])] [] [] [].
(* the machine stopped at root's HALT (WAIT set), on page `idx`, with the client's answer `input` *)
Definition ex_vm (idx : N) (input : bytes) : vmst :=
  let v0 := mkVm (set_input_raw (new_state 8) (Some [])) (new_cache 0) (vm_reset [] new_page) [] [] false in
  let '(v1, _, _) := run 10 (app_rsrc ex_app) [] None (encode (IMove (s2b "root"))) v0 in
  vset_st v1 (set_path_idx (set_input_raw (v_st v1) (Some input)) (s_path (v_st v1)) idx).

(* corpus case `dupsel` of go/cmd/vh/engine.go: C03_dupsel_engine, C04_request_long_nonvacuous,
   C04_request_persisted_nonvacuous, C04_history_persisted_nonvacuous *)
Definition ex_eng_app : app :=
  mkApp [(s2b "root", encode_prog [IHalt; IInCmp (s2b "foo") (s2b "1"); IInCmp (s2b "bar") (s2b "1"); IInCmp (s2b "baz") (s2b "*")]);
         (s2b "foo", encode_prog [IHalt; IInCmp (s2b "_") (s2b "0")]);
         (s2b "bar", encode_prog [IHalt; IInCmp (s2b "_") (s2b "0")]);
         (s2b "baz", encode_prog [IHalt; IInCmp (s2b "_") (s2b "0")]);
         (s2b "_catch", encode_prog [IHalt; IInCmp (s2b "_") (s2b "*")])]
        [(s2b "root", s2b "root"); (s2b "foo", s2b "foo"); (s2b "bar", s2b "bar"); (s2b "baz", s2b "baz"); (s2b "_catch", s2b "catch")]
        [] [].
Definition ex_cfg : config := mkCfg 0 (s2b "root") 1 0 [] [] false None.
Fixpoint ex_long (e : engine) (inputs : list bytes) : engine :=
  match inputs with
  | [] => e
  | i :: r => ex_long (fst (request_long 200 (app_rsrc ex_eng_app) ex_cfg e i)) r
  end.
Fixpoint ex_pers (p : pworld) (inputs : list bytes) : pworld :=
  match inputs with
  | [] => p
  | i :: r => ex_pers (fst (request_persisted 200 (app_rsrc ex_eng_app) ex_cfg p i)) r
  end.


(* the witness of K-C03-stale-readin (C03_refuted_stale_readin, C03_stale_readin_engine): root = HALT; INCMP foo 1, _catch = HALT; MOVE end1, end1 = MOUT bye 0 *)
Definition stale_app : app :=
  mkApp [(s2b "root", encode_prog [IHalt; IInCmp (s2b "foo") (s2b "1")]);
         (s2b "foo", encode_prog [IHalt]);
         (s2b "end1", encode_prog [IMOut (s2b "bye") (s2b "0")]);
         (s2b "_catch", encode_prog [IHalt; IMove (s2b "end1")])]
        [(s2b "root", s2b "root"); (s2b "foo", s2b "foo"); (s2b "end1", s2b "end1"); (s2b "_catch", s2b "catch")] [] [].
Fixpoint stale_long (e : engine) (inputs : list bytes) : engine * list bytes :=
  match inputs with
  | [] => (e, [])
  | i :: r => let '(e1, resp) := request_long 200 (app_rsrc stale_app) ex_cfg e i in
              let '(e2, outs) := stale_long e1 r in (e2, r_out resp :: outs)
  end.
(* the long-lived engine after "" and the unmatched "x": stopped at _catch's HALT, READIN still set *)
Definition stale_engine : engine := fst (stale_long (new_engine ex_cfg None [] []) [[]; s2b "x"]).
(* what Exec hands to Run for the next input "y": pending code and machine *)
Definition stale_code : bytes := s_code (v_st (e_v stale_engine)).
Definition stale_vm : vmst :=
  vset_st (e_v stale_engine) (set_input_raw (set_code (v_st (e_v stale_engine)) []) (Some (s2b "y"))).
