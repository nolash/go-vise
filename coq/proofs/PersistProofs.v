(* C11 at the level of persist.Persister, in this order: what carries nothing of a session (leftover_clean); what a
   Load that finds its record gives (p_load_found); one request on a new and on a kept persister (fresh_request_spec,
   reused_request_spec); isolation of sessions served through new persisters (serve_fresh_isolated); a kept persister
   against new ones (serve_reused_as_fresh); then the witness data of props/C11persist.v (K-C11-6). *)
From Vise Require Import Bytes Errors Consts CacheModel StateModel DbKey PersistModel BytesProofs.
Local Open Scope N_scope.

(* objects that carry nothing of a session: no input, not invalidated, no size entries, every frame map — live or
   cut off in the backing array — empty.  This is what a flushing Save leaves (C11_flush_leaves_empty) and what a
   failed Load need not find (C11_persister_reuse_refuted_nosave).  A Load that finds its record asks nothing of
   the kind: it replaces everything (go-vise a037abb: Persister.Load copies new objects over the old ones). *)
Definition frame_empty_b (f : frame) : bool := match f with [] => true | _ => false end.
Definition spare_empty_b (o : option frame) : bool := match o with None => true | Some f => frame_empty_b f end.
Definition clean_st_b (s : option pstate) : bool :=
  match s with
  | None => true
  | Some s => match s_input (ps_st s) with None => true | Some _ => false end && negb (ps_invalid s)
  end.
Definition clean_mem_b (m : option pmem) : bool :=
  match m with
  | None => true
  | Some m => negb (pm_invalid m) && match c_sizes (pm_ca m) with [] => true | _ => false end
              && forallb frame_empty_b (c_frames (pm_ca m)) && forallb spare_empty_b (pm_spare m)
  end.
Definition leftover_clean (p : persister) : bool := clean_st_b (p_state p) && clean_mem_b (p_mem p).

Lemma p_load_found : forall p key r,
  alookup (rec_key (p_sess p) key) (p_store p) = Some r ->
  p_load p key = (mkPers (Some (mkPst (set_input_raw (fst r) None) false)) (Some (mkPmem (snd r) [] false))
                         (p_flush p) (p_sess p) (p_store p), POk).
Proof. intros p key [rs rc] H. unfold p_load. rewrite H. reflexivity. Qed.

Definition loaded_of (r : rec) : state * cache := (set_input_raw (fst r) None, snd r).
Definition loaded (r : pres) (q : persister) : option (state * cache) :=
  match r, p_state q, p_mem q with
  | POk, Some s, Some m => Some (ps_st s, pm_ca m)
  | _, _, _ => None
  end.

(* a NEW persister per request (what the engine harness runs and C07 assumes): a new persister over the store,
   the engine hands it new objects (st0 without input, new_cache (c_size ca0) written out), Load; the engine
   computes the next session from what was loaded (None: no record); WithContent; Save (with or without flush) *)
Definition fresh_request (st0 : state) (ca0 : cache) (f : option (state * cache) -> state * cache) (flush : bool)
  (key : bytes) (store : list (bytes * rec)) : list (bytes * rec) :=
  let q0 := with_content (new_persister store) (mkPst (set_input_raw st0 None) false) (mkPmem (mkCache (c_size ca0) 0 [[]] [] []) [] false) in
  let q0 := if flush then with_flush q0 else q0 in
  let '(q1, r) := p_load q0 key in
  let '(st', ca') := f (loaded r q1) in
  p_store (fst (p_save (with_content q1 (mkPst st' false) (mkPmem ca' [] false)) key)).

(* the same on ONE persister that is kept: Load; the caller computes the next session from what was loaded —
   and, when there is no record, from nothing the persister holds —; WithContent; Save *)
Definition reused_request (f : option (state * cache) -> state * cache) (key : bytes) (p : persister) : persister :=
  let '(q1, r) := p_load p key in
  let '(st', ca') := f (loaded r q1) in
  fst (p_save (with_content q1 (mkPst st' false) (mkPmem ca' [] false)) key).

Lemma reused_request_spec : forall f key p,
  p_store (reused_request f key p)
  = aset (rec_key (p_sess p) key) (ser (f (option_map loaded_of (alookup (rec_key (p_sess p) key) (p_store p))))) (p_store p)
  /\ p_sess (reused_request f key p) = p_sess p /\ p_flush (reused_request f key p) = p_flush p.
Proof.
  intros f key p. unfold reused_request, p_load.
  destruct (alookup (rec_key (p_sess p) key) (p_store p)) as [[rs rc]|];
    cbn [decode_into decode_state decode_mem loaded p_state p_mem ps_st pm_ca fst snd option_map loaded_of];
    destruct (f _) as [st' ca']; unfold p_save, with_content;
    cbn [p_state p_mem p_flush p_sess p_store ps_invalid pm_invalid orb ps_st pm_ca];
    destruct (p_flush p); cbn; auto.
Qed.

Lemma fresh_request_spec : forall st0 ca0 f flush key store,
  fresh_request st0 ca0 f flush key store =
  aset (rec_key [] key) (ser (f (option_map loaded_of (alookup (rec_key [] key) store)))) store.
Proof.
  intros st0 ca0 f flush key store. unfold fresh_request.
  set (q := if flush then with_flush _ else _).
  assert (Hq : p_sess q = [] /\ p_store q = store) by (unfold q; destruct flush; cbn; auto).
  destruct Hq as (Q3 & Q4).
  destruct (reused_request_spec f key q) as (R1 & _). unfold reused_request in R1. rewrite Q3, Q4 in R1.
  destruct (p_load q key) as [q1 r]. destruct (f (loaded r q1)) as [st' ca']. exact R1.
Qed.

Record freq := mkFreq {
  fq_key : bytes;
  fq_st0 : state; fq_ca0 : cache;                       (* the new objects of this request's engine *)
  fq_f : option (state * cache) -> state * cache;      (* what the engine makes of the loaded session *)
  fq_flush : bool
}.
Definition serve_fresh (store : list (bytes * rec)) (reqs : list freq) : list (bytes * rec) :=
  fold_left (fun s q => fresh_request (fq_st0 q) (fq_ca0 q) (fq_f q) (fq_flush q) (fq_key q) s) reqs store.
Definition serve_reused (p : persister) (reqs : list freq) : persister :=
  fold_left (fun p q => reused_request (fq_f q) (fq_key q) p) reqs p.

Lemma rec_key_plain : forall k, rec_key [] k = DATATYPE_STATE :: k.
Proof.
  intros k. unfold rec_key, skey, to_db_key, lang_suffix, sid_enc. cbn [List.app].
  destruct (sessioned DATATYPE_STATE); rewrite app_nil_r; reflexivity.
Qed.
Lemma rec_key_inj : forall k1 k2, rec_key [] k1 = rec_key [] k2 -> k1 = k2.
Proof. intros k1 k2 H. rewrite !rec_key_plain in H. injection H as H. exact H. Qed.

Lemma serve_fresh_isolated : forall reqs s1 s2 k,
  alookup (rec_key [] k) s1 = alookup (rec_key [] k) s2 ->
  alookup (rec_key [] k) (serve_fresh s1 reqs)
  = alookup (rec_key [] k) (serve_fresh s2 (filter (fun q => bytes_eqb (fq_key q) k) reqs)).
Proof.
  induction reqs as [|q reqs IH]; intros s1 s2 k H; [exact H|].
  unfold serve_fresh. cbn [fold_left filter].
  destruct (bytes_eqb (fq_key q) k) eqn:E.
  - apply bytes_eqb_eq in E. cbn [fold_left]. apply IH. rewrite !fresh_request_spec, E, H, !alookup_aset_same. reflexivity.
  - apply IH. rewrite fresh_request_spec, alookup_aset_other; [exact H|].
    intros Hk. apply rec_key_inj in Hk. subst k. rewrite bytes_eqb_refl in E. discriminate.
Qed.

(* ONE persister kept across all requests (any flush mode, whatever it holds at the start) leaves the same store
   as a new persister per request — provided every request saves what it computed from the LOADED session only
   (reused_request); it rests on Load replacing everything (go-vise a037abb), and K-C11-6 (w_ops_nosave)
   lies outside this proviso *)
Lemma serve_reused_as_fresh : forall reqs p,
  p_sess p = [] -> p_store (serve_reused p reqs) = serve_fresh (p_store p) reqs.
Proof.
  induction reqs as [|q reqs IH]; intros p Hs; [reflexivity|].
  unfold serve_reused, serve_fresh. cbn [fold_left].
  destruct (reused_request_spec (fq_f q) (fq_key q) p) as (R1 & R2 & _).
  fold (serve_reused (reused_request (fq_f q) (fq_key q) p) reqs).
  rewrite IH by (rewrite R2; exact Hs). unfold serve_fresh. rewrite R1, Hs, fresh_request_spec. reflexivity.
Qed.

Definition run_ops (ops : list pop) : persister := fold_left (fun p o => fst (p_step p o)) ops (new_persister []).

(* witness data of props/C11persist.v (C11_persister_reuse_refuted_nosave and the Examples C11_ex_flush_leftovers_gone,
   C11_ex_decode_into_gone, C11_ex_marks_gone, C11_ex_reused): session A at root/foo, language "nor", input "1", its
   secret under "aa" in cache frame 1 and as LastValue; session B at root/bar with one byte under "bb"; three session keys *)
Definition w_secret : bytes := s2b "secret of A"%string.
Definition wA_st : pstate :=
  mkPst (mkState [0; 7] [s2b "root"%string; s2b "foo"%string] 11 0 (falses 16) (Some (s2b "nor"%string)) (Some [49])) false.
Definition wA_mem : pmem :=
  mkPmem (mkCache 0 11 [[]; [(s2b "aa"%string, w_secret)]] [(s2b "aa"%string, 0)] w_secret) [] false.
Definition wB_st : pstate :=
  mkPst (mkState [0; 7] [s2b "root"%string; s2b "bar"%string] 11 0 (falses 16) None None) false.
Definition wB_mem : pmem :=
  mkPmem (mkCache 0 1 [[]; [(s2b "bb"%string, [98])]] [(s2b "bb"%string, 0)] [98]) [] false.
Definition k1 : bytes := s2b "k1"%string.
Definition k2 : bytes := s2b "k2"%string.
Definition k3 : bytes := s2b "k3"%string.

(* the histories of C11_ex_flush_leftovers_gone and C11_ex_decode_into_gone, on one kept persister: k2 is loaded after a
   flushing Save of k1 (w_ops1: k2 has no record; w_ops2: it has one).  k2 holds nothing of k1: the flush leaves new
   objects (no Sizes entry, LastValue or cut-off frame map of k1), and Load copies new objects over whatever the
   persister points to (go-vise a037abb) *)
Definition w_ops1 : list pop := [PWithFlush; PWithContent wA_st wA_mem; PSave k1; PLoad k2; PSave k2].
Definition w_ops2 : list pop := [PWithContent wB_st wB_mem; PSave k2; PWithFlush; PWithContent wA_st wA_mem; PSave k1; PLoad k2].

(* K-C11-6, the history of C11_persister_reuse_refuted_nosave: content that no Save took away.  Session k1 is loaded (a request that ends without a
   saving Finish), the next session k3 has no record: its Load fails and leaves k1's session in the persister; a
   caller that goes on with what the persister holds — as the engine does (preparePersist adopts GetState()) —
   saves k1's position, language and cache under k3.  With or without flush mode. *)
Definition w_ops_nosave (flush : bool) : list pop :=
  (if flush then [PWithFlush] else @nil pop) ++ [PWithContent wA_st wA_mem; PSave k1; PLoad k1; PLoad k3; PSave k3].

Definition w_new_st : pstate := mkPst (new_state 3) false.
Definition w_new_mem : pmem := mkPmem (new_cache 0) [] false.
