(* The paginator (joinSink / GetAt), Menu.Render and Page.Render of model/RenderModel.v.
   joinSink cuts the sink rows greedily into pages: one loop invariant (JInv) gives join_sink_pages, and
   the partition theorem and the budget theorem of C02 are its corollaries.  Menu.Render has a forward and an
   inversion lemma in terms of the page applied (menu_render_st_lines, menu_render_st_ok) and in terms of the
   menu itself (menu_render_ok, menu_render_inv), the private render one of each (inner_render_ok, inner_ok).
   Page.Render, Page.prepare and the private render are read as chains of steps (sbind), with one rule for
   each kind of fact carried along a chain.  The last part lifts "every offered page renders" to Page.Render:
   at index i a sink page shows whatever GetAt reads for i (sink_render, page_render_sink), for a symbol sink
   and for the menu as sink. *)
From Coq Require Import Lia ZArith.
From Coq Require Import ZifyN ZifyNat ZifyBool.
From Vise Require Import Bytes Errors CacheModel RenderModel BytesProofs.
Local Open Scope N_scope.

Lemma nth_error_lt_len {A} (l : list A) i p : nth_error l i = Some p -> N.of_nat i < len l.
Proof. intros H. assert (Hs : nth_error l i <> None) by congruence. apply nth_error_Some in Hs. unfold len. lia. Qed.

(* a row as the C02 partition theorem needs it: not empty (finding K-C02-emptyrow), no NUL
   byte (the in-page separator; finding K-C02-nul) and no LF (the page separator; rows that
   come from strings.Split(v, "\n") never contain one) *)
Definition row_ok (v : bytes) : bool :=
  (0 <? len v) && negb (existsb (fun x => x =? 0) v) && negb (existsb (fun x => x =? nl) v).
Definition rows_ok (vs : list bytes) : bool := forallb row_ok vs.

Lemma row_ok_spec v : row_ok v = true -> v <> [] /\ ~ In 0 v /\ ~ In nl v.
Proof.
  unfold row_ok. intros H. apply andb_true_iff in H as [H H3]. apply andb_true_iff in H as [H1 H2].
  apply negb_true_iff in H2, H3. split; [|split].
  - intros ->. cbn in H1. discriminate.
  - apply existsb_eqb_In. exact H2.
  - apply existsb_eqb_In. exact H3.
Qed.

Lemma rows_ok_app a b : rows_ok (a ++ b) = rows_ok a && rows_ok b.
Proof. unfold rows_ok. apply forallb_app. Qed.

(* a page as joinSink holds it: the rows joined by NUL (LF stands between the pages) *)
Definition pjoin (p : list bytes) : bytes := join_with [0] p.

Lemma pjoin_nonempty p : p <> [] -> rows_ok p = true -> pjoin p <> [].
Proof.
  destruct p as [|x p]; [congruence|]. intros _ H. cbn [rows_ok forallb] in H.
  apply andb_true_iff in H as [Hx _]. apply row_ok_spec in Hx as [Hx _].
  unfold pjoin. destruct p as [|y p].
  - cbn. exact Hx.
  - rewrite join_with_cons2. destruct x; [congruence|discriminate].
Qed.

Lemma len_pjoin_pos p : p <> [] -> rows_ok p = true -> 0 < len (pjoin p).
Proof. intros Hne Hok. pose proof (pjoin_nonempty p Hne Hok). destruct (pjoin p); [congruence|]. rewrite len_cons. lia. Qed.

Lemma pjoin_no_lf p : rows_ok p = true -> ~ In nl (pjoin p).
Proof.
  intros H Hin. apply In_join_with in Hin as [Hin|[v [Hv Hx]]].
  - cbn in Hin. destruct Hin as [E|[]]. discriminate.
  - unfold rows_ok in H. rewrite forallb_forall in H. apply H in Hv.
    apply row_ok_spec in Hv as [_ [_ Hn]]. contradiction.
Qed.

Lemma pjoin_last_not_lf p : p <> [] -> rows_ok p = true -> exists b x, pjoin p = b ++ [x] /\ x <> nl.
Proof.
  intros Hne Hok. destruct (exists_last (pjoin_nonempty p Hne Hok)) as [b [x E]].
  exists b, x. split; [exact E|]. intros ->.
  apply (pjoin_no_lf p Hok). rewrite E. apply in_or_app. right. left. reflexivity.
Qed.

Lemma nul_to_lf_app a b : nul_to_lf (a ++ b) = nul_to_lf a ++ nul_to_lf b.
Proof. unfold nul_to_lf. apply map_app. Qed.

Lemma nul_to_lf_id v : ~ In 0 v -> nul_to_lf v = v.
Proof.
  induction v as [|x v IH]; intros H; [reflexivity|]. apply notin_cons in H as [E H].
  unfold nul_to_lf in *. cbn [map]. rewrite E, IH by exact H. reflexivity.
Qed.

Lemma nul_to_lf_pjoin p : rows_ok p = true -> nul_to_lf (pjoin p) = join_with [nl] p.
Proof.
  induction p as [|x p IH]; intros H; [reflexivity|].
  cbn [rows_ok forallb] in H. apply andb_true_iff in H as [Hx Hp].
  apply row_ok_spec in Hx as [_ [Hx0 _]].
  unfold pjoin in *. destruct p as [|y p].
  - cbn [join_with]. apply nul_to_lf_id. exact Hx0.
  - rewrite !join_with_cons2, !nul_to_lf_app. rewrite (nul_to_lf_id x Hx0).
    rewrite IH by exact Hp. reflexivity.
Qed.

Lemma split_on_join p : p <> [] -> rows_ok p = true -> split_on nl (join_with [nl] p) = p.
Proof.
  induction p as [|x p IH]; intros Hne H; [congruence|].
  cbn [rows_ok forallb] in H. apply andb_true_iff in H as [Hx Hp].
  apply row_ok_spec in Hx as [_ [_ Hxn]].
  destruct p as [|y p].
  - cbn [join_with]. apply split_on_no_sep. exact Hxn.
  - rewrite join_with_cons2. cbn [app]. rewrite split_on_app_sep by exact Hxn.
    rewrite IH by (try discriminate; exact Hp). reflexivity.
Qed.

Lemma trim_right_lf_id b x : x <> nl -> trim_right_lf (b ++ [x]) = b ++ [x].
Proof.
  intros Hx. unfold trim_right_lf. rewrite rev_app_distr. cbn [rev app trim_lf_rev].
  destruct (x =? nl) eqn:E; [apply N.eqb_eq in E; contradiction|].
  change (x :: rev b) with ([x] ++ rev b). rewrite rev_app_distr, rev_involutive. reflexivity.
Qed.

(* closed pages, flattened as joinSink writes them *)
Definition flat (closed : list (list bytes)) : bytes :=
  List.concat (map (fun p => pjoin p ++ [nl]) closed).

Lemma flat_app a b : flat (a ++ b) = flat a ++ flat b.
Proof. unfold flat. rewrite map_app, concat_app. reflexivity. Qed.

Lemma flat_snoc a p : flat (a ++ [p]) = flat a ++ pjoin p ++ [nl].
Proof. rewrite flat_app. unfold flat at 2. cbn [map List.concat]. rewrite app_nil_r. reflexivity. Qed.

(* the cursor joinSink records when page k opens: the offset of that page in the flattened pages *)
Definition cursor_at (closed : list (list bytes)) (k : nat) : N := w32 (len (flat (firstn k closed))).

Lemma cursors_snoc closed p :
  map (cursor_at (closed ++ [p])) (seq 1 (S (List.length closed)))
  = map (cursor_at closed) (seq 1 (List.length closed)) ++ [w32 (len (flat (closed ++ [p])))].
Proof.
  rewrite seq_S, map_app. f_equal.
  - apply map_ext_in. intros k Hk. apply in_seq in Hk. unfold cursor_at.
    rewrite firstn_app. replace (k - List.length closed)%nat with 0%nat by lia. cbn [firstn].
    rewrite app_nil_r. reflexivity.
  - cbn [map]. unfold cursor_at.
    replace (1 + List.length closed)%nat with (List.length (closed ++ [p])) by (rewrite app_length; cbn; lia).
    rewrite firstn_all. reflexivity.
Qed.

(* netRemaining while page k is being filled.  n1 is its value when the loop starts (first_net below), pv the size of
   the "previous" entry (ms_prev, the third number of Menu.Sizes), which joinSink takes off, with one byte for its LF, at
   the first break *)
Definition net_at (n1 pv : N) (k : nat) : N :=
  match k with O => n1 | S _ => sub32 n1 (w32 (pv + 1)) end.

(* why the last row v of page k stands after the rows `init`: it passed joinSink's test — or it
   opened a page after the first, and such a row is not tested *)
Definition page_fits (n1 pv : N) (k : nat) (p : list bytes) : Prop :=
  exists init v, p = init ++ [v]
    /\ ((init = [] /\ k <> O)
        \/ (sub32 (net_at n1 pv k) 1 <? w32 (len (pjoin init) + len v)) = false).

Definition pages_ok (pages : list (list bytes)) : Prop :=
  Forall (fun p => p <> [] /\ rows_ok p = true) pages.

(* the loop of joinSink once the first row is in: `closed` are the finished pages, `cur` the open one *)
Record JInv (n1 pv : N) (closed : list (list bytes)) (cur : list bytes) (s : jstate) : Prop := {
  ji_rb : j_rb s = flat closed;
  ji_tb : j_tb s = pjoin cur;
  ji_l : j_l s = len (pjoin cur);
  ji_net : j_net s = net_at n1 pv (List.length closed);
  ji_count : j_count s = w16 (N.of_nat (List.length closed));
  ji_crs : j_crs s = 0 :: map (cursor_at closed) (seq 1 (List.length closed));
  ji_ok : pages_ok (closed ++ [cur]);
  ji_fits : forall k p, nth_error (closed ++ [cur]) k = Some p -> page_fits n1 pv k p
}.

Lemma js_step_inv n1 pv closed cur s v :
  JInv n1 pv closed cur s -> row_ok v = true -> N.of_nat (List.length closed) < 65536 ->
  exists s', js_step pv s v = Some s'
    /\ (JInv n1 pv closed (cur ++ [v]) s' \/ JInv n1 pv (closed ++ [cur]) [v] s').
Proof.
  intros [Hrb Htb Hl Hnet Hcnt Hcrs Hok Hfits] Hv Hlen.
  pose proof Hok as Hok'. apply Forall_app in Hok' as [Hokc Hcur].
  inversion Hcur as [|? ? [Hne Hrc] _]; subst.
  assert (Hpos : 0 < len (j_tb s)) by (rewrite Htb; apply len_pjoin_pos; assumption).
  assert (Hokv : rows_ok [v] = true) by (cbn [rows_ok forallb]; rewrite Hv; reflexivity).
  unfold js_step. destruct (len (j_tb s) =? 0) eqn:E0; [lia|]. destruct (0 <? len (j_tb s)) eqn:E1; [|lia].
  clear E0 E1 Hpos.
  destruct (sub32 (j_net s) 1 <? w32 (j_l s + len v)) eqn:Ebrk; eexists; (split; [reflexivity|]).
  - right. constructor; cbn [j_rb j_tb j_l j_net j_count j_crs];
      rewrite ?app_length, ?Nat.add_1_r; cbn [List.length].
    + rewrite flat_snoc, Hrb, Htb. reflexivity.
    + reflexivity.
    + reflexivity.
    + rewrite Hcnt, Hnet, w16_small by exact Hlen.
      destruct (List.length closed); [reflexivity|]. destruct (N.of_nat (S n) =? 0) eqn:E; [lia|reflexivity].
    + rewrite Hcnt. unfold w16. clear - Hlen. lia.
    + rewrite cursors_snoc, Hcrs, flat_snoc, Hrb, Htb. reflexivity.
    + apply Forall_app. split; [exact Hok|]. constructor; [|constructor]. split; [discriminate|exact Hokv].
    + intros k p Hk. apply nth_error_snoc_cases in Hk as [[_ Hk]|[-> ->]]; [apply Hfits; exact Hk|].
      exists [], v. split; [reflexivity|]. left. split; [reflexivity|]. rewrite app_length. cbn. lia.
  - left. constructor; cbn [j_rb j_tb j_l j_net j_count j_crs]; try assumption.
    + unfold pjoin. rewrite join_with_snoc by exact Hne. rewrite Htb. reflexivity.
    + unfold pjoin. rewrite join_with_snoc by exact Hne. fold (pjoin cur). rewrite Hl, !len_app. change (len [0]) with 1. lia.
    + apply Forall_app. split; [exact Hokc|]. constructor; [|constructor].
      split; [destruct cur; discriminate|]. rewrite rows_ok_app, Hrc. exact Hokv.
    + intros k p Hk. apply nth_error_snoc_cases in Hk as [[Hlt Hk]|[-> ->]].
      * apply Hfits. rewrite nth_error_app1 by exact Hlt. exact Hk.
      * exists cur, v. split; [reflexivity|]. right. rewrite <- Hnet, <- Hl. exact Ebrk.
Qed.

Lemma js_loop_inv n1 pv vs : forall closed cur s,
  JInv n1 pv closed cur s -> rows_ok vs = true ->
  N.of_nat (List.length closed + List.length vs) < 65536 ->
  exists s' closed' cur', js_loop pv s vs = (true, s') /\ JInv n1 pv closed' cur' s'
    /\ List.concat closed' ++ cur' = List.concat closed ++ cur ++ vs
    /\ (List.length closed' <= List.length closed + List.length vs)%nat.
Proof.
  induction vs as [|v vs IH]; intros closed cur s HJ Hvs Hn.
  - exists s, closed, cur. rewrite app_nil_r. split; [reflexivity|]. split; [exact HJ|]. split; [reflexivity|lia].
  - cbn [rows_ok forallb] in Hvs. apply andb_true_iff in Hvs as [Hv Hvs]. cbn [List.length] in Hn.
    destruct (js_step_inv n1 pv closed cur s v HJ Hv ltac:(lia)) as [s1 [Estep HJ1]].
    cbn [js_loop]. rewrite Estep. destruct HJ1 as [HJ1|HJ1].
    + destruct (IH closed (cur ++ [v]) s1 HJ1 Hvs ltac:(lia)) as [s' [c' [u' [E [HJ' [Hcat Hlen]]]]]].
      exists s', c', u'. split; [exact E|]. split; [exact HJ'|]. split; [|cbn [List.length]; lia].
      rewrite Hcat, <- app_assoc. reflexivity.
    + destruct (IH (closed ++ [cur]) [v] s1 HJ1 Hvs) as [s' [c' [u' [E [HJ' [Hcat Hlen]]]]]];
        rewrite app_length in *; cbn [List.length] in *; [lia|].
      exists s', c', u'. split; [exact E|]. split; [exact HJ'|]. split; [|lia].
      rewrite Hcat, concat_app. cbn [List.concat]. rewrite app_nil_r, <- app_assoc. reflexivity.
Qed.

Lemma pages_ok_nth pages i p : pages_ok pages -> nth_error pages i = Some p -> p <> [] /\ rows_ok p = true.
Proof. intros H Hn. unfold pages_ok in H. rewrite Forall_forall in H. apply H. eapply nth_error_In. exact Hn. Qed.

Lemma sink_page_past v crs idx : w16 (len crs) <= idx -> sink_page v crs idx = Err EGen.
Proof. intros H. unfold sink_page. destruct (w16 (len crs) <=? idx) eqn:E; [reflexivity|lia]. Qed.

Lemma sink_page_of_pages closed cur i p :
  let pages := closed ++ [cur] in
  let r := flat closed ++ pjoin cur in
  let cs := map (cursor_at closed) (seq 0 (S (List.length closed))) in
  pages_ok pages -> len r < 4294967296 -> N.of_nat (S (List.length closed)) < 65536 ->
  nth_error pages i = Some p ->
  sink_page r cs (N.of_nat i) = Ok (join_with [nl] p).
Proof.
  intros pages r cs Hok Hr Hn Hnth.
  assert (Hi : (i < S (List.length closed))%nat).
  { assert (H : nth_error pages i <> None) by congruence. apply nth_error_Some in H.
    unfold pages in H. rewrite app_length in H. cbn in H. lia. }
  assert (Hlen : len cs = N.of_nat (S (List.length closed))).
  { unfold cs, len. rewrite map_length, seq_length. reflexivity. }
  unfold sink_page. rewrite Hlen, (w16_small _ Hn).
  destruct (N.of_nat (S (List.length closed)) <=? N.of_nat i) eqn:E; [lia|]. clear E.
  rewrite Nat2N.id. unfold cs. rewrite nth_error_map_seq by exact Hi. cbn [Nat.add].
  destruct (pages_ok_nth pages i p Hok Hnth) as [Hpne Hpok].
  assert (Hcle : len (flat (firstn i closed)) <= len r).
  { unfold r. rewrite <- (firstn_skipn i closed) at 2. rewrite flat_app, !len_app. lia. }
  rewrite (w32_small (len r)) by exact Hr. unfold cursor_at.
  rewrite (w32_small (len (flat (firstn i closed)))) by lia.
  destruct (len r <? len (flat (firstn i closed))) eqn:E; [lia|]. clear E.
  rewrite <- nul_to_lf_pjoin by exact Hpok. f_equal.
  apply nth_error_snoc_cases in Hnth as [[Hlt Hnc]|[-> ->]].
  - assert (Hr2 : r = flat (firstn i closed) ++ pjoin p ++ nl :: (flat (skipn (S i) closed) ++ pjoin cur)).
    { unfold r. rewrite (nth_error_firstn_skipn closed i p Hnc) at 1. rewrite flat_app.
      change (p :: skipn (S i) closed) with ([p] ++ skipn (S i) closed). rewrite flat_app.
      unfold flat at 2. cbn [map List.concat]. rewrite app_nil_r. rewrite <- !app_assoc. reflexivity. }
    rewrite Hr2. rewrite drop_app_exact by reflexivity.
    rewrite index_of_app by (apply pjoin_no_lf; exact Hpok).
    pose proof (len_pjoin_pos p Hpne Hpok) as Hpl.
    destruct (0 <? len (pjoin p)) eqn:E; [|lia]. rewrite take_app_exact by reflexivity. reflexivity.
  - rewrite firstn_all. unfold r. rewrite drop_app_exact by reflexivity.
    rewrite index_of_notin by (apply pjoin_no_lf; exact Hpok). reflexivity.
Qed.

(* total size of the rows with their separators: len (flattened sink) + 1 *)
Definition rows_size (vs : list bytes) : N := fold_right (fun v a => len v + 1 + a) 0 vs.

Lemma rows_size_cons x l : rows_size (x :: l) = len x + 1 + rows_size l.
Proof. reflexivity. Qed.

Lemma rows_size_app a b : rows_size (a ++ b) = rows_size a + rows_size b.
Proof.
  induction a as [|x a IH]; [reflexivity|].
  change ((x :: a) ++ b) with (x :: (a ++ b)). rewrite !rows_size_cons, IH. lia.
Qed.

Lemma len_pjoin p : p <> [] -> len (pjoin p) + 1 = rows_size p.
Proof.
  induction p as [|x p IH]; intros H; [congruence|]. unfold pjoin in *.
  destruct p as [|y p].
  - cbn [join_with]. rewrite rows_size_cons. change (rows_size []) with 0. lia.
  - rewrite join_with_cons2, !len_app. rewrite (rows_size_cons x).
    rewrite <- IH by discriminate. change (len [0]) with 1. lia.
Qed.

Lemma len_join_nl p : p <> [] -> len (join_with [nl] p) + 1 = rows_size p.
Proof. intros H. rewrite (len_join_with_sep [nl] [0]) by reflexivity. apply len_pjoin. exact H. Qed.

Lemma len_flat_pjoin closed cur :
  pages_ok (closed ++ [cur]) -> len (flat closed ++ pjoin cur) + 1 = rows_size (List.concat (closed ++ [cur])).
Proof.
  induction closed as [|p closed IH]; intros H; inversion H as [|? ? [Hp _] Hc]; subst.
  - cbn [flat map List.concat app]. rewrite app_nil_r. apply len_pjoin. exact Hp.
  - change (flat (p :: closed)) with ((pjoin p ++ [nl]) ++ flat closed). cbn [app List.concat].
    rewrite rows_size_app, <- (IH Hc), <- (len_pjoin p Hp), !len_app. change (len [nl]) with 1. lia.
Qed.

Definition pages_of (r : bytes) (cs : list N) (n : N) : list (res bytes) :=
  map (fun i => sink_page r cs (N.of_nat i)) (seq 0 (N.to_nat n)).

(* netRemaining before the first row: one byte for the LF before the sink, and the "next" entry if
   there is more than one row *)
Definition first_net (vs : list bytes) (R : N) (ms : N * N * N * N) : N :=
  let n0 := sub32 R 1 in if 1 <? len vs then sub32 n0 (w32 (ms_next ms + 1)) else n0.

Lemma join_sink_first_too_big v vs R ms crs :
  (sub32 (first_net (v :: vs) R ms) 1 <? w32 (len v)) = true ->
  join_sink (v :: vs) R ms crs = (Err EGen, crs).
Proof.
  intros H. unfold join_sink. change (js_init (v :: vs) R ms crs) with (mkJ [] [] 0 0 (first_net (v :: vs) R ms) crs).
  cbn [js_loop]. unfold js_step. cbn [j_net j_l j_tb N.add]. rewrite H. reflexivity.
Qed.

Lemma join_sink_pages v vs R ms :
  rows_ok (v :: vs) = true -> rows_size (v :: vs) < 4294967296 -> len (v :: vs) < 65536 ->
  (sub32 (first_net (v :: vs) R ms) 1 <? w32 (len v)) = false ->
  exists r cs (pages : list (list bytes)),
    join_sink (v :: vs) R ms [0] = (Ok (r, len pages), cs)
    /\ List.concat pages = v :: vs /\ pages_ok pages /\ len cs = len pages /\ len pages < 65536
    /\ forall i p, nth_error pages i = Some p ->
         sink_page r cs (N.of_nat i) = Ok (join_with [nl] p)
         /\ page_fits (first_net (v :: vs) R ms) (ms_prev ms) i p.
Proof.
  intros Hok Hsz Hlen Hfirst. set (n1 := first_net (v :: vs) R ms) in *.
  cbn [rows_ok forallb] in Hok. apply andb_true_iff in Hok as [Hv Hvs].
  assert (HJ : JInv n1 (ms_prev ms) [] [v] (mkJ v [] (len v) 0 n1 [0])).
  { constructor; try reflexivity.
    - constructor; [|constructor]. split; [discriminate|]. cbn [rows_ok forallb]. rewrite Hv. reflexivity.
    - intros [|[|k]] p Hk; try discriminate. injection Hk as <-.
      exists [], v. split; [reflexivity|]. right. exact Hfirst. }
  unfold len in Hlen. cbn [List.length] in Hlen.
  destruct (js_loop_inv _ _ vs [] [v] _ HJ Hvs ltac:(cbn [List.length]; lia))
    as [s [closed [cur [Eloop [[Hrb Htb _ _ Hcnt Hcrs Hgood Hfits] [Hcat Hn]]]]]].
  cbn [List.length List.concat app] in Hcat, Hn.
  assert (Hcat' : List.concat (closed ++ [cur]) = v :: vs).
  { rewrite concat_app. cbn [List.concat]. rewrite app_nil_r. exact Hcat. }
  destruct (pages_ok_nth _ (List.length closed) cur Hgood) as [Hcne Hcok].
  { rewrite nth_error_app2, Nat.sub_diag by lia. reflexivity. }
  assert (Hn16 : N.of_nat (S (List.length closed)) < 65536) by lia.
  exists (flat closed ++ pjoin cur), (map (cursor_at closed) (seq 0 (S (List.length closed)))), (closed ++ [cur]).
  assert (Hlp : len (closed ++ [cur]) = N.of_nat (S (List.length closed))).
  { unfold len. rewrite app_length, Nat.add_1_r. reflexivity. }
  rewrite Hlp. split; [|split; [exact Hcat'|split; [exact Hgood|split; [|split; [exact Hn16|]]]]].
  - unfold join_sink. change (js_init (v :: vs) R ms [0]) with (mkJ [] [] 0 0 n1 [0]).
    cbn [js_loop]. unfold js_step at 1. cbn [j_net j_l j_tb j_rb j_count j_crs N.add].
    rewrite Hfirst. change (0 <? len (@nil N)) with false. cbn [app]. rewrite Eloop.
    rewrite Htb, (proj2 (N.ltb_lt _ _) (len_pjoin_pos cur Hcne Hcok)). destruct (pjoin_last_not_lf cur Hcne Hcok) as [b [x [Eb Hx]]].
    f_equal; [f_equal; f_equal|].
    + rewrite Hrb, Eb, app_assoc. apply trim_right_lf_id. exact Hx.
    + rewrite Hcnt. unfold w16. clear - Hn16. lia.
    + exact Hcrs.
  - unfold len. rewrite map_length, seq_length. reflexivity.
  - intros i p Hnth. split; [|apply Hfits; exact Hnth].
    apply sink_page_of_pages; try assumption.
    pose proof (len_flat_pjoin closed cur Hgood) as Hl. rewrite Hcat' in Hl. clear - Hl Hsz. lia.
Qed.

Definition shown_rows (r : bytes) (cs : list N) (i : N) : list bytes :=
  match sink_page r cs i with Ok p => split_on nl p | _ => [] end.

Lemma join_sink_partition vs remaining ms r n cs :
  vs <> [] -> rows_ok vs = true -> rows_size vs < 4294967296 -> len vs < 65536 ->
  join_sink vs remaining ms [0] = (Ok (r, n), cs) ->
  (forall i, i < n -> is_ok (sink_page r cs i) = true)
  /\ List.concat (map (fun i => shown_rows r cs (N.of_nat i)) (seq 0 (N.to_nat n))) = vs
  /\ len cs = n
  /\ (exists pages : list (list bytes),
        List.concat pages = vs /\ len pages = n /\ Forall (fun p => p <> []) pages
        /\ forall i p, nth_error pages i = Some p -> shown_rows r cs (N.of_nat i) = p)
  /\ (forall i, n <= i -> sink_page r cs i = Err EGen).
Proof.
  intros Hvs Hok Hsz Hlen Hj. destruct vs as [|v vs]; [congruence|].
  destruct (sub32 (first_net (v :: vs) remaining ms) 1 <? w32 (len v)) eqn:Hfirst.
  { rewrite join_sink_first_too_big in Hj by exact Hfirst. discriminate. }
  destruct (join_sink_pages v vs remaining ms Hok Hsz Hlen Hfirst)
    as [r' [cs' [pages [Hj' [Hcat [Hgood [Hlc [Hn16 Hpg]]]]]]]].
  rewrite Hj' in Hj. injection Hj as -> <- ->.
  assert (Hshown : forall i p, nth_error pages i = Some p -> shown_rows r cs (N.of_nat i) = p).
  { intros i p Hnth. unfold shown_rows. rewrite (proj1 (Hpg i p Hnth)).
    apply split_on_join; apply (pages_ok_nth pages i p Hgood Hnth). }
  assert (Hn : N.to_nat (len pages) = List.length pages) by apply Nat2N.id.
  split; [|split; [|split; [exact Hlc|split]]].
  - intros i Hi. destruct (nth_error_below pages i Hi) as [p En].
    apply Hpg in En as [En _]. rewrite N2Nat.id in En. rewrite En. reflexivity.
  - rewrite Hn, (map_seq_nth (fun i => shown_rows r cs (N.of_nat i)) pages 0); [exact Hcat|].
    intros i p Hnth. apply Hshown. exact Hnth.
  - exists pages. split; [exact Hcat|]. split; [reflexivity|]. split; [|exact Hshown].
    eapply Forall_impl; [|exact Hgood]. intros p Hp. apply Hp.
  - intros i Hi. apply sink_page_past. rewrite Hlc, w16_small by exact Hn16. exact Hi.
Qed.

Definition maxlen (vs : list bytes) : N := fold_right (fun v m => N.max (len v) m) 0 vs.

Lemma maxlen_In v vs : In v vs -> len v <= maxlen vs.
Proof.
  induction vs as [|x vs IH]; [intros []|]. cbn [maxlen fold_right]. fold (maxlen vs).
  intros [->|H]; [lia|]. specialize (IH H). lia.
Qed.

(* budget_ok: one row, both browse entries and the separators fit in what is left *)
Definition budget_ok (vs : list bytes) (remaining : N) (ms : N * N * N * N) : bool :=
  (ms_next ms + ms_prev ms + 4 + maxlen vs <=? remaining) && (remaining <? 2147483648).

Lemma rows_size_In_concat p pages : In p pages -> rows_size p <= rows_size (List.concat pages).
Proof.
  induction pages as [|q pages IH]; [intros []|intros [<-|H]; cbn [List.concat]; rewrite rows_size_app; [lia|]].
  specialize (IH H). lia.
Qed.

Lemma len_pjoin_snoc init x :
  len (pjoin init) + len x <= len (pjoin (init ++ [x])) <= len (pjoin init) + 1 + len x.
Proof.
  destruct init as [|y init]; [cbn [app pjoin join_with]; change (len (@nil N)) with 0; lia|].
  unfold pjoin. rewrite join_with_snoc by discriminate. rewrite !len_app. change (len [0]) with 1. lia.
Qed.

(* bytes taken by the browse entries on page i of n: Menu.Sizes' numbers plus one LF each *)
Definition nav (ms : N * N * N * N) (i n : N) : N :=
  (if i + 1 <? n then ms_next ms + 1 else 0) + (if 0 <? i then ms_prev ms + 1 else 0).

(* the pages of a sink as Page.Render needs them *)
Definition sink_pages (vs : list bytes) (R : N) (ms : N * N * N * N) (r : bytes) (n : N) (cs : list N)
  (pages : list (list bytes)) : Prop :=
  join_sink vs R ms [0] = (Ok (r, n), cs)
  /\ List.concat pages = vs /\ len pages = n /\ 0 < n < 65536
  /\ (forall i p, nth_error pages i = Some p ->
        sink_page r cs (N.of_nat i) = Ok (join_with [nl] p)
        /\ len (join_with [nl] p) + nav ms (N.of_nat i) n <= R)
  /\ (forall i, n <= i -> sink_page r cs i = Err EGen).

Lemma page_fits_plain n1 pv k p :
  pv + 2 <= n1 -> n1 < 4294967296 -> len (pjoin p) < 4294967296 -> page_fits n1 pv k p ->
  (exists v, p = [v] /\ k <> O) \/ len (pjoin p) <= n1 - match k with O => 0 | S _ => pv + 1 end.
Proof.
  intros Hpv Hn1 Hp (init & v & -> & [[-> Hk]|Hfit]); [left; exists v; split; [reflexivity|exact Hk]|right].
  pose proof (len_pjoin_snoc init v) as Hsn.
  set (d := match k with O => 0 | S _ => pv + 1 end).
  assert (Hnet : net_at n1 pv k = n1 - d /\ d <= pv + 1).
  { unfold d. destruct k; cbn [net_at]; [lia|]. rewrite w32_small, sub32_small by lia. lia. }
  destruct Hnet as [Hnet Hd]. clearbody d. rewrite Hnet, sub32_small, w32_small in Hfit by lia. lia.
Qed.

(* Under budget_ok no subtraction wraps, the first row fits, and every page is bounded: by joinSink's test,
   or, for an untested row alone on its page, by the budget itself. *)
Lemma join_sink_budget vs R ms :
  vs <> [] -> rows_ok vs = true -> rows_size vs < 4294967296 -> len vs < 65536 ->
  budget_ok vs R ms = true -> exists r n cs pages, sink_pages vs R ms r n cs pages.
Proof.
  intros Hvs Hok Hsz Hlen Hb. destruct vs as [|v vs]; [congruence|]. clear Hvs.
  unfold budget_ok in Hb. apply andb_true_iff in Hb as [Hb HR].
  set (nx := ms_next ms) in *. set (pv := ms_prev ms) in *. set (n1 := first_net (v :: vs) R ms).
  assert (Hrow : forall x, In x (v :: vs) -> nx + pv + 4 + len x <= R).
  { intros x Hx. apply maxlen_In in Hx. lia. }
  pose proof (Hrow v (or_introl eq_refl)) as Hv.
  set (c := if 1 <? len (v :: vs) then nx + 1 else 0).
  assert (Hn1 : n1 = R - 1 - c /\ c <= nx + 1).
  { unfold n1, first_net, c. fold nx. rewrite (sub32_small R 1) by lia.
    destruct (1 <? len (v :: vs)); [|lia]. rewrite w32_small, sub32_small by lia. lia. }
  destruct (join_sink_pages v vs R ms Hok Hsz Hlen) as [r [cs [pages [Hj [Hcat [Hgood [Hlc [Hn16 Hpg]]]]]]]].
  { fold n1. rewrite sub32_small, w32_small by lia. lia. }
  exists r, (len pages), cs, pages. split; [exact Hj|]. split; [exact Hcat|]. split; [reflexivity|].
  split; [split; [destruct pages; [discriminate|rewrite len_cons; lia]|exact Hn16]|].
  split; [|intros i Hi; apply sink_page_past; rewrite Hlc, w16_small by exact Hn16; exact Hi].
  intros i p Hnth. destruct (Hpg i p Hnth) as [Hsp Hfit]. split; [exact Hsp|]. fold n1 pv in Hfit.
  pose proof (nth_error_In _ _ Hnth) as Hin.
  pose proof (rows_size_In_concat _ _ Hin) as Hszp. rewrite Hcat in Hszp.
  rewrite <- len_pjoin in Hszp by (apply (pages_ok_nth pages i p Hgood Hnth)).
  rewrite (len_join_with_sep [nl] [0]) by reflexivity. fold (pjoin p).
  (* a page is followed by another only if there are at least two rows *)
  assert (Hmulti : N.of_nat i + 1 < len pages -> c = nx + 1).
  { pose proof (length_concat_ok pages (Forall_impl _ (fun p H => proj1 H) Hgood)) as Hlp. rewrite Hcat in Hlp.
    intros Hi. unfold c. destruct (1 <? len (v :: vs)) eqn:E; [reflexivity|]. unfold len in *. lia. }
  unfold nav. fold nx pv.
  apply page_fits_plain in Hfit as [(x & -> & Hi)|Hbound]; try lia.
  - assert (Hx : nx + pv + 4 + len x <= R).
    { apply Hrow. rewrite <- Hcat. apply in_concat. exists [x]. split; [exact Hin|left; reflexivity]. }
    cbn [pjoin join_with]. clear - Hx Hi. destruct (N.of_nat i + 1 <? len pages), (0 <? N.of_nat i); lia.
  - clear - Hbound Hn1 Hmulti Hv.
    destruct (N.of_nat i + 1 <? len pages) eqn:E1; [rewrite Hmulti in Hn1 by lia|];
      destruct (0 <? N.of_nat i) eqn:E2; destruct i; cbv iota in Hbound; lia.
Qed.

(* seqN, rows_eqb, partition_ok and pages_fit are executable monitors, run by the refutations and the Example of
   props/C02.v; join_sink_pages_fit below ties pages_fit to the budget theorem *)
Fixpoint seqN (n : nat) (start : N) : list N :=
  match n with O => [] | S k => start :: seqN k (start + 1) end.

Definition rows_eqb (a b : list bytes) : bool :=
  (List.length a =? List.length b)%nat && forallb (fun p => bytes_eqb (fst p) (snd p)) (combine a b).

(* the partition statement as an executable monitor on the model *)
Definition partition_ok (vs : list bytes) (remaining : N) (ms : N * N * N * N) : bool :=
  match join_sink vs remaining ms [0] with
  | (Ok (r, n), cs) =>
    forallb (fun i => is_ok (sink_page r cs i)) (seqN (N.to_nat n) 0)
    && rows_eqb (flat_map (shown_rows r cs) (seqN (N.to_nat n) 0)) vs
    && (len cs =? n)
    && is_err (sink_page r cs n)
  | (Err _, _) => true
  | (Panic _, _) => false
  end.

(* every page together with the browse entries it must carry fits `remaining` *)
Definition pages_fit (vs : list bytes) (remaining : N) (ms : N * N * N * N) : bool :=
  match join_sink vs remaining ms [0] with
  | (Ok (r, n), cs) =>
    forallb (fun i => match sink_page r cs i with
                      | Ok p => len p + nav ms i n <=? remaining
                      | _ => false end) (seqN (N.to_nat n) 0)
  | _ => false
  end.

Lemma seqN_spec n : forall start i, In i (seqN n start) -> start <= i /\ i < start + N.of_nat n.
Proof.
  induction n as [|n IH]; intros start i H; [destruct H|].
  cbn [seqN] in H. destruct H as [<-|H]; [lia|]. apply IH in H. lia.
Qed.

Lemma join_sink_pages_fit vs R ms :
  vs <> [] -> rows_ok vs = true -> rows_size vs < 4294967296 -> len vs < 65536 ->
  budget_ok vs R ms = true -> pages_fit vs R ms = true.
Proof.
  intros Hvs Hok Hsz Hlen Hb.
  destruct (join_sink_budget vs R ms Hvs Hok Hsz Hlen Hb) as (r & n & cs & pages & Hj & Hcat & Hlp & _ & Hpg & _).
  unfold pages_fit. rewrite Hj. apply forallb_forall. intros i Hi.
  apply seqN_spec in Hi. rewrite N2Nat.id in Hi.
  destruct (nth_error_below pages i) as [p En]; [lia|].
  destruct (Hpg _ _ En) as [H1 H2]. rewrite N2Nat.id in H1, H2. rewrite H1. apply N.leb_le. exact H2.
Qed.

Definition browse_items (b : browse) (nx pv : bool) : list (bytes * bytes) :=
  (if nx then [(b_next_sel b, b_next_title b)] else []) ++ (if pv then [(b_prev_sel b, b_prev_title b)] else []).

Definition title_for (gm : bytes -> res bytes) (m : menu) : bytes -> res bytes :=
  if m_has_rs m then gm else fun t => Ok t.

Lemma title_for_ext gm m m' : m_has_rs m' = m_has_rs m -> title_for gm m' = title_for gm m.
Proof. unfold title_for. intros ->. reflexivity. Qed.

(* m as applyPage leaves a menu with pages: the two can-flags set, the browse entries they allow after the items *)
Definition paged (m : menu) (cn cp : bool) : menu :=
  set_items (set_can m cn cp) (m_items m ++ browse_items (m_browse m) cn cp).

Lemma menu_apply_page_eq m i :
  menu_apply_page m i
  = if i <? N.max 1 (m_page_count m) then
      Ok (if m_page_count m =? 0 then m else
          paged m ((i + 1 <? m_page_count m) && (if b_next_avail (m_browse m) then true else m_can_next m))
                  ((0 <? i) && (if b_prev_avail (m_browse m) then true else m_can_prev m)))
    else Err (if m_page_count m =? 0 then EGen else EBrowse).
Proof.
  unfold menu_apply_page, menu_reset_flags, paged, browse_items. destruct (m_page_count m =? 0) eqn:E0.
  - replace (i <? N.max 1 (m_page_count m)) with (negb (0 <? i)) by lia. destruct (0 <? i); reflexivity.
  - replace (m_page_count m <=? i) with (negb (i <? N.max 1 (m_page_count m))) by lia.
    destruct (i <? N.max 1 (m_page_count m)) eqn:Ei; [|reflexivity].
    cbn [negb set_can m_can_next m_can_prev m_items m_browse m_page_count].
    replace (i =? m_page_count m - 1) with (negb (i + 1 <? m_page_count m)) by lia.
    replace (i =? 0) with (negb (0 <? i)) by lia.
    destruct (i + 1 <? m_page_count m), (0 <? i); reflexivity.
Qed.

(* everything Menu.Render leaves alone *)
Definition menu_static_eq (m m' : menu) : Prop :=
  m_browse m' = m_browse m /\ m_sep m' = m_sep m /\ m_keep m' = m_keep m
  /\ m_has_rs m' = m_has_rs m /\ m_sink m' = m_sink m /\ m_page_count m' = m_page_count m.

Lemma menu_apply_page_static {m idx m1} : menu_apply_page m idx = Ok m1 -> menu_static_eq m m1.
Proof.
  rewrite menu_apply_page_eq. destruct (idx <? _); [|discriminate]. intros [= <-].
  destruct (m_page_count m =? 0); repeat split.
Qed.

Lemma menu_apply_page_ok {m i m1} :
  b_next_avail (m_browse m) = true -> b_prev_avail (m_browse m) = true -> menu_apply_page m i = Ok m1 ->
  i < N.max 1 (m_page_count m)
  /\ m_items m1 = m_items m ++ browse_items (m_browse m) (i + 1 <? m_page_count m) (0 <? i).
Proof.
  intros Hn Hp. rewrite menu_apply_page_eq, Hn, Hp, !andb_true_r.
  destruct (i <? N.max 1 (m_page_count m)) eqn:Ei; [|discriminate]. intros [= <-]. split; [lia|].
  destruct (m_page_count m =? 0) eqn:E0; [|reflexivity].
  replace (i + 1 <? m_page_count m) with false by lia. replace (0 <? i) with false by lia. symmetry. apply app_nil_r.
Qed.

Fixpoint menu_lines (tf : bytes -> res bytes) (sep : bytes) (items : list (bytes * bytes)) : option (list bytes) :=
  match items with
  | [] => Some []
  | (sel, t) :: r =>
    match tf t with
    | Ok x => option_map (cons (sel ++ sep ++ x)) (menu_lines tf sep r)
    | _ => None
    end
  end.

Lemma menu_lines_app tf sep a b :
  menu_lines tf sep (a ++ b)
  = match menu_lines tf sep a with
    | Some la => option_map (app la) (menu_lines tf sep b)
    | None => None
    end.
Proof.
  induction a as [|[sel t] a IH]; cbn [menu_lines app].
  - destruct (menu_lines tf sep b); reflexivity.
  - destruct (tf t); try reflexivity. rewrite IH.
    destruct (menu_lines tf sep a); [destruct (menu_lines tf sep b)|]; reflexivity.
Qed.

Lemma menu_lines_nonempty {tf sep items lines} :
  sep <> [] -> menu_lines tf sep items = Some lines -> Forall (fun l => l <> []) lines.
Proof.
  intros Hsep. revert lines. induction items as [|[sel t] items IH]; intros lines H.
  - inversion H. constructor.
  - cbn [menu_lines] in H. destruct (tf t) as [x|e|p]; try discriminate.
    destruct (menu_lines tf sep items) as [l|]; [|discriminate]. inversion H; subst.
    constructor; [|apply IH; reflexivity].
    intros E. apply app_eq_nil in E as [_ E]. apply app_eq_nil in E as [E _]. contradiction.
Qed.

(* what join_with [nl] puts after the first line *)
Definition ltail (lines : list bytes) : bytes := List.concat (map (fun l => nl :: l) lines).

Lemma join_cons_tail x l : join_with [nl] (x :: l) = x ++ ltail l.
Proof.
  revert x. induction l as [|y l IH]; intros x.
  - cbn. rewrite app_nil_r. reflexivity.
  - rewrite join_with_cons2, IH. unfold ltail. cbn [map List.concat app]. reflexivity.
Qed.

Lemma menu_loop_of_lines {tf sep} : sep <> [] -> forall {items lines} acc,
  menu_lines tf sep items = Some lines ->
  menu_loop tf sep items acc
  = (Ok (match acc with [] => join_with [nl] lines | _ => acc ++ ltail lines end), []).
Proof.
  intros Hsep. induction items as [|[sel t] items IH]; intros lines acc H.
  - inversion H; subst. cbn [menu_loop]. destruct acc; [reflexivity|]. unfold ltail. cbn. rewrite app_nil_r. reflexivity.
  - cbn [menu_lines] in H. destruct (tf t) as [x|e|p] eqn:Et; try discriminate.
    destruct (menu_lines tf sep items) as [l|] eqn:El; [|discriminate]. inversion H; subst lines; clear H.
    cbn [menu_loop]. rewrite Et. rewrite (IH l _ eq_refl).
    destruct acc as [|a acc].
    + change (0 <? len (@nil N)) with false. cbn [app]. rewrite join_cons_tail.
      destruct (sel ++ sep ++ x) eqn:E; [|reflexivity].
      exfalso. apply app_eq_nil in E as [_ E]. apply app_eq_nil in E as [E _]. contradiction.
    + assert (Hlt : (0 <? len (a :: acc)) = true) by (rewrite len_cons; lia).
      rewrite Hlt. cbn [app]. unfold ltail. cbn [map List.concat app].
      rewrite <- !app_assoc. cbn [app]. rewrite <- !app_assoc. reflexivity.
Qed.

Lemma menu_loop_ok {tf sep items} : forall {acc r rest},
  menu_loop tf sep items acc = (Ok r, rest) -> rest = [] /\ exists lines, menu_lines tf sep items = Some lines.
Proof.
  induction items as [|[sel t] items IH]; intros acc r rest H; cbn [menu_loop menu_lines] in *.
  - injection H as _ <-. split; [reflexivity|]. exists []. reflexivity.
  - destruct (tf t) as [x|e|p]; try discriminate. destruct (IH _ _ _ H) as [Hr [lines Hl]].
    split; [exact Hr|]. rewrite Hl. eexists. reflexivity.
Qed.

Lemma menu_render_st_lines gm m i m1 lines :
  menu_apply_page m i = Ok m1 -> m_sep m1 <> [] ->
  menu_lines (title_for gm m1) (m_sep m1) (m_items m1) = Some lines ->
  menu_render_st gm m i = (Ok (join_with [nl] lines), set_items m1 (if m_keep m1 then m_items m else [])).
Proof.
  intros Ha Hsep Hl. unfold menu_render_st. rewrite Ha. fold (title_for gm m1).
  rewrite (menu_loop_of_lines Hsep [] Hl). reflexivity.
Qed.

Lemma menu_render_st_ok {gm m i txt m'} :
  menu_render_st gm m i = (Ok txt, m') ->
  exists m1 lines,
    menu_apply_page m i = Ok m1
    /\ menu_lines (title_for gm m1) (m_sep m1) (m_items m1) = Some lines
    /\ m' = set_items m1 (if m_keep m1 then m_items m else [])
    /\ (m_sep m1 <> [] -> txt = join_with [nl] lines).
Proof.
  unfold menu_render_st. destruct (menu_apply_page m i) as [m1|e|p]; try discriminate. fold (title_for gm m1).
  destruct (menu_loop (title_for gm m1) (m_sep m1) (m_items m1) []) as [[r|e|p] rest] eqn:El; try discriminate.
  intros H. injection H as -> <-. destruct (menu_loop_ok El) as [-> [lines Hl]].
  exists m1, lines. repeat split; [exact Hl|]. intros Hsep.
  rewrite (menu_loop_of_lines Hsep [] Hl) in El. injection El as <-. reflexivity.
Qed.

Lemma menu_render_st_static {gm m idx r m'} : menu_render_st gm m idx = (r, m') -> menu_static_eq m m'.
Proof.
  unfold menu_render_st. destruct (menu_apply_page m idx) as [m1|e|p] eqn:Ea; [|intros [= _ <-]; repeat split..].
  pose proof (menu_apply_page_static Ea) as Hs.
  destruct (menu_loop _ (m_sep m1) (m_items m1) []) as [[r1|e|p] rest]; intros [= _ <-]; exact Hs.
Qed.

Lemma menu_render_st_items {gm m idx txt m'} :
  menu_render_st gm m idx = (Ok txt, m') -> m_items m' = if m_keep m then m_items m else [].
Proof.
  intros H. destruct (menu_render_st_ok H) as [m1 [lines [Ha [_ [-> _]]]]].
  destruct (menu_apply_page_static Ha) as (_ & _ & Hk & _). cbn [set_items m_items]. rewrite Hk. reflexivity.
Qed.

Lemma menu_render_inv {gm m i txt m'} :
  menu_render_st gm m i = (Ok txt, m') ->
  b_next_avail (m_browse m) = true -> b_prev_avail (m_browse m) = true -> m_sep m <> [] ->
  i < N.max 1 (m_page_count m)
  /\ exists lines blines,
       menu_lines (title_for gm m) (m_sep m) (m_items m) = Some lines
       /\ menu_lines (title_for gm m) (m_sep m)
            (browse_items (m_browse m) (i + 1 <? m_page_count m) (0 <? i)) = Some blines
       /\ txt = join_with [nl] (lines ++ blines).
Proof.
  intros Hr Hn Hp Hsep.
  destruct (menu_render_st_ok Hr) as (m1 & l & Ha & Hl & _ & Ht).
  destruct (menu_apply_page_ok Hn Hp Ha) as [Hi Hit]. split; [exact Hi|].
  destruct (menu_apply_page_static Ha) as (_ & Hs1 & _ & Hr1 & _).
  rewrite (title_for_ext gm m m1 Hr1), Hs1, Hit, menu_lines_app in Hl.
  destruct (menu_lines (title_for gm m) (m_sep m) (m_items m)) as [la|]; [|discriminate].
  destruct (menu_lines (title_for gm m) (m_sep m) (browse_items _ _ _)) as [lb|]; [|discriminate].
  injection Hl as <-. exists la, lb. repeat split. apply Ht. rewrite Hs1. exact Hsep.
Qed.

Definition browse_lines (b : browse) (sep : bytes) (nx pv : bool) : list bytes :=
  (if nx then [b_next_sel b ++ sep ++ b_next_title b] else [])
  ++ (if pv then [b_prev_sel b ++ sep ++ b_prev_title b] else []).

Lemma menu_lines_browse {tf b sep nx pv} :
  tf (b_next_title b) = Ok (b_next_title b) -> tf (b_prev_title b) = Ok (b_prev_title b) ->
  menu_lines tf sep (browse_items b nx pv) = Some (browse_lines b sep nx pv).
Proof.
  intros Hn Hp. unfold browse_items, browse_lines.
  destruct nx, pv; cbn [app menu_lines]; rewrite ?Hn, ?Hp; reflexivity.
Qed.

Lemma rows_size_browse_lines b nx pv :
  rows_size (browse_lines b default_sep nx pv)
  = (if nx then len (b_next_sel b) + 1 + len (b_next_title b) + 1 else 0)
    + (if pv then len (b_prev_sel b) + 1 + len (b_prev_title b) + 1 else 0).
Proof.
  unfold browse_lines. rewrite rows_size_app.
  destruct nx, pv; cbn [rows_size fold_right]; rewrite ?len_app; change (len default_sep) with 1; lia.
Qed.

Lemma menu_render_ok gm m i lines :
  b_next_avail (m_browse m) = true -> b_prev_avail (m_browse m) = true ->
  i < N.max 1 (m_page_count m) -> m_sep m <> [] ->
  menu_lines (title_for gm m) (m_sep m) (m_items m) = Some lines ->
  title_for gm m (b_next_title (m_browse m)) = Ok (b_next_title (m_browse m)) ->
  title_for gm m (b_prev_title (m_browse m)) = Ok (b_prev_title (m_browse m)) ->
  exists m', menu_render_st gm m i
    = (Ok (join_with [nl] (lines ++ browse_lines (m_browse m) (m_sep m) (i + 1 <? m_page_count m) (0 <? i))), m').
Proof.
  intros Hn Hp Hi Hsep Hl Hnt Hpt.
  destruct (menu_apply_page m i) as [m1|e|p] eqn:Ha;
    [|rewrite menu_apply_page_eq, (proj2 (N.ltb_lt _ _) Hi) in Ha; discriminate..].
  destruct (menu_apply_page_ok Hn Hp Ha) as [_ Hit].
  destruct (menu_apply_page_static Ha) as (_ & Hs1 & _ & Hr1 & _).
  eexists. eapply menu_render_st_lines; [exact Ha|rewrite Hs1; exact Hsep|].
  rewrite (title_for_ext gm m m1 Hr1), Hs1, Hit, menu_lines_app, Hl, (menu_lines_browse Hnt Hpt). reflexivity.
Qed.

Lemma menu_render_past_end gm m i :
  m_page_count m <= i -> 0 < i ->
  fst (menu_render_st gm m i) = Err EBrowse \/ fst (menu_render_st gm m i) = Err EGen.
Proof.
  intros H1 H2. unfold menu_render_st. rewrite menu_apply_page_eq.
  replace (i <? N.max 1 (m_page_count m)) with false by lia. destruct (m_page_count m =? 0); [right|left]; reflexivity.
Qed.

Lemma menu_loop_no_panic tf sep items acc :
  (forall k, is_panic (tf k) = false) -> is_panic (fst (menu_loop tf sep items acc)) = false.
Proof.
  intros Htf. revert acc. induction items as [|[sel t] items IH]; intros acc; [reflexivity|].
  cbn [menu_loop]. specialize (Htf t). destruct (tf t); [apply IH|reflexivity|discriminate].
Qed.

Lemma menu_render_st_no_panic gm m idx :
  (forall k, is_panic (gm k) = false) -> is_panic (fst (menu_render_st gm m idx)) = false.
Proof.
  intros Hgm. unfold menu_render_st.
  destruct (menu_apply_page m idx) as [m1|e|p] eqn:Ea; try reflexivity.
  - fold (title_for gm m1).
    assert (Htf : forall k, is_panic (title_for gm m1 k) = false).
    { intros k. unfold title_for. destruct (m_has_rs m1); [apply Hgm|reflexivity]. }
    pose proof (menu_loop_no_panic _ (m_sep m1) (m_items m1) [] Htf) as Hl.
    destruct (menu_loop (title_for gm m1) (m_sep m1) (m_items m1) []) as [[r|e|p] rest];
      cbn [fst] in *; try reflexivity. discriminate.
  - rewrite menu_apply_page_eq in Ea. destruct (idx <? _); discriminate.
Qed.

Lemma menu_sizes_no_panic m : is_panic (menu_sizes m) = false.
Proof.
  assert (Hnp : forall t i, is_panic (fst (menu_render_st (fun t => Ok t) t i)) = false).
  { intros t i. apply menu_render_st_no_panic. reflexivity. }
  unfold menu_sizes.
  pose proof (Hnp (menu_with_browse (new_menu default_sep) (m_browse m)) 0) as H0.
  destruct (menu_render_st _ _ 0) as [[v0|e|p] t1]; [|reflexivity|discriminate].
  pose proof (Hnp (menu_with_page_count t1 2) 0) as H1.
  destruct (menu_render_st _ (menu_with_page_count t1 2) 0) as [[v1|e|p] t3]; [|reflexivity|discriminate].
  pose proof (Hnp t3 1) as H2.
  destruct (menu_render_st _ t3 1) as [[v2|e|p] t5]; [reflexivity|reflexivity|discriminate].
Qed.

Definition browse_sizes (b : browse) : N * N * N * N :=
  (0, len (b_next_sel b) + 1 + len (b_next_title b), len (b_prev_sel b) + 1 + len (b_prev_title b),
   w32 (len (b_next_sel b) + 1 + len (b_next_title b) + (len (b_prev_sel b) + 1 + len (b_prev_title b)))).

Lemma menu_sizes_closed m :
  b_next_avail (m_browse m) = true -> b_prev_avail (m_browse m) = true ->
  len (b_next_sel (m_browse m)) + 1 + len (b_next_title (m_browse m)) < 4294967296 ->
  len (b_prev_sel (m_browse m)) + 1 + len (b_prev_title (m_browse m)) < 4294967296 ->
  menu_sizes m = Ok (browse_sizes (m_browse m)).
Proof.
  destruct m as [items b pc cn cp sk kp sp rs]. destruct b as [na ns nt pa ps pt]. unfold browse_sizes.
  cbn [m_browse b_next_avail b_prev_avail b_next_sel b_next_title b_prev_sel b_prev_title].
  intros -> -> Hn Hp.
  unfold menu_sizes. cbn -[w32 sub32 len].
  change (len (@nil N)) with 0. change (0 <? 0) with false. cbn [app].
  rewrite !len_app, !len_cons. change (w32 0) with 0.
  rewrite (w32_small (len ns + (1 + len nt))) by lia. rewrite (w32_small (len ps + (1 + len pt))) by lia.
  rewrite !sub32_small by lia. rewrite !N.sub_0_r.
  replace (len ns + (1 + len nt)) with (len ns + 1 + len nt) by lia.
  replace (len ps + (1 + len pt)) with (len ps + 1 + len pt) by lia. reflexivity.
Qed.

Lemma sink_page_no_panic v crs idx : is_panic (sink_page v crs idx) = false.
Proof.
  unfold sink_page. destruct (w16 (len crs) <=? idx) eqn:E; [reflexivity|].
  destruct (nth_error crs (N.to_nat idx)) as [c|] eqn:En.
  - destruct (w32 (len v) <? c); reflexivity.
  - exfalso. apply nth_error_None in En.
    assert (w16 (len crs) <= len crs) by (unfold w16; apply N.mod_le; lia).
    unfold len in *. lia.
Qed.

Lemma get_at_loop_other sink crs idx vals vals' k :
  get_at_loop sink crs idx vals = Ok vals' -> k <> sink -> alookup k vals' = alookup k vals.
Proof.
  revert vals'. induction vals as [|[k' v'] vals IH]; intros vals' H Hne; cbn [get_at_loop] in H.
  - injection H as <-. reflexivity.
  - destruct (bytes_eqb sink k') eqn:E.
    + apply obind_ok in H as [p [_ H]]. apply obind_ok in H as [r' [Hr H]]. injection H as <-.
      apply bytes_eqb_eq in E. subst k'. cbn [alookup]. rewrite (bytes_eqb_neq _ _ Hne). apply IH; assumption.
    + apply obind_ok in H as [r' [Hr H]]. injection H as <-. cbn [alookup].
      destruct (bytes_eqb k k'); [reflexivity|]. apply IH; assumption.
Qed.

Lemma sizer_get_at_other {z vals idx vals' k} :
  sizer_get_at z vals idx = Ok vals' -> k <> z_sink z -> alookup k vals' = alookup k vals.
Proof.
  unfold sizer_get_at. destruct (z_sink z) eqn:Es.
  - intros H _. inversion H. reflexivity.
  - intros H Hne. eapply get_at_loop_other; eassumption.
Qed.

Lemma split_loop_spec {c vals} : forall {acc sink svs acc' sink' svs'},
  page_split_loop c vals acc sink svs = Ok (acc', sink', svs') ->
  (sink' = sink \/ cache_reserved c sink' = Ok 0)
  /\ (forall k, cache_reserved c k <> Ok 0 -> alookup k acc' = alookup k (acc ++ vals)).
Proof.
  induction vals as [|[k0 v0] vals IH]; intros acc sink svs acc' sink' svs' H; cbn [page_split_loop] in H.
  - injection H as <- <- <-. split; [left; reflexivity|]. intros k _. rewrite app_nil_r. reflexivity.
  - destruct (cache_reserved c k0) as [sz|e|p] eqn:Er; try discriminate.
    destruct (sz =? 0) eqn:Ez; destruct (IH _ _ _ _ _ _ H) as [Hs Hl];
      (split; [|intros k Hk; rewrite Hl, <- app_assoc by exact Hk]); try assumption; try reflexivity.
    + apply N.eqb_eq in Ez. subst sz. destruct Hs as [->|Hs]; right; assumption.
    + rewrite !alookup_app. cbn [alookup app]. destruct (bytes_eqb k k0) eqn:E; [|reflexivity].
      apply bytes_eqb_eq in E. apply N.eqb_eq in Ez. subst. contradiction.
Qed.

Lemma page_split_spec {c vals nsv sink svs} :
  page_split c vals = Ok (nsv, sink, svs) ->
  (sink = [] \/ cache_reserved c sink = Ok 0)
  /\ (forall k, cache_reserved c k <> Ok 0 -> alookup k nsv = alookup k vals).
Proof.
  unfold page_split. destruct (page_split_loop c vals [] [] []) as [[[a s] v]|e|p] eqn:E; try discriminate.
  destruct (split_loop_spec E) as [Hs Hl].
  destruct s as [|x s].
  - intros H. inversion H; subst. split; [left; reflexivity|]. reflexivity.
  - intros H. inversion H; subst. split.
    + destruct Hs as [Hs|Hs]; [discriminate|right; exact Hs].
    + intros k Hk. apply Hl. exact Hk.
Qed.

Lemma get_at_loop_no_panic sink crs idx vals : is_panic (get_at_loop sink crs idx vals) = false.
Proof.
  induction vals as [|[k v] vals IH]; [reflexivity|]. cbn [get_at_loop].
  destruct (bytes_eqb sink k); repeat (apply obind_no_panic; [assumption || apply sink_page_no_panic|intros]); reflexivity.
Qed.

Lemma tpl_exec_no_panic items vals : is_panic (tpl_exec items vals) = false.
Proof.
  induction items as [|[b|n] items IH]; [reflexivity| |]; cbn [tpl_exec]; [|destruct (alookup n vals); [|reflexivity]];
    (apply obind_no_panic; [exact IH|reflexivity]).
Qed.

Lemma render_template_no_panic gt pg sym vals idx :
  (forall k, is_panic (gt k) = false) -> is_panic (render_template gt pg sym vals idx) = false.
Proof.
  intros Hgt. unfold render_template. apply obind_no_panic; [apply Hgt|intros src]. apply obind_no_panic.
  - destruct (p_sizer pg) as [z|]; [|destruct (0 <? idx); reflexivity].
    unfold sizer_get_at. destruct (z_sink z); [reflexivity|apply get_at_loop_no_panic].
  - intros vals'. destruct (tpl_parse _); [apply tpl_exec_no_panic|reflexivity].
Qed.

Lemma cache_reserved_no_panic c k : is_panic (cache_reserved c k) = false.
Proof. unfold cache_reserved. destruct (alookup k (c_sizes c)); reflexivity. Qed.

Lemma page_split_no_panic c vals : is_panic (page_split c vals) = false.
Proof.
  unfold page_split.
  assert (H : forall acc sink svs, is_panic (page_split_loop c vals acc sink svs) = false).
  { induction vals as [|[k v] vals IH]; intros acc sink svs; [reflexivity|]. cbn [page_split_loop].
    pose proof (cache_reserved_no_panic c k) as Hr.
    destruct (cache_reserved c k) as [sz|e|p]; [|reflexivity|discriminate].
    destruct (sz =? 0); apply IH. }
  specialize (H [] [] []).
  destruct (page_split_loop c vals [] [] []) as [[[a s] v]|e|p]; [|reflexivity|discriminate].
  destruct s; reflexivity.
Qed.

Definition page_out (pg : page) : option N := option_map z_out (p_sizer pg).

(* the menu text as the private render appends it: after an LF, and not at all when it is empty *)
Definition opt_menu (mtext : bytes) : bytes := if 0 <? len mtext then nl :: mtext else [].

(* the continuation takes the page first, so that a pattern for the value can follow it and the model's own
   matches are convertible with the chain *)
Definition sbind {A B} (x : res A * page) (f : page -> A -> res B * page) : res B * page :=
  match x with
  | (Ok a, pg) => f pg a
  | (Err e, pg) => (Err e, pg)
  | (Panic s, pg) => (Panic s, pg)
  end.

Lemma sbind_ok {A B} (x : res A * page) (f : page -> A -> res B * page) b pg' :
  sbind x f = (Ok b, pg') -> exists a pg1, x = (Ok a, pg1) /\ f pg1 a = (Ok b, pg').
Proof. destruct x as [[a|e|s] pg1]; try discriminate. intros H. exists a, pg1. split; [reflexivity|exact H]. Qed.

Lemma sbind_keeps {A B T} (h : page -> T) (x : res A * page) (f : page -> A -> res B * page) t :
  h (snd x) = t -> (forall pg1 a, x = (Ok a, pg1) -> h (snd (f pg1 a)) = h pg1) -> h (snd (sbind x f)) = t.
Proof. destruct x as [[a|e|s] pg1]; cbn [snd sbind]; intros <- Hf; [apply Hf|..]; reflexivity. Qed.

Lemma sbind_no_panic {A B} (x : res A * page) (f : page -> A -> res B * page) :
  is_panic (fst x) = false -> (forall pg1 a, x = (Ok a, pg1) -> is_panic (fst (f pg1 a)) = false) ->
  is_panic (fst (sbind x f)) = false.
Proof. destruct x as [[a|e|s] pg1]; cbn [fst sbind]; intros H Hf; [apply Hf; reflexivity|reflexivity|discriminate]. Qed.

(* for a chain run on a page of which h forgets a part *)
Definition on_page {A} (h : page -> page) (x : res A * page) : res A * page := (fst x, h (snd x)).

Lemma sbind_on_page {A B} h (x x' : res A * page) (f f' : page -> A -> res B * page) :
  x' = on_page h x -> (forall pg1 a, f' (h pg1) a = on_page h (f pg1 a)) -> sbind x' f' = on_page h (sbind x f).
Proof. intros -> Hf. destruct x as [[a|e|s] pg1]; [apply Hf|reflexivity|reflexivity]. Qed.

Lemma sbind_ext {A B} (x x' : res A * page) (f f' : page -> A -> res B * page) :
  x = x' -> (forall pg1 a, f pg1 a = f' pg1 a) -> sbind x f = sbind x' f'.
Proof. intros <- Hf. destruct x as [[a|e|s] pg1]; [apply Hf|reflexivity|reflexivity]. Qed.

(* what no step of Page.Render changes *)
Definition mshape (m : menu) : bytes * bool := (m_sep m, m_has_rs m).
Definition pkept (pg : page) : option (bytes * bool) * option N * option bytes :=
  (option_map mshape (p_menu pg), page_out pg, p_err pg).

Lemma pkept_out {pg pg'} : pkept pg' = pkept pg -> page_out pg' = page_out pg.
Proof. intros H. exact (f_equal (fun t => snd (fst t)) H). Qed.

Lemma menu_render_st_mshape {gm m idx r m'} : menu_render_st gm m idx = (r, m') -> mshape m' = mshape m.
Proof. intros H. destruct (menu_render_st_static H) as (_ & Hs & _ & Hr & _). unfold mshape. rewrite Hs, Hr. reflexivity. Qed.

Lemma page_map_page {c pg k pg'} : page_map c pg k = Ok pg' ->
  exists v l, cache_get c k = Ok v /\
    pg' = mkPage (aset k v (p_map pg)) (if l =? 0 then Some k else p_sink pg) (p_menu pg)
                 (option_map (fun z => sizer_set z k l) (p_sizer pg)) (p_err pg) (p_extra pg).
Proof.
  unfold page_map. destruct (cache_get c k) as [v| |]; cbn [obind]; try discriminate.
  destruct (cache_reserved c k) as [l| |]; cbn [obind]; try discriminate.
  destruct (if l =? 0 then _ else false); [discriminate|]. intros [= <-]. eauto.
Qed.
Lemma page_map_kept {c pg k pg'} : page_map c pg k = Ok pg' -> pkept pg' = pkept pg.
Proof.
  intros H. destruct (page_map_page H) as (v & l & _ & ->). unfold pkept, page_out. cbn [p_menu p_sizer p_err].
  destruct (p_sizer pg); reflexivity.
Qed.

Definition menu_step (gm : bytes -> res bytes) (idx : N) (pg : page) : res bytes * page :=
  match p_menu pg with
  | None => (Ok [], pg)
  | Some m => (fst (menu_render_st gm m idx), page_set_menu pg (Some (snd (menu_render_st gm m idx))))
  end.

Lemma menu_step_ok {gm idx pg mtext pg' m} :
  menu_step gm idx pg = (Ok mtext, pg') -> p_menu pg = Some m ->
  exists m', menu_render_st gm m idx = (Ok mtext, m') /\ pg' = page_set_menu pg (Some m').
Proof. unfold menu_step. intros H Hm. rewrite Hm in H. destruct (menu_render_st gm m idx) as [r m']. injection H as -> <-. eauto. Qed.

Definition check_step (pg : page) (out : bytes) : res bytes * page :=
  (match p_sizer pg with
   | Some z => if snd (sizer_check z out) then Ok out else Err EGen
   | None => Ok out
   end, pg).

Lemma inner_steps gt gm pg sym vals idx :
  page_render_inner gt gm pg sym vals idx
  = sbind (render_template gt pg sym vals idx, pg) (fun pg s =>
      sbind (menu_step gm idx pg) (fun pg1 mtext => check_step pg1 (s ++ opt_menu mtext))).
Proof.
  unfold page_render_inner, menu_step, check_step.
  destruct (render_template gt pg sym vals idx) as [s|e|p]; try reflexivity. cbn [sbind].
  destruct (p_menu pg) as [m|].
  - destruct (menu_render_st gm m idx) as [[ms|e|p] m']; try reflexivity. cbn [sbind fst snd].
    destruct (p_sizer _); [destruct (snd _)|]; reflexivity.
  - cbn [sbind]. change (opt_menu []) with (@nil N). rewrite app_nil_r.
    destruct (p_sizer pg); [destruct (snd _)|]; reflexivity.
Qed.

Lemma inner_snd {gt gm pg sym vals idx r pg'} :
  page_render_inner gt gm pg sym vals idx = (r, pg') ->
  exists mo, pg' = page_set_menu pg mo /\ option_map mshape mo = option_map mshape (p_menu pg).
Proof.
  assert (H0 : forall r', (r', pg) = (r, pg') ->
            exists mo, pg' = page_set_menu pg mo /\ option_map mshape mo = option_map mshape (p_menu pg))
    by (intros r' [= _ <-]; exists (p_menu pg); destruct pg; split; reflexivity).
  rewrite inner_steps. destruct (render_template gt pg sym vals idx) as [s|e|p]; try apply H0. cbn [sbind].
  unfold menu_step. destruct (p_menu pg) as [m|] eqn:Em; [|apply H0].
  destruct (menu_render_st gm m idx) as [r1 m'] eqn:Er. pose proof (menu_render_st_mshape Er) as Hs.
  intros E. exists (Some m'). split; [destruct r1; injection E as _ <-; reflexivity|cbn [option_map]; rewrite Hs; reflexivity].
Qed.

Lemma inner_kept gt gm pg sym vals idx : pkept (snd (page_render_inner gt gm pg sym vals idx)) = pkept pg.
Proof.
  destruct (page_render_inner gt gm pg sym vals idx) as [r pg'] eqn:E. destruct (inner_snd E) as (mo & -> & Hs).
  unfold pkept. cbn [snd p_menu page_set_menu]. rewrite Hs. reflexivity.
Qed.

Lemma render_template_ok {gt pg sym vals idx body} :
  render_template gt pg sym vals idx = Ok body ->
  exists src items vals',
    gt sym = Ok src
    /\ tpl_parse (tpl_source (p_err pg) (p_extra pg) src) = Some items
    /\ match p_sizer pg with
       | Some z => sizer_get_at z vals idx
       | None => if 0 <? idx then Err EGen else Ok vals
       end = Ok vals'
    /\ tpl_exec items vals' = Ok body.
Proof.
  unfold render_template. intros Et. apply obind_ok in Et as [src [Hg Et]]. apply obind_ok in Et as [vals' [Hv Et]].
  destruct (tpl_parse (tpl_source (p_err pg) (p_extra pg) src)) as [items|] eqn:Ep; [|discriminate]. eauto 7.
Qed.

(* the first clause is the obligation of C01: nothing is appended after the final Sizer.Check *)
Lemma inner_ok {gt gm pg sym vals idx out pg'} :
  page_render_inner gt gm pg sym vals idx = (Ok out, pg') ->
  match p_sizer pg with Some z => snd (sizer_check z out) = true | None => True end
  /\ exists body mtext,
       render_template gt pg sym vals idx = Ok body /\ menu_step gm idx pg = (Ok mtext, pg') /\ out = body ++ opt_menu mtext.
Proof.
  rewrite inner_steps. intros H.
  apply sbind_ok in H as (body & pg0 & [= Et <-] & H). apply sbind_ok in H as (mtext & pg1 & Em & H).
  assert (Hz : p_sizer pg1 = p_sizer pg).
  { apply (f_equal snd) in Em. cbn [snd] in Em. subst pg1. unfold menu_step. destruct (p_menu pg); reflexivity. }
  unfold check_step in H. rewrite Hz in H.
  destruct (p_sizer pg) as [z|]; [destruct (snd (sizer_check z _)) eqn:Ec; [|discriminate]|];
    injection H as <- <-; eauto 7.
Qed.

(* the final check, in the uint32 arithmetic of the code *)
Lemma inner_fits32 {gt gm pg sym vals idx out pg' z} :
  page_render_inner gt gm pg sym vals idx = (Ok out, pg') -> page_out pg = Some z -> 0 < z -> w32 (len out) <= z.
Proof.
  unfold page_out. intros H Hz Hout. apply inner_ok in H as [H _].
  destruct (p_sizer pg) as [zz|]; [|discriminate]. injection Hz as <-. unfold sizer_check in H.
  destruct (0 <? z_out zz) eqn:E; [|lia]. destruct (z_out zz <? w32 (len out)) eqn:E2; [discriminate|lia].
Qed.

Lemma inner_no_panic gt gm pg sym vals idx :
  (forall k, is_panic (gt k) = false) -> (forall k, is_panic (gm k) = false) ->
  is_panic (fst (page_render_inner gt gm pg sym vals idx)) = false.
Proof.
  intros Hgt Hgm. rewrite inner_steps.
  apply sbind_no_panic; [apply render_template_no_panic, Hgt|intros pg0 s _].
  apply sbind_no_panic.
  - unfold menu_step. destruct (p_menu pg0); [apply menu_render_st_no_panic, Hgm|reflexivity].
  - intros pg1 mt _. unfold check_step. cbn [fst]. destruct (p_sizer pg1); [destruct (snd _)|]; reflexivity.
Qed.

(* Page.prepare in steps, after the split.  First the menu taken as sink (MSINK) ... *)
Definition prep_menu_sink (gm : bytes -> res bytes) (pg : page) (aliased : bool) (nsv0 : alist) (sink0 : bytes)
  (svs0 : list bytes) : res (alist * bytes * list bytes) * page :=
  match p_menu pg with
  | Some m =>
    if m_sink m then
      if negb aliased then (Err EGen, pg)
      else
        let m1 := menu_with_pages (menu_with_dispose m) in
        match menu_render_st gm m1 0 with
        | (Ok s, m2) =>
          let pg1 := page_set_extra (page_set_menu pg (Some m2)) menu_sink_extra in
          let pg2 := page_set_sizer pg1 (option_map (fun z => sizer_set_sink z menu_sink_key) (p_sizer pg1)) in
          let '(nsv1, pg3) := prep_write aliased pg2 nsv0 menu_sink_key [] in
          (Ok (nsv1, menu_sink_key, split_on nl s), pg3)
        | (Err e, m2) => (Err e, page_set_menu pg (Some m2))
        | (Panic p, m2) => (Panic p, page_set_menu pg (Some m2))
        end
    else (Ok (nsv0, sink0, svs0), pg)
  | None => (Ok (nsv0, sink0, svs0), pg)
  end.

(* ... then the first cursor and the pre-render without the sink ... *)
Definition pre_render (gt gm : bytes -> res bytes) (sym : bytes) (pg1 : page) (nsv : alist) : res bytes * page :=
  page_render_inner gt gm (page_set_sizer pg1 (option_map (fun z => sizer_add_cursor z 0) (p_sizer pg1))) sym nsv 0.

(* ... and joinSink on what the pre-render s left, the result written back under the sink's name *)
Definition place_sink (aliased : bool) (nsv : alist) (sink : bytes) (svs : list bytes) (pg3 : page) (s : bytes)
  : res alist * page :=
  match p_sizer pg3 with
  | None => (Panic 31, pg3)
  | Some z =>
    let '(remaining, ok) := sizer_check z s in
    if negb ok then (Err EGen, pg3) else
    sbind (match p_menu pg3 with Some m => menu_sizes m | None => Ok ms_zero end, pg3) (fun _ ms =>
      let '(jr, crs') := join_sink svs remaining ms (z_crsrs z) in
      sbind (jr, page_set_sizer pg3 (Some (sizer_set_crsrs z crs'))) (fun pg4 '(sink_string, count) =>
        let '(nsv', pg5) := prep_write aliased pg4 nsv sink sink_string in
        (Ok nsv', page_set_menu pg5 (option_map (fun m => menu_with_page_count m count) (p_menu pg5)))))
  end.

Definition prep_join (gt gm : bytes -> res bytes) (sym : bytes) (aliased : bool) (pg1 : page) (nsv : alist)
  (sink : bytes) (svs : list bytes) : res alist * page :=
  sbind (pre_render gt gm sym pg1 nsv) (place_sink aliased nsv sink svs).

Lemma page_prepare_steps c gt gm pg sym idx :
  page_prepare c gt gm pg sym idx
  = match p_sizer pg with
    | None => (Ok (p_map pg), pg)
    | Some _ =>
      sbind (page_split c (p_map pg), pg) (fun pg '(nsv0, sink0, svs0) =>
        let aliased := match sink0 with [] => true | _ => false end in
        sbind (prep_menu_sink gm pg aliased nsv0 sink0 svs0) (fun pg1 '(nsv, sink, svs) =>
          prep_join gt gm sym aliased pg1 nsv sink svs))
    end.
Proof. reflexivity. Qed.

Lemma page_render_steps c gt gm pg sym idx :
  page_render c gt gm pg sym idx
  = sbind (page_prepare c gt gm pg sym idx) (fun pg' vals => page_render_inner gt gm pg' sym vals idx).
Proof. reflexivity. Qed.

Lemma mshape_pages_dispose m : mshape (menu_with_pages (menu_with_dispose m)) = mshape m.
Proof. unfold menu_with_pages. cbn [menu_with_dispose m_page_count]. destruct (m_page_count m =? 0); reflexivity. Qed.

Lemma prep_menu_sink_kept gm pg aliased nsv0 sink0 svs0 :
  pkept (snd (prep_menu_sink gm pg aliased nsv0 sink0 svs0)) = pkept pg.
Proof.
  unfold prep_menu_sink, prep_write. destruct (p_menu pg) as [m|] eqn:Em; [|reflexivity].
  destruct (m_sink m); [|reflexivity]. destruct aliased; [|reflexivity]. cbn [negb].
  destruct (menu_render_st gm _ 0) as [r m2] eqn:Er. pose proof (menu_render_st_mshape Er) as Hs.
  rewrite mshape_pages_dispose in Hs.
  destruct r; cbn [snd]; unfold pkept, page_out;
    cbn [p_menu p_sizer p_err page_set_map page_set_sizer page_set_extra page_set_menu option_map];
    rewrite Em, Hs; destruct (p_sizer pg); reflexivity.
Qed.

Lemma pre_render_kept gt gm sym pg1 nsv : pkept (snd (pre_render gt gm sym pg1 nsv)) = pkept pg1.
Proof. unfold pre_render. rewrite inner_kept. unfold pkept, page_out. cbn [p_menu p_sizer p_err page_set_sizer]. destruct (p_sizer pg1); reflexivity. Qed.

Lemma place_sink_kept aliased nsv sink svs pg3 s : pkept (snd (place_sink aliased nsv sink svs pg3 s)) = pkept pg3.
Proof.
  unfold place_sink, prep_write. destruct (p_sizer pg3) as [z|] eqn:Ez; [|reflexivity].
  destruct (sizer_check z s) as [R ok]. destruct (negb ok); [reflexivity|].
  apply sbind_keeps; [reflexivity|intros pg ms [= _ <-]]. destruct (join_sink svs R ms (z_crsrs z)) as [jr crs'].
  assert (H4 : pkept (page_set_sizer pg3 (Some (sizer_set_crsrs z crs'))) = pkept pg3)
    by (unfold pkept, page_out; cbn [p_menu p_sizer p_err page_set_sizer]; rewrite Ez; reflexivity).
  apply sbind_keeps; [exact H4|intros pg4 [r n] _].
  destruct aliased, pg4 as [mp sk [m|] z4 er ex]; reflexivity.
Qed.

Lemma prepare_kept c gt gm pg sym idx : pkept (snd (page_prepare c gt gm pg sym idx)) = pkept pg.
Proof.
  rewrite page_prepare_steps. destruct (p_sizer pg) as [z0|]; [|reflexivity].
  apply sbind_keeps; [reflexivity|intros pg0 [[nsv0 sink0] svs0] _]. cbv zeta.
  apply sbind_keeps; [apply prep_menu_sink_kept|intros pg1 [[nsv sink] svs] _].
  apply sbind_keeps; [apply pre_render_kept|intros pg3 s _]. apply place_sink_kept.
Qed.

Lemma page_render_kept c gt gm pg sym idx : pkept (snd (page_render c gt gm pg sym idx)) = pkept pg.
Proof. rewrite page_render_steps. apply sbind_keeps; [apply prepare_kept|intros pg1 vals _; apply inner_kept]. Qed.

Lemma page_render_fits32 {c gt gm pg sym idx out pg' z} :
  page_out pg = Some z -> 0 < z ->
  page_render c gt gm pg sym idx = (Ok out, pg') -> w32 (len out) <= z.
Proof.
  intros Hz Hout H. rewrite page_render_steps in H. apply sbind_ok in H as (vals & pg1 & Ep & H).
  refine (inner_fits32 H _ Hout). rewrite <- Hz.
  apply pkept_out. rewrite <- (prepare_kept c gt gm pg sym idx), Ep. reflexivity.
Qed.

Lemma prep_menu_sink_no_panic gm pg aliased nsv0 sink0 svs0 :
  (forall k, is_panic (gm k) = false) -> is_panic (fst (prep_menu_sink gm pg aliased nsv0 sink0 svs0)) = false.
Proof.
  intros Hgm. unfold prep_menu_sink, prep_write. destruct (p_menu pg) as [m|]; [|reflexivity].
  destruct (m_sink m); [|reflexivity]. destruct (negb aliased); [reflexivity|].
  pose proof (menu_render_st_no_panic gm (menu_with_pages (menu_with_dispose m)) 0 Hgm) as H.
  destruct (menu_render_st gm _ 0) as [[s|e|p] m2]; cbn [fst] in H;
    [destruct aliased; reflexivity|reflexivity|discriminate].
Qed.

Lemma join_sink_no_panic vs R ms crs : is_panic (fst (join_sink vs R ms crs)) = false.
Proof. unfold join_sink. destruct (js_loop (ms_prev ms) (js_init vs R ms crs) vs) as [[|] s]; reflexivity. Qed.

(* Panic 31 (no sizer after the pre-render) is unreachable: no step drops the sizer *)
Lemma place_sink_no_panic aliased nsv sink svs pg3 s :
  page_out pg3 <> None -> is_panic (fst (place_sink aliased nsv sink svs pg3 s)) = false.
Proof.
  unfold place_sink, prep_write, page_out. destruct (p_sizer pg3) as [z|]; [intros _|intros H; contradiction H; reflexivity].
  destruct (sizer_check z s) as [R ok]. destruct (negb ok); [reflexivity|].
  apply sbind_no_panic; [destruct (p_menu pg3); [apply menu_sizes_no_panic|reflexivity]|intros pg ms _].
  pose proof (join_sink_no_panic svs R ms (z_crsrs z)) as Hj. destruct (join_sink svs R ms (z_crsrs z)) as [jr crs'].
  apply sbind_no_panic; [exact Hj|intros pg4 [r n] _]. destruct aliased; reflexivity.
Qed.

Lemma prepare_no_panic c gt gm pg sym idx :
  (forall k, is_panic (gt k) = false) -> (forall k, is_panic (gm k) = false) ->
  is_panic (fst (page_prepare c gt gm pg sym idx)) = false.
Proof.
  intros Hgt Hgm. rewrite page_prepare_steps. destruct (p_sizer pg) as [z0|] eqn:Ez0; [|reflexivity].
  apply sbind_no_panic; [apply page_split_no_panic|intros pg0 [[nsv0 sink0] svs0] [= _ <-]]. cbv zeta.
  apply sbind_no_panic; [apply prep_menu_sink_no_panic, Hgm|intros pg1 [[nsv sink] svs] E1].
  apply sbind_no_panic; [apply inner_no_panic; assumption|intros pg3 s E3].
  apply place_sink_no_panic. apply (f_equal snd) in E1, E3. cbn [snd] in E1, E3.
  rewrite <- E3, (pkept_out (pre_render_kept _ _ _ _ _)), <- E1, (pkept_out (prep_menu_sink_kept _ _ _ _ _ _)).
  unfold page_out. rewrite Ez0. discriminate.
Qed.

Lemma prep_menu_sink_ok {gm pg aliased nsv0 sink0 svs0 nsv sink svs pg1} :
  prep_menu_sink gm pg aliased nsv0 sink0 svs0 = (Ok (nsv, sink, svs), pg1) ->
  (forall k, k <> menu_sink_key -> alookup k nsv = alookup k nsv0) /\ (sink = sink0 \/ sink = menu_sink_key).
Proof.
  unfold prep_menu_sink, prep_write. destruct (p_menu pg) as [m|]; [destruct (m_sink m)|].
  2, 3: intros H; injection H as <- <- <- <-; auto.
  destruct (negb aliased); [discriminate|].
  destruct (menu_render_st gm _ 0) as [[s|e|p] m2]; try discriminate.
  intros H. injection H as <- <- _ <-. split; [|right; reflexivity].
  intros k Hk. apply alookup_aset_other. exact Hk.
Qed.

Lemma prep_join_ok {gt gm sym aliased pg1 nsv sink svs vals pg'} :
  prep_join gt gm sym aliased pg1 nsv sink svs = (Ok vals, pg') ->
  exists s pg3 r n,
    pre_render gt gm sym pg1 nsv = (Ok s, pg3)
    /\ vals = aset sink r nsv
    /\ p_extra pg' = p_extra pg1
    /\ p_menu pg' = option_map (fun m => menu_with_page_count m n) (p_menu pg3).
Proof.
  unfold prep_join. intros H. apply sbind_ok in H as (s & pg3 & Ei & H).
  destruct (inner_snd Ei) as (mo & Hsnd & _).
  unfold place_sink, prep_write in H. destruct (p_sizer pg3) as [z|]; [|discriminate].
  destruct (sizer_check z s) as [R [|]]; [|discriminate]. cbn [negb] in H.
  apply sbind_ok in H as (ms & pg & [= _ <-] & H).
  destruct (join_sink svs R ms (z_crsrs z)) as [jr crs'].
  apply sbind_ok in H as ([r n] & pg4 & [= -> <-] & H).
  exists s, pg3, r, n.
  destruct aliased; injection H as <- <-; subst pg3; (split; [exact Ei|repeat split]).
Qed.

Lemma prepare_ok {c gt gm pg sym idx vals pg' z0} :
  p_sizer pg = Some z0 ->
  page_prepare c gt gm pg sym idx = (Ok vals, pg') ->
  (forall k, k <> [] -> k <> menu_sink_key -> cache_reserved c k <> Ok 0 ->
     alookup k vals = alookup k (p_map pg))
  /\ (forall m, p_menu pg = Some m -> m_sink m = false ->
        p_extra pg' = p_extra pg
        /\ exists txt m3 n, menu_render_st gm m 0 = (Ok txt, m3) /\ p_menu pg' = Some (menu_with_page_count m3 n)).
Proof.
  intros Hz0. rewrite page_prepare_steps, Hz0. intros H.
  apply sbind_ok in H as ([[nsv0 sink0] svs0] & pg0 & [= Esplit <-] & H). cbv zeta in H.
  destruct (page_split_spec Esplit) as [Hsink0 Hnsv0].
  apply sbind_ok in H as ([[nsv sink] svs] & pg1 & E1 & E2).
  destruct (prep_menu_sink_ok E1) as [Hnsv Hsink].
  destruct (prep_join_ok E2) as (s & pg3 & r & n & Ei & -> & Hex & Hmn).
  split.
  - intros k H1 H2 H3. rewrite alookup_aset_other; [rewrite Hnsv, Hnsv0 by assumption; reflexivity|].
    intros ->. destruct Hsink as [-> | ->]; [destruct Hsink0; contradiction|contradiction].
  - intros m Hm Hsk. unfold prep_menu_sink in E1. rewrite Hm, Hsk in E1. injection E1 as _ _ _ <-.
    apply inner_ok in Ei as (_ & _ & txt & _ & Hmenu & _).
    destruct (menu_step_ok Hmenu Hm) as (m3 & Er & ->).
    split; [exact Hex|]. exists txt, m3, n. split; [exact Er|exact Hmn].
Qed.

(* the VM always attaches a menu *)
Lemma page_render_past_end c gt gm pg sym i vals pg1 m1 :
  (forall k, is_panic (gt k) = false) ->
  page_prepare c gt gm pg sym i = (Ok vals, pg1) -> p_menu pg1 = Some m1 ->
  m_page_count m1 <= i -> 0 < i ->
  exists e, fst (page_render c gt gm pg sym i) = Err e.
Proof.
  intros Hgt Hp Hm Hpc Hi. rewrite page_render_steps, Hp. cbn [sbind]. rewrite inner_steps.
  pose proof (render_template_no_panic gt pg1 sym vals i Hgt) as Hnp.
  destruct (render_template gt pg1 sym vals i) as [s|e|p]; [|exists e; reflexivity|discriminate].
  cbn [sbind]. unfold menu_step. rewrite Hm.
  destruct (menu_render_past_end gm m1 i Hpc Hi) as [H|H]; rewrite H; eexists; reflexivity.
Qed.

Lemma page_render_shape c gt gm pg sym idx out pg' :
  page_render c gt gm pg sym idx = (Ok out, pg') ->
  exists src items vals' body mtext vals pg1,
    gt sym = Ok src
    /\ tpl_parse (tpl_source (p_err pg) (p_extra pg') src) = Some items
    /\ tpl_exec items vals' = Ok body
    /\ out = body ++ opt_menu mtext
    /\ (forall k, k <> [] -> k <> menu_sink_key -> cache_reserved c k <> Ok 0 ->
          (forall z', p_sizer pg' = Some z' -> k <> z_sink z') ->
          alookup k vals' = alookup k (p_map pg))
    /\ page_prepare c gt gm pg sym idx = (Ok vals, pg1)
    /\ match p_menu pg1 with
       | Some m1 => fst (menu_render_st gm m1 idx) = Ok mtext
       | None => mtext = []
       end.
Proof.
  intros Hr. rewrite page_render_steps in Hr. apply sbind_ok in Hr as (vals & pg1 & Ep & Hr).
  destruct (inner_snd Hr) as (mo & Hsnd & _).
  destruct (inner_ok Hr) as (_ & body & mtext & Ht & Hm & Ho).
  destruct (render_template_ok Ht) as (src & items & vals' & Hg & Hp & Hv & He).
  subst pg'. cbn [p_extra p_sizer page_set_menu].
  assert (Hm' : match p_menu pg1 with
                | Some m1 => fst (menu_render_st gm m1 idx) = Ok mtext
                | None => mtext = [] end).
  { unfold menu_step in Hm. destruct (p_menu pg1); injection Hm as Hm _; congruence. }
  pose proof (prepare_kept c gt gm pg sym idx) as Hk. rewrite Ep in Hk. injection Hk as _ Hout Herr.
  exists src, items, vals', body, mtext, vals, pg1. rewrite <- Herr.
  repeat (split; [assumption|]). split; [|split; [exact Ep|exact Hm']].
  destruct (p_sizer pg) as [z0|] eqn:Ez0.
  - destruct (prepare_ok Ez0 Ep) as [Hvals _].
    unfold page_out in Hout. rewrite Ez0 in Hout. destruct (p_sizer pg1) as [z'|]; [|discriminate].
    intros k H1 H2 H3 H4.
    rewrite (sizer_get_at_other Hv); [apply Hvals; assumption|]. apply H4. reflexivity.
  - rewrite page_prepare_steps, Ez0 in Ep. injection Ep as <- <-. rewrite Ez0 in Hv.
    intros k _ _ _ _. destruct (0 <? idx); [discriminate|]. injection Hv as <-. reflexivity.
Qed.

Lemma page_render_static c gt gm pg sym i out pg' z0 m :
  p_sizer pg = Some z0 -> p_menu pg = Some m ->
  m_sink m = false -> m_keep m = true -> m_sep m <> [] ->
  b_next_avail (m_browse m) = true -> b_prev_avail (m_browse m) = true ->
  page_render c gt gm pg sym i = (Ok out, pg') ->
  exists src items vals' body lines blines n,
    gt sym = Ok src
    /\ tpl_parse (tpl_source (p_err pg) (p_extra pg) src) = Some items
    /\ tpl_exec items vals' = Ok body
    /\ (forall k, k <> [] -> k <> menu_sink_key -> cache_reserved c k <> Ok 0 ->
          (forall z', p_sizer pg' = Some z' -> k <> z_sink z') ->
          alookup k vals' = alookup k (p_map pg))
    /\ menu_lines (title_for gm m) (m_sep m) (m_items m) = Some lines
    /\ (n = 0 -> i = 0 /\ blines = [])
    /\ (0 < n -> i < n /\
          menu_lines (title_for gm m) (m_sep m) (browse_items (m_browse m) (i + 1 <? n) (0 <? i)) = Some blines)
    /\ out = body ++ opt_menu (join_with [nl] (lines ++ blines)).
Proof.
  intros Hz0 Hm Hsink Hkeep Hsep Hn Hp Hr.
  destruct (page_render_shape c gt gm pg sym i out pg' Hr)
    as [src [items [vals' [body [mtext [vals [pg1 [Hg [Hparse [He [Ho [Hvals [Hprep Hmt]]]]]]]]]]]]].
  destruct (prepare_ok Hz0 Hprep) as [_ Hmenu].
  destruct (Hmenu m Hm Hsink) as [Hex [txt [m3 [n [Er0 Hm1]]]]].
  destruct (menu_render_st_static Er0) as (Hb & Hs & _ & Hrs & _).
  pose proof (menu_render_st_items Er0) as Hitems. rewrite Hkeep in Hitems.
  assert (Hex' : p_extra pg' = p_extra pg).
  { rewrite page_render_steps, Hprep in Hr. destruct (inner_snd Hr) as (mo & -> & _). exact Hex. }
  rewrite Hex' in Hparse. rewrite Hm1 in Hmt.
  (* the final render sees m with the page count n *)
  destruct (menu_render_st gm (menu_with_page_count m3 n) i) as [r m2] eqn:Er. cbn [fst] in Hmt. subst r.
  destruct (menu_render_inv Er) as [Hi [lines [blines [Hl [Hbl Ht]]]]];
    cbn [menu_with_page_count m_browse m_sep m_items m_page_count] in *; rewrite ?Hb, ?Hs; try assumption.
  rewrite (title_for_ext gm m (menu_with_page_count m3 n) Hrs), Hb, Hs, ?Hitems in *.
  exists src, items, vals', body, lines, blines, n. rewrite <- Ht.
  repeat (split; [assumption|]). split; [|split; [|exact Ho]].
  - intros ->. replace i with 0 in Hbl |- * by (clear - Hi; lia). split; [reflexivity|]. injection Hbl as <-. reflexivity.
  - intros Hpc. split; [clear - Hi Hpc; lia|exact Hbl].
Qed.

Lemma page_render_no_panic c gt gm pg sym idx :
  (forall k, is_panic (gt k) = false) -> (forall k, is_panic (gm k) = false) ->
  is_panic (fst (page_render c gt gm pg sym idx)) = false.
Proof.
  intros Hgt Hgm. rewrite page_render_steps.
  apply sbind_no_panic; [apply prepare_no_panic; assumption|intros pg1 vals _; apply inner_no_panic; assumption].
Qed.

Definition tmentions (k : bytes) (items : list tpl_item) : bool :=
  existsb (fun it => match it with TVar n => bytes_eqb n k | TLit _ => false end) items.

Lemma tpl_exec_agree items v1 v2 :
  (forall n, tmentions n items = true -> alookup n v1 = alookup n v2) -> tpl_exec items v1 = tpl_exec items v2.
Proof.
  induction items as [|[b|n] items IH]; intros H; [reflexivity| |].
  - cbn [tpl_exec]. rewrite IH; [reflexivity|]. intros n Hn. apply H. cbn [tmentions existsb]. exact Hn.
  - cbn [tpl_exec]. rewrite (H n) by (cbn [tmentions existsb]; rewrite bytes_eqb_refl; reflexivity).
    rewrite IH; [reflexivity|]. intros n' Hn. apply H. unfold tmentions in *. cbn [existsb]. rewrite Hn. apply orb_true_r.
Qed.

Lemma tpl_exec_app a b vals :
  tpl_exec (a ++ b) vals = obind (tpl_exec a vals) (fun x => obind (tpl_exec b vals) (fun y => Ok (x ++ y))).
Proof.
  induction a as [|[l|n] a IH]; cbn [app tpl_exec].
  - destruct (tpl_exec b vals); reflexivity.
  - rewrite IH. destruct (tpl_exec a vals), (tpl_exec b vals); cbn [obind]; rewrite ?app_assoc; reflexivity.
  - destruct (alookup n vals); [|reflexivity].
    rewrite IH. destruct (tpl_exec a vals), (tpl_exec b vals); cbn [obind]; rewrite ?app_assoc; reflexivity.
Qed.

Lemma tpl_exec_single a k b vals body :
  tpl_exec (a ++ TVar k :: b) vals = Ok body <->
  exists xa x xb, tpl_exec a vals = Ok xa /\ alookup k vals = Some x /\ tpl_exec b vals = Ok xb
                  /\ body = xa ++ x ++ xb.
Proof.
  rewrite tpl_exec_app. cbn [tpl_exec]. split.
  - destruct (tpl_exec a vals) as [xa| |], (alookup k vals) as [x|], (tpl_exec b vals) as [xb| |]; try discriminate.
    intros H. injection H as <-. exists xa, x, xb. repeat split.
  - intros [xa [x [xb [-> [-> [-> ->]]]]]]. reflexivity.
Qed.

Lemma get_at_loop_absent sink crs idx vals :
  ~ In sink (map fst vals) -> get_at_loop sink crs idx vals = Ok vals.
Proof.
  induction vals as [|[k v] vals IH]; intros H; [reflexivity|]. cbn [get_at_loop].
  destruct (bytes_eqb sink k) eqn:E.
  - apply bytes_eqb_eq in E. subst k. exfalso. apply H. left. reflexivity.
  - rewrite IH by (intros Hin; apply H; right; exact Hin). reflexivity.
Qed.

Lemma get_at_loop_ok {sink crs idx vals v p} :
  NoDup (map fst vals) -> alookup sink vals = Some v -> sink_page v crs idx = Ok p ->
  get_at_loop sink crs idx vals = Ok (aset sink p vals).
Proof.
  induction vals as [|[k0 v0] vals IH]; intros Hnd Hl Hp; [discriminate|].
  cbn [map fst] in Hnd. inversion Hnd as [|? ? Hnin Hnd']; subst.
  cbn [get_at_loop alookup aset] in *. destruct (bytes_eqb sink k0) eqn:E.
  - apply bytes_eqb_eq in E. subst k0. injection Hl as ->. rewrite Hp. cbn [obind].
    rewrite get_at_loop_absent by exact Hnin. reflexivity.
  - rewrite (IH Hnd' Hl Hp). reflexivity.
Qed.

Lemma get_at_loop_err {sink crs idx vals v e} :
  alookup sink vals = Some v -> sink_page v crs idx = Err e -> get_at_loop sink crs idx vals = Err e.
Proof.
  induction vals as [|[k0 v0] vals IH]; intros Hl Hp; [discriminate|].
  cbn [get_at_loop alookup] in *. destruct (bytes_eqb sink k0).
  - injection Hl as ->. rewrite Hp. reflexivity.
  - rewrite (IH Hl Hp). reflexivity.
Qed.

(* the value map as page_split hands it to the pre-render: the sink k is still there, with an empty value *)
Definition blank (k : bytes) (vals : alist) : alist :=
  map (fun kv => if bytes_eqb (fst kv) k then (fst kv, []) else kv) vals.

(* the guard of the page theorems of C02: distinct keys, each with a reserved size, which is 0 for k and for no other.
   A Prop, each clause decidable; it asks more than the `single_sink` announced at the head of model/RenderModel.v
   ("at most one key of the map has reserved size 0") *)
Definition single_sink (c : cache) (k : bytes) (vals : alist) : Prop :=
  NoDup (map fst vals)
  /\ (forall k', In k' (map fst vals) ->
        if bytes_eqb k' k then cache_reserved c k' = Ok 0
        else exists sz, cache_reserved c k' = Ok sz /\ sz <> 0).

Lemma blank_keys k vals : map fst (blank k vals) = map fst vals.
Proof.
  unfold blank. rewrite map_map. apply map_ext. intros [k' v']. cbn [fst].
  destruct (bytes_eqb k' k); reflexivity.
Qed.

Lemma alookup_blank_sink k vals v : alookup k vals = Some v -> alookup k (blank k vals) = Some [].
Proof.
  induction vals as [|[k' v'] vals IH]; [discriminate|]. cbn [alookup blank map fst].
  destruct (bytes_eqb k k') eqn:E.
  - intros _. apply bytes_eqb_eq in E. subst k'. rewrite bytes_eqb_refl. cbn [alookup]. rewrite bytes_eqb_refl. reflexivity.
  - intros H. rewrite bytes_eqb_neq by (intros ->; rewrite bytes_eqb_refl in E; discriminate).
    cbn [alookup]. rewrite E. apply IH. exact H.
Qed.

Lemma alookup_blank_other k vals k' : k' <> k -> alookup k' (blank k vals) = alookup k' vals.
Proof.
  intros Hne. induction vals as [|[k0 v0] vals IH]; [reflexivity|]. cbn [alookup blank map fst].
  destruct (bytes_eqb k0 k) eqn:E; cbn [alookup]; [|destruct (bytes_eqb k' k0); [reflexivity|exact IH]].
  apply bytes_eqb_eq in E. subst k0. rewrite (bytes_eqb_neq _ _ Hne). exact IH.
Qed.

Lemma split_loop_single c k vals : forall acc sink svs,
  single_sink c k vals ->
  page_split_loop c vals acc sink svs
  = Ok (acc ++ blank k vals,
        match alookup k vals with Some _ => k | None => sink end,
        match alookup k vals with Some v => split_on nl v | None => svs end).
Proof.
  induction vals as [|[k0 v0] vals IH]; intros acc sink svs [Hnd Hres].
  - cbn. rewrite app_nil_r. reflexivity.
  - cbn [map fst] in Hnd. inversion Hnd as [|? ? Hnin Hnd']; subst.
    assert (Hs' : single_sink c k vals).
    { split; [exact Hnd'|]. intros k' Hin. apply Hres. right. exact Hin. }
    pose proof (Hres k0 (or_introl eq_refl)) as H0.
    cbn [page_split_loop alookup blank map fst].
    destruct (bytes_eqb k0 k) eqn:E.
    + apply bytes_eqb_eq in E. subst k0. rewrite H0, bytes_eqb_refl. cbn [N.eqb].
      rewrite IH by exact Hs'.
      rewrite (proj2 (alookup_none k vals) Hnin). rewrite <- app_assoc. reflexivity.
    + destruct H0 as [sz [Hr Hsz]]. rewrite Hr.
      destruct (sz =? 0) eqn:Ez; [apply N.eqb_eq in Ez; contradiction|].
      rewrite (bytes_eqb_neq k k0) by (intros ->; rewrite bytes_eqb_refl in E; discriminate).
      rewrite IH by exact Hs'. rewrite <- app_assoc. reflexivity.
Qed.

Lemma page_split_single c k vals v :
  k <> [] -> single_sink c k vals -> alookup k vals = Some v ->
  page_split c vals = Ok (blank k vals, k, split_on nl v).
Proof.
  intros Hk Hs Hl. unfold page_split. rewrite (split_loop_single c k vals [] [] [] Hs). rewrite Hl.
  cbn [app]. destruct k; [congruence|reflexivity].
Qed.

Lemma len_opt_menu_join ls :
  Forall (fun l => l <> []) ls -> len (opt_menu (join_with [nl] ls)) = rows_size ls.
Proof.
  intros H. destruct ls as [|x l]; [reflexivity|].
  inversion H as [|? ? Hx _]; subst.
  pose proof (len_join_nl (x :: l) ltac:(discriminate)) as Hl.
  assert (Hpos : 0 < len (join_with [nl] (x :: l))).
  { rewrite join_cons_tail, len_app. destruct x; [congruence|]. rewrite len_cons. lia. }
  unfold opt_menu. destruct (0 <? len (join_with [nl] (x :: l))) eqn:E; [|lia].
  rewrite len_cons. lia.
Qed.

Lemma sizer_get_at_sink z vals idx :
  z_sink z <> [] -> sizer_get_at z vals idx = get_at_loop (z_sink z) (z_crsrs z) idx vals.
Proof. intros H. unfold sizer_get_at. destruct (z_sink z); [congruence|reflexivity]. Qed.

Lemma sizer_check_ok z s :
  0 < z_out z -> z_out z < 4294967296 -> len s <= z_out z -> sizer_check z s = (z_out z - len s, true).
Proof.
  intros H0 H32 Hle. unfold sizer_check. rewrite w32_small by lia.
  destruct (0 <? z_out z) eqn:E1; [|lia]. destruct (z_out z <? len s) eqn:E2; [lia|reflexivity].
Qed.

Lemma menu_sizes_budget {m b vs R} :
  m_browse m = b -> b_next_avail b = true -> b_prev_avail b = true ->
  budget_ok vs R (browse_sizes b) = true -> menu_sizes m = Ok (browse_sizes b).
Proof.
  intros <- Hn Hp Hb. unfold budget_ok, browse_sizes, ms_next, ms_prev in Hb. apply andb_true_iff in Hb as [H1 H2].
  apply menu_sizes_closed; try assumption; lia.
Qed.

Lemma browse_lines_nonempty b sep nx pv : sep <> [] -> Forall (fun l => l <> []) (browse_lines b sep nx pv).
Proof.
  intros Hsep. apply (menu_lines_nonempty (tf := fun t => Ok t) (items := browse_items b nx pv) Hsep).
  apply menu_lines_browse; reflexivity.
Qed.

Lemma nav_browse_sizes b i n :
  nav (browse_sizes b) i n = rows_size (browse_lines b default_sep (i + 1 <? n) (0 <? i)).
Proof. rewrite rows_size_browse_lines. reflexivity. Qed.

Lemma inner_sink_err gt gm pg sym vals i z k r src e :
  p_sizer pg = Some z -> z_sink z = k -> k <> [] -> alookup k vals = Some r -> gt sym = Ok src ->
  sink_page r (z_crsrs z) i = Err e -> page_render_inner gt gm pg sym vals i = (Err e, pg).
Proof.
  intros Hz <- Hk Hl Hgt Hp. unfold page_render_inner, render_template. rewrite Hgt. cbn [obind].
  rewrite Hz, sizer_get_at_sink by exact Hk. rewrite (get_at_loop_err Hl Hp). reflexivity.
Qed.

(* a menu as the VM configures it: both browse entries, the separator ":", browse labels that resolve to
   themselves (the guard excluding K-C02-labelsize) *)
Record vm_menu (gm : bytes -> res bytes) (m : menu) : Prop := {
  vm_next : b_next_avail (m_browse m) = true;
  vm_prev : b_prev_avail (m_browse m) = true;
  vm_sep : m_sep m = default_sep;
  vm_next_title : title_for gm m (b_next_title (m_browse m)) = Ok (b_next_title (m_browse m));
  vm_prev_title : title_for gm m (b_prev_title (m_browse m)) = Ok (b_prev_title (m_browse m)) }.

Lemma vm_menu_static gm m m' :
  m_browse m' = m_browse m -> m_sep m' = m_sep m -> m_has_rs m' = m_has_rs m -> vm_menu gm m -> vm_menu gm m'.
Proof. intros Hb Hs Hr [H1 H2 H3 H4 H5]. constructor; rewrite ?(title_for_ext gm m m' Hr), ?Hb, ?Hs; assumption. Qed.

(* the template of sym is a ++ {{.k}} ++ b, and a, b instantiate to xa, xb under every map that agrees with nsv off k *)
Definition around (gt : bytes -> res bytes) (err : option bytes) (extra sym k : bytes) (nsv : alist) (xa xb : bytes) : Prop :=
  exists src a b,
    gt sym = Ok src /\ tpl_parse (tpl_source err extra src) = Some (a ++ TVar k :: b)
    /\ forall w, (forall nm, nm <> k -> alookup nm w = alookup nm nsv) -> tpl_exec a w = Ok xa /\ tpl_exec b w = Ok xb.

Lemma around_agree gt err extra sym k nsv nsv' xa xb :
  (forall nm, nm <> k -> alookup nm nsv' = alookup nm nsv) ->
  around gt err extra sym k nsv xa xb -> around gt err extra sym k nsv' xa xb.
Proof.
  intros Hag (src & a & b & Hgt & Hparse & H). exists src, a, b. split; [exact Hgt|]. split; [exact Hparse|].
  intros w Hw. apply H. intros nm Hnm. rewrite (Hw nm Hnm). apply Hag, Hnm.
Qed.

Lemma inner_render_ok gt gm pg sym vals nsv i z m r X xa xb lines :
  p_sizer pg = Some z -> z_sink z <> [] -> 0 < z_out z < 4294967296 ->
  p_menu pg = Some m -> vm_menu gm m -> i < N.max 1 (m_page_count m) ->
  menu_lines (title_for gm m) default_sep (m_items m) = Some lines ->
  around gt (p_err pg) (p_extra pg) sym (z_sink z) nsv xa xb ->
  NoDup (map fst vals) -> (forall nm, nm <> z_sink z -> alookup nm vals = alookup nm nsv) ->
  alookup (z_sink z) vals = Some r -> sink_page r (z_crsrs z) i = Ok X ->
  len xa + len X + len xb + rows_size lines + nav (browse_sizes (m_browse m)) i (m_page_count m) <= z_out z ->
  exists m',
    menu_render_st gm m i
      = (Ok (join_with [nl] (lines ++ browse_lines (m_browse m) default_sep (i + 1 <? m_page_count m) (0 <? i))), m')
    /\ page_render_inner gt gm pg sym vals i
      = (Ok ((xa ++ X ++ xb)
             ++ opt_menu (join_with [nl] (lines ++ browse_lines (m_browse m) default_sep (i + 1 <? m_page_count m) (0 <? i)))),
         page_set_menu pg (Some m')).
Proof.
  intros Hz Hk [Hout Hout32] Hm [Hna Hpa Hsep Hnt Hpt] Hi Hlines (src & a & b & Hgt & Hparse & Hexab) Hnd Hag Hlk Hsp Hfit.
  assert (Hsepne : m_sep m <> []) by (rewrite Hsep; discriminate).
  rewrite <- Hsep in Hlines. rewrite nav_browse_sizes in Hfit.
  destruct (menu_render_ok gm m i lines Hna Hpa Hi Hsepne Hlines Hnt Hpt) as [m' Hr]. rewrite Hsep in Hr.
  set (bl := browse_lines (m_browse m) default_sep (i + 1 <? m_page_count m) (0 <? i)) in *.
  exists m'. split; [exact Hr|].
  destruct (Hexab (aset (z_sink z) X vals)) as [Hxa Hxb].
  { intros nm Hnm. rewrite alookup_aset_other by exact Hnm. apply Hag, Hnm. }
  rewrite inner_steps. unfold render_template. rewrite Hgt. cbn [obind].
  rewrite Hz, sizer_get_at_sink, (get_at_loop_ok Hnd Hlk Hsp), Hparse by exact Hk. cbn [obind].
  rewrite (proj2 (tpl_exec_single a _ b _ (xa ++ X ++ xb))) by (exists xa, X, xb; rewrite alookup_aset_same; auto).
  cbn [sbind]. unfold menu_step. rewrite Hm, Hr. cbn [sbind fst snd]. unfold check_step. cbn [p_sizer page_set_menu].
  rewrite Hz, sizer_check_ok; [reflexivity|exact Hout|exact Hout32|].
  rewrite !len_app, len_opt_menu_join, rows_size_app; [lia|].
  apply Forall_app. split; [apply (menu_lines_nonempty Hsepne Hlines)|apply browse_lines_nonempty; discriminate].
Qed.

(* The second stage of prepare and the final render.  pg1 is a page whose sizer names a sink, blank in nsv, and
   whose menu shows `lines` and no browse entry at index 0; the rows svs are joinSink's input. *)
Lemma sink_render gt gm sym aliased pg1 nsv svs z1 m1 xa xb lines R r n cs pages :
  p_sizer pg1 = Some z1 -> z_crsrs z1 = [] -> z_sink z1 <> [] -> 0 < z_out z1 < 4294967296 ->
  p_menu pg1 = Some m1 -> vm_menu gm m1 -> m_page_count m1 <= 1 -> m_keep m1 = true \/ m_items m1 = [] ->
  menu_lines (title_for gm m1) default_sep (m_items m1) = Some lines ->
  around gt (p_err pg1) (p_extra pg1) sym (z_sink z1) nsv xa xb -> NoDup (map fst nsv) -> alookup (z_sink z1) nsv = Some [] ->
  len xa + len xb + rows_size lines + R = z_out z1 ->
  budget_ok svs R (browse_sizes (m_browse m1)) = true ->
  sink_pages svs R (browse_sizes (m_browse m1)) r n cs pages ->
  exists vals pg6,
    prep_join gt gm sym aliased pg1 nsv (z_sink z1) svs = (Ok vals, pg6)
    /\ (forall i p, nth_error pages i = Some p ->
          exists pg', page_render_inner gt gm pg6 sym vals (N.of_nat i)
            = (Ok ((xa ++ join_with [nl] p ++ xb)
                   ++ opt_menu (join_with [nl] (lines ++ browse_lines (m_browse m1) default_sep
                                                           (N.of_nat i + 1 <? n) (0 <? N.of_nat i)))), pg'))
    /\ (forall i, n <= i -> page_render_inner gt gm pg6 sym vals i = (Err EGen, pg6)).
Proof.
  intros Hz1 Hcrs Hk Hout Hm1 Hvm Hpc Hkeep Hlines Har Hnd Hlk Hfit Hbud (Hj & _ & Hlp & _ & Hpg & Hpast).
  pose proof Hvm as [Hna Hpa Hsep _ _]. pose proof Har as (src & _ & _ & Hgt & _). set (k := z_sink z1) in *. set (br := m_browse m1) in *.
  set (z2 := sizer_add_cursor z1 0).
  assert (Hcrs2 : z_crsrs z2 = [0]) by (unfold z2; cbn [z_crsrs sizer_add_cursor]; rewrite Hcrs; reflexivity).
  assert (Hbl0 : browse_lines br default_sep (0 + 1 <? m_page_count m1) (0 <? 0) = []).
  { replace (0 + 1 <? m_page_count m1) with false by (clear - Hpc; lia). reflexivity. }
  (* the pre-render: the sink is blank, the menu shows its lines *)
  destruct (inner_render_ok gt gm (page_set_sizer pg1 (Some z2)) sym nsv nsv 0 z2 m1 [] [] xa xb lines)
    as [m3 [Hr3 Hpre]]; try assumption; try reflexivity.
  { clear. lia. }
  { rewrite Hcrs2. reflexivity. }
  { rewrite nav_browse_sizes. fold br. rewrite Hbl0. change (z_out z2) with (z_out z1). change (len (@nil N)) with 0.
    change (rows_size []) with 0. clear - Hfit. lia. }
  fold br in Hr3, Hpre. rewrite Hbl0, app_nil_r in Hr3, Hpre.
  destruct (menu_render_st_static Hr3) as (Hb3 & Hs3 & _ & Hrs3 & _).
  assert (Hit3 : m_items m3 = m_items m1).
  { rewrite (menu_render_st_items Hr3). destruct Hkeep as [-> | ->]; [reflexivity|destruct (m_keep m1); reflexivity]. }
  assert (Hne : Forall (fun l : bytes => l <> []) lines) by (eapply menu_lines_nonempty; [|exact Hlines]; discriminate).
  assert (Hchk : sizer_check z2 ((xa ++ [] ++ xb) ++ opt_menu (join_with [nl] lines)) = (R, true)).
  { rewrite sizer_check_ok; try apply Hout; rewrite !len_app, len_opt_menu_join by exact Hne;
      change (z_out z2) with (z_out z1); change (len (@nil N)) with 0; [f_equal|]; clear - Hfit; lia. }
  assert (Hprep : exists pg6,
            prep_join gt gm sym aliased pg1 nsv k svs = (Ok (aset k r nsv), pg6)
            /\ p_sizer pg6 = Some (sizer_set_crsrs z2 cs) /\ p_menu pg6 = Some (menu_with_page_count m3 n)
            /\ p_err pg6 = p_err pg1 /\ p_extra pg6 = p_extra pg1).
  { unfold prep_join, pre_render. rewrite Hz1. cbn [option_map]. fold z2. rewrite Hpre.
    unfold sbind at 1, place_sink, prep_write. cbn [p_sizer p_menu page_set_menu page_set_sizer]. rewrite Hchk. cbn [negb].
    rewrite (menu_sizes_budget (b := br) Hb3 Hna Hpa Hbud). cbn [sbind]. rewrite Hcrs2, Hj.
    destruct aliased; eexists; repeat split. }
  destruct Hprep as (pg6 & Hprep & Hz6 & Hm6 & He6 & Hx6). exists (aset k r nsv), pg6. split; [exact Hprep|]. split.
  - intros i p Hnth. destruct (Hpg i p Hnth) as [Hsp Hfits].
    destruct (inner_render_ok gt gm pg6 sym (aset k r nsv) nsv (N.of_nat i) (sizer_set_crsrs z2 cs)
                (menu_with_page_count m3 n) r (join_with [nl] p) xa xb lines) as [m7 [_ Hfin]];
      try assumption; try reflexivity.
    + apply (vm_menu_static gm m1); assumption.
    + cbn [m_page_count menu_with_page_count]. apply nth_error_lt_len in Hnth. clear - Hnth Hlp. lia.
    + rewrite (title_for_ext gm m1 (menu_with_page_count m3 n) Hrs3). cbn [m_items menu_with_page_count]. rewrite Hit3. exact Hlines.
    + rewrite He6, Hx6. exact Har.
    + apply NoDup_aset. exact Hnd.
    + intros nm Hnm. apply alookup_aset_other. exact Hnm.
    + apply alookup_aset_same.
    + cbn [m_page_count m_browse menu_with_page_count]. rewrite Hb3. fold br.
      change (z_out (sizer_set_crsrs z2 cs)) with (z_out z1). clear - Hfits Hfit. lia.
    + cbn [m_page_count m_browse menu_with_page_count] in Hfin. rewrite Hb3 in Hfin. eexists. exact Hfin.
  - intros i Hi. exact (inner_sink_err gt gm pg6 sym _ i _ k r _ EGen Hz6 eq_refl Hk (alookup_aset_same _ _ _) Hgt (Hpast i Hi)).
Qed.

(* xa, xb and the menu lines are given; the pre-render they make up is computed *)
Lemma page_render_sink c gt gm pg sym z0 m v xa xb lines R r n cs pages :
  p_sizer pg = Some z0 -> z_crsrs z0 = [] -> z_sink z0 <> [] -> 0 < z_out z0 < 4294967296 ->
  p_menu pg = Some m -> m_sink m = false -> m_keep m = true -> m_page_count m = 0 -> vm_menu gm m ->
  single_sink c (z_sink z0) (p_map pg) -> alookup (z_sink z0) (p_map pg) = Some v ->
  around gt (p_err pg) (p_extra pg) sym (z_sink z0) (p_map pg) xa xb ->
  menu_lines (title_for gm m) default_sep (m_items m) = Some lines ->
  len xa + len xb + rows_size lines + R = z_out z0 ->
  budget_ok (split_on nl v) R (browse_sizes (m_browse m)) = true ->
  sink_pages (split_on nl v) R (browse_sizes (m_browse m)) r n cs pages ->
  (forall i p, nth_error pages i = Some p ->
     exists pg', page_render c gt gm pg sym (N.of_nat i)
       = (Ok ((xa ++ join_with [nl] p ++ xb)
              ++ opt_menu (join_with [nl] (lines ++ browse_lines (m_browse m) default_sep
                                                      (N.of_nat i + 1 <? n) (0 <? N.of_nat i)))), pg'))
  /\ (forall i, n <= i -> exists pg', page_render c gt gm pg sym i = (Err EGen, pg')).
Proof.
  intros Hz0 Hcrs Hk Hout Hm Hsink Hkeep Hpc Hvm Hsingle Hlk Har Hlines Hfit Hbud Hsp.
  set (k := z_sink z0) in *.
  destruct (sink_render gt gm sym false pg (blank k (p_map pg)) (split_on nl v) z0 m xa xb lines R r n cs pages)
    as (vals & pg6 & Hprep & Hpages & Hpast); try assumption.
  - rewrite Hpc. discriminate.
  - left. exact Hkeep.
  - apply (around_agree _ _ _ _ _ (p_map pg)); [intros nm; apply alookup_blank_other|exact Har].
  - rewrite blank_keys. apply Hsingle.
  - eapply alookup_blank_sink. exact Hlk.
  - assert (Hpr : forall i, page_render c gt gm pg sym i = page_render_inner gt gm pg6 sym vals i).
    { intros i. rewrite page_render_steps, page_prepare_steps, Hz0, (page_split_single c k _ v Hk Hsingle Hlk). cbn [sbind].
      unfold prep_menu_sink. rewrite Hm, Hsink. cbn [sbind].
      replace (match k with [] => true | _ => false end) with false by (destruct k; congruence).
      fold k in Hprep. rewrite Hprep. reflexivity. }
    split; [intros i p Hnth; rewrite Hpr; exact (Hpages i p Hnth)|intros i Hi; rewrite Hpr, (Hpast i Hi); eexists; reflexivity].
Qed.

Lemma page_render_exact c gt gm pg sym z0 m k v src a b s pg3 :
  (* the page as the VM builds it: sizer attached before the Map, fresh cursors, ordinary menu *)
  p_sizer pg = Some z0 -> z_crsrs z0 = [] -> z_sink z0 = k -> 0 < z_out z0 -> z_out z0 < 4294967296 ->
  p_menu pg = Some m -> m_sink m = false -> m_keep m = true -> m_page_count m = 0 ->
  b_next_avail (m_browse m) = true -> b_prev_avail (m_browse m) = true ->
  (* guard excluding K-C02-labelsize: default separator, browse labels resolve to themselves *)
  m_sep m = default_sep ->
  title_for gm m (b_next_title (m_browse m)) = Ok (b_next_title (m_browse m)) ->
  title_for gm m (b_prev_title (m_browse m)) = Ok (b_prev_title (m_browse m)) ->
  k <> [] -> single_sink c k (p_map pg) -> alookup k (p_map pg) = Some v ->
  gt sym = Ok src -> tpl_parse (tpl_source (p_err pg) (p_extra pg) src) = Some (a ++ TVar k :: b) ->
  tmentions k a = false -> tmentions k b = false ->
  (* the pre-render without the sink, from which the budget is computed *)
  page_render_inner gt gm (page_set_sizer pg (Some (sizer_add_cursor z0 0))) sym (blank k (p_map pg)) 0 = (Ok s, pg3) ->
  len s < 4294967296 ->
  rows_ok (split_on nl v) = true -> rows_size (split_on nl v) < 4294967296 -> len (split_on nl v) < 65536 ->
  budget_ok (split_on nl v) (z_out z0 - len s) (browse_sizes (m_browse m)) = true ->
  exists n r cs (pages : list (list bytes)) xa xb lines,
    join_sink (split_on nl v) (z_out z0 - len s) (browse_sizes (m_browse m)) [0] = (Ok (r, n), cs)
    /\ List.concat pages = split_on nl v /\ len pages = n /\ 0 < n
    (* xa, xb: the template text around the sink, instantiated with the FULL mapped values *)
    /\ (forall w, (forall nm, nm <> k -> alookup nm w = alookup nm (p_map pg)) ->
          tpl_exec a w = Ok xa /\ tpl_exec b w = Ok xb)
    /\ menu_lines (title_for gm m) (m_sep m) (m_items m) = Some lines
    (* page i is exactly: text, the WHOLE rows of block i, text, the complete menu with its browse lines *)
    /\ (forall i p, nth_error pages i = Some p ->
          exists pg', page_render c gt gm pg sym (N.of_nat i)
            = (Ok ((xa ++ join_with [nl] p ++ xb)
                   ++ opt_menu (join_with [nl] (lines ++ browse_lines (m_browse m) default_sep
                                                           (N.of_nat i + 1 <? n) (0 <? N.of_nat i)))), pg'))
    /\ (forall i, n <= i -> exists e, fst (page_render c gt gm pg sym i) = Err e).
Proof.
  intros Hz0 Hcrs <- Hout Hout32 Hm Hsink Hkeep Hpc Hna Hpa Hsep Hnt Hpt Hk Hsingle Hlk Hgt Hparse Hma Hmb
         Hpre Hslen Hrok Hrsz Hrlen Hbud.
  set (k := z_sink z0) in *. set (nsv := blank k (p_map pg)) in *. set (z2 := sizer_add_cursor z0 0) in *.
  assert (Hsepne : m_sep m <> []) by (rewrite Hsep; discriminate).
  (* the pre-render read back: the template around an empty sink, then the unpaged menu with its lines *)
  pose proof (inner_fits32 (z := z_out z0) Hpre eq_refl Hout) as Hfit.
  rewrite w32_small in Hfit by exact Hslen.
  destruct (inner_ok Hpre) as (_ & body0 & mtext & Ht0 & Hm0 & Hs).
  destruct (render_template_ok Ht0) as (src' & items & vals0 & Hg & Hparse0 & Hv0 & He0).
  cbn [p_err p_extra p_sizer page_set_sizer] in Hparse0, Hv0.
  rewrite Hgt in Hg. injection Hg as <-. rewrite Hparse in Hparse0. injection Hparse0 as <-.
  destruct (menu_step_ok Hm0 Hm) as (m3 & Er & _).
  destruct (menu_render_inv Er Hna Hpa Hsepne) as [_ [lines [bl [Hlines [Hbl ->]]]]].
  rewrite Hpc in Hbl. injection Hbl as <-. rewrite app_nil_r in *. rewrite Hsep in Hlines.
  rewrite sizer_get_at_sink in Hv0 by exact Hk. change (z_sink z2) with k in Hv0.
  rewrite (@get_at_loop_ok k (z_crsrs z2) 0 nsv [] []) in Hv0;
    [|unfold nsv; rewrite blank_keys; apply Hsingle|eapply alookup_blank_sink; exact Hlk
     |unfold z2; cbn [z_crsrs sizer_add_cursor]; rewrite Hcrs; reflexivity].
  injection Hv0 as <-.
  apply tpl_exec_single in He0 as (xa & x0 & xb & Hxa & Hx0 & Hxb & ->).
  rewrite alookup_aset_same in Hx0. injection Hx0 as <-.
  assert (Hleft : len xa + len xb + rows_size lines + (z_out z0 - len s) = z_out z0).
  { revert Hfit. rewrite Hs, !len_app, len_opt_menu_join by (eapply menu_lines_nonempty; [|exact Hlines]; discriminate).
    change (len (@nil N)) with 0. clear. lia. }
  assert (Hxab : forall w, (forall nm, nm <> k -> alookup nm w = alookup nm (p_map pg)) ->
            tpl_exec a w = Ok xa /\ tpl_exec b w = Ok xb).
  { intros w Hw.
    assert (Hagree : forall items', tmentions k items' = false -> tpl_exec items' w = tpl_exec items' (aset k [] nsv)).
    { intros items' Hmi. apply tpl_exec_agree. intros nm Hnm.
      assert (Hne : nm <> k) by (intros ->; congruence).
      rewrite (Hw nm Hne), alookup_aset_other by exact Hne. symmetry. apply alookup_blank_other. exact Hne. }
    rewrite (Hagree a Hma), (Hagree b Hmb). split; assumption. }
  destruct (join_sink_budget _ _ _ (split_on_nonempty nl v) Hrok Hrsz Hrlen Hbud) as (r & n & cs & pages & Hsp).
  destruct (page_render_sink c gt gm pg sym z0 m v xa xb lines (z_out z0 - len s) r n cs pages Hz0 Hcrs Hk (conj Hout Hout32) Hm Hsink Hkeep Hpc)
    as [Hok Hpast]; try assumption.
  { constructor; assumption. }
  { exists src, a, b. auto. }
  destruct Hsp as (Hj & Hcat & Hlp & [Hn _] & _).
  exists n, r, cs, pages, xa, xb, lines. rewrite Hsep. repeat (split; [assumption|]).
  intros i Hi. destruct (Hpast i Hi) as [pg' E]. rewrite E. exists EGen. reflexivity.
Qed.

Definition no_sink (c : cache) (vals : alist) : Prop :=
  forall k', In k' (map fst vals) -> exists sz, cache_reserved c k' = Ok sz /\ sz <> 0.

Lemma split_loop_nosink c vals : forall acc sink svs,
  no_sink c vals -> page_split_loop c vals acc sink svs = Ok (acc ++ vals, sink, svs).
Proof.
  induction vals as [|[k0 v0] vals IH]; intros acc sink svs H.
  - cbn. rewrite app_nil_r. reflexivity.
  - cbn [page_split_loop]. destruct (H k0 (or_introl eq_refl)) as [sz [Hr Hsz]]. rewrite Hr.
    destruct (sz =? 0) eqn:E; [apply N.eqb_eq in E; contradiction|].
    rewrite IH by (intros k' Hin; apply H; right; exact Hin). rewrite <- app_assoc. reflexivity.
Qed.

Lemma page_split_nosink c vals : no_sink c vals -> page_split c vals = Ok (vals, [], []).
Proof. intros H. unfold page_split. rewrite split_loop_nosink by exact H. reflexivity. Qed.

Lemma page_offered_renders_msink c gt gm pg sym z0 m src a b xa xb lines :
  (* the page as the VM builds it after MSINK: fresh cursors, the menu is the sink *)
  p_sizer pg = Some z0 -> z_crsrs z0 = [] -> 0 < z_out z0 -> z_out z0 < 4294967296 ->
  p_menu pg = Some m -> m_sink m = true -> m_page_count m <= 1 ->
  b_next_avail (m_browse m) = true -> b_prev_avail (m_browse m) = true ->
  (* guard excluding K-C02-labelsize *)
  m_sep m = default_sep ->
  title_for gm m (b_next_title (m_browse m)) = Ok (b_next_title (m_browse m)) ->
  title_for gm m (b_prev_title (m_browse m)) = Ok (b_prev_title (m_browse m)) ->
  (* no symbol sink; the menu items resolve to `lines`, which are the sink rows *)
  NoDup (map fst (p_map pg)) -> no_sink c (p_map pg) ->
  menu_lines (title_for gm m) (m_sep m) (m_items m) = Some lines -> lines <> [] ->
  (* the template with the extra "\n{{._menu}}" that prepare appends *)
  gt sym = Ok src ->
  tpl_parse (tpl_source (p_err pg) menu_sink_extra src) = Some (a ++ TVar menu_sink_key :: b) ->
  (forall w, (forall nm, nm <> menu_sink_key -> alookup nm w = alookup nm (p_map pg)) ->
     tpl_exec a w = Ok xa /\ tpl_exec b w = Ok xb) ->
  len xa + len xb <= z_out z0 ->
  rows_ok lines = true -> rows_size lines < 4294967296 -> len lines < 65536 ->
  budget_ok lines (z_out z0 - (len xa + len xb)) (browse_sizes (m_browse m)) = true ->
  exists n r cs (pages : list (list bytes)),
    join_sink lines (z_out z0 - (len xa + len xb)) (browse_sizes (m_browse m)) [0] = (Ok (r, n), cs)
    /\ List.concat pages = lines /\ len pages = n /\ 0 < n
    (* page i: the template text, the WHOLE menu lines of block i, and only the browse lines as menu *)
    /\ (forall i p, nth_error pages i = Some p ->
          exists pg', page_render c gt gm pg sym (N.of_nat i)
            = (Ok ((xa ++ join_with [nl] p ++ xb)
                   ++ opt_menu (join_with [nl] (browse_lines (m_browse m) default_sep
                                                  (N.of_nat i + 1 <? n) (0 <? N.of_nat i)))), pg'))
    /\ (forall i, i < n -> exists out pg', page_render c gt gm pg sym i = (Ok out, pg'))
    /\ (forall i, n <= i -> exists e, fst (page_render c gt gm pg sym i) = Err e).
Proof.
  intros Hz0 Hcrs Hout Hout32 Hm Hsink Hpc Hna Hpa Hsep Hnt Hpt Hnd Hnos Hlines Hlne Hgt Hparse Hexab Hpref
         Hrok Hrsz Hrlen Hbud.
  assert (Hsepne : m_sep m <> []) by (rewrite Hsep; discriminate).
  (* prepare renders the menu, one page and not kept, and takes its text as the sink *)
  set (m1 := menu_with_pages (menu_with_dispose m)).
  assert (Hm1 : m_page_count m1 = 1 /\ m_browse m1 = m_browse m /\ m_sep m1 = m_sep m /\ m_items m1 = m_items m
                /\ m_has_rs m1 = m_has_rs m /\ m_keep m1 = false).
  { unfold m1, menu_with_pages. cbn [m_page_count menu_with_dispose].
    destruct (m_page_count m =? 0) eqn:E; cbn; repeat split; clear - E Hpc; lia. }
  destruct Hm1 as (Hpc1 & Hb1 & Hs1 & Hi1 & Hrs1 & Hk1).
  pose proof (title_for_ext gm m m1 Hrs1) as Htf1.
  destruct (menu_render_ok gm m1 0 lines) as [m2 Hr0]; rewrite ?Htf1, ?Hb1, ?Hs1, ?Hi1, ?Hpc1; try assumption; [reflexivity|].
  rewrite Hpc1 in Hr0. change (browse_lines _ _ (0 + 1 <? 1) (0 <? 0)) with (@nil bytes) in Hr0. rewrite app_nil_r in Hr0.
  destruct (menu_render_st_static Hr0) as (Hb2 & Hs2 & _ & Hrs2 & _ & Hpc2).
  pose proof (menu_render_st_items Hr0) as Hi2.
  rewrite Hb1 in Hb2. rewrite Hs1 in Hs2. rewrite Hrs1 in Hrs2. rewrite Hpc1 in Hpc2. rewrite Hk1 in Hi2.
  destruct (join_sink_budget lines _ _ Hlne Hrok Hrsz Hrlen Hbud) as (r & n & cs & pages & Hsp).
  (* the second stage and the final render: "_menu" is the sink, blank in the pre-render, and the menu has no lines left *)
  set (nsv := aset menu_sink_key [] (p_map pg)).
  set (z1 := sizer_set_sink z0 menu_sink_key).
  set (pg1 := page_set_map (page_set_sizer (page_set_extra (page_set_menu pg (Some m2)) menu_sink_extra) (Some z1)) nsv).
  destruct (sink_render gt gm sym true pg1 nsv (split_on nl (join_with [nl] lines)) z1 m2 xa xb []
              (z_out z0 - (len xa + len xb)) r n cs pages) as (vals & pg6 & Hprep & Hok & Hpast);
    rewrite ?Hb2, ?Hi2, ?Hpc2, ?split_on_join by assumption; try assumption; try reflexivity.
  { discriminate. }
  { split; assumption. }
  { apply (vm_menu_static gm m); [assumption..|constructor; assumption]. }
  { right. reflexivity. }
  { apply (around_agree _ _ _ _ _ (p_map pg)); [intros nm; apply alookup_aset_other|exists src, a, b; auto]. }
  { apply NoDup_aset. exact Hnd. }
  { apply alookup_aset_same. }
  { change (z_out z1) with (z_out z0). change (rows_size []) with 0. clear - Hpref. lia. }
  rewrite Hb2 in Hok.
  assert (Hpr : forall i, page_render c gt gm pg sym i = page_render_inner gt gm pg6 sym vals i).
  { intros i. rewrite page_render_steps, page_prepare_steps, Hz0, (page_split_nosink c _ Hnos). cbn [sbind].
    unfold prep_menu_sink, prep_write. rewrite Hm, Hsink. cbn [negb]. fold m1. rewrite Hr0.
    cbn [p_sizer page_set_extra page_set_menu]. rewrite Hz0. cbn [option_map]. fold z1 nsv pg1. cbn [sbind].
    change menu_sink_key with (z_sink z1). rewrite Hprep. reflexivity. }
  destruct Hsp as (Hj & Hcat & Hlp & [Hn _] & _).
  exists n, r, cs, pages. repeat (split; [assumption|]). split; [|split].
  - intros i p Enth. rewrite Hpr. exact (Hok i p Enth).
  - intros i Hi. destruct (nth_error_below pages i) as [p En]; [rewrite Hlp; exact Hi|].
    destruct (Hok _ _ En) as [pg' Hp]. rewrite N2Nat.id, <- Hpr in Hp. eexists. exists pg'. exact Hp.
  - intros i Hi. rewrite Hpr, (Hpast i Hi). exists EGen. reflexivity.
Qed.

(* The witness of K-C02-budget through Page.Render (replayed on the real code): the rows "a", "cccc" under the template
   "T\n{{.foo}}" at output size 13.  For props/C02.C02_offered_page_renders_refuted_budget_page and, with size 7 as well,
   props/C01page.C01page_nonvacuous. *)
Definition wit_budget_cache : cache :=
  match cache_add (new_cache 0) (s2b "foo") (s2b "a" ++ [nl] ++ s2b "cccc") 0 with Ok c => c | _ => new_cache 0 end.
Definition wit_budget_tpl (k : bytes) : res bytes :=
  if bytes_eqb k (s2b "node") then Ok (s2b "T" ++ [nl] ++ s2b "{{.foo}}") else Err EGen.
Definition wit_budget_page_at (size : N) : page :=
  match page_map wit_budget_cache
          (page_with_sizer (page_with_menu (page_reset new_page)
             (menu_with_browse (new_menu default_sep)
                (mkBrowse true (s2b "11") (s2b "next") true (s2b "22") (s2b "back")))) (new_sizer size))
          (s2b "foo") with
  | Ok p => p | _ => new_page end.
Definition wit_budget_page : page := wit_budget_page_at 13.

(* six rows that make four pages at output size 32, for props/C02.C02_nonvacuous (rendered with wit_budget_tpl) *)
Definition wit_rows6 : list bytes := map s2b ["aaaa"; "bbbb"; "cccc"; "dddd"; "eeee"; "ffff"]%string.
Definition wit_pages_cache : cache :=
  match cache_add (new_cache 0) (s2b "foo") (join_with [nl] wit_rows6) 0 with Ok c => c | _ => new_cache 0 end.
Definition wit_pages_page : page :=
  match page_map wit_pages_cache
          (page_with_sizer (page_with_menu (page_reset new_page)
             (menu_put (menu_with_browse (new_menu default_sep)
                (mkBrowse true (s2b "11") (s2b "next") true (s2b "22") (s2b "back"))) (s2b "1") (s2b "one")))
             (new_sizer 32))
          (s2b "foo") with
  | Ok p => p | _ => new_page end.
