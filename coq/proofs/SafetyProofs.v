(* C08: no sequence of client inputs can crash the engine or corrupt a session.
   An invariant of state and cache (SC, at two levels: what excludes panics; session consistency)
   is kept by everything that runs.  In this order: code that decodes (code_ok); SC and what keeps it;
   one instruction, a run, Render; the engine's reset, Flush, the entry function, the steps of Init and
   Exec; a request and a history with either driver.  From vals_small on the file is about applications
   given as data (corr/EngineMon.v, required there): wf_app_b gives the well-formedness of resources
   the invariant needs, and the witnesses show which guards cannot be dropped. *)
From Coq Require Import Lia ZifyN ZifyNat ZifyBool.
From Vise Require Import Bytes Errors Consts EngConsts Codec CacheModel StateModel NavModel NavSpec RenderModel
  VmModel EngineModel BytesProofs CodecProofs CacheProofs NavProofs RenderProofs VmProofs EngineProofs HandlerProofs.
Local Open Scope N_scope.

Lemma decode_one_app b c i r : decode_one b = Ok (i, r) -> decode_one (b ++ c) = Ok (i, r ++ c).
Proof. apply pp_app, pp_decode. Qed.

(* the opcode decides the constructor: what `run` tests with op =? op_HALT *)
Lemma parse_args_halt op b i r : parse_args op b = Ok (i, r) -> (op =? op_HALT) = true -> i = IHalt /\ r = b.
Proof.
  intros H E. apply N.eqb_eq in E. subst op.
  rewrite parse_halt in H. inversion H. auto.
Qed.

Lemma parse_args_is_halt op b i r : parse_args op b = Ok (i, r) -> is_halt i = (op =? op_HALT).
Proof.
  intros H. unfold parse_args in H.
  repeat match type of H with
  | (if op =? ?c then _ else _) = _ => destruct (N.eqb_spec op c) as [->|?]
  end;
  try (apply obind_ok in H; destruct H as [x [_ H]];
       repeat match type of H with context [let '(_, _) := ?y in _] => destruct y end);
  injection H as <- _; reflexivity.
Qed.

Inductive code_ok (P : instr -> Prop) : bytes -> Prop :=
| co_nil : code_ok P []
| co_cons : forall b i r, decode_one b = Ok (i, r) -> P i -> code_ok P r -> code_ok P b.

Lemma code_ok_app P a : code_ok P a -> forall c, code_ok P c -> code_ok P (a ++ c).
Proof.
  induction 1 as [|b i r Hd Hp Hr IH]; intros c Hc; [exact Hc|].
  eapply co_cons; [apply decode_one_app; exact Hd|exact Hp|apply IH; exact Hc].
Qed.

Lemma code_ok_inv P b i r : code_ok P b -> decode_one b = Ok (i, r) -> P i /\ code_ok P r.
Proof.
  intros H Hd. inversion H as [Hb|b0 i0 r0 Hd0 Hp Hr]; subst.
  - change (decode_one []) with (@Err err (instr * bytes) EGen) in Hd. discriminate.
  - rewrite Hd in Hd0. inversion Hd0; subst. auto.
Qed.

Lemma code_ok_decodes P b : code_ok P b -> b <> [] -> exists i r, decode_one b = Ok (i, r) /\ P i /\ code_ok P r.
Proof. intros H Hne. inversion H; subst; [contradiction|eauto]. Qed.

Lemma code_ok_weaken (P Q : instr -> Prop) b : (forall i, P i -> Q i) -> code_ok P b -> code_ok Q b.
Proof. intros HPQ. induction 1; [constructor|econstructor; eauto]. Qed.

Lemma code_ok_encode_prog (P : instr -> Prop) p : Forall wf_instr p -> Forall P p -> code_ok P (encode_prog p).
Proof.
  induction p as [|i p IH]; intros Hw Hp; [constructor|].
  inversion Hw; subst. inversion Hp; subst.
  unfold encode_prog. cbn [map List.concat]. fold (encode_prog p).
  eapply co_cons; [apply instr_roundtrip_lemma; assumption|assumption|apply IH; assumption].
Qed.
Lemma code_ok_encode (P : instr -> Prop) i : wf_instr i -> P i -> code_ok P (encode i).
Proof.
  intros Hw Hp. rewrite <- (app_nil_r (encode i)).
  eapply co_cons; [apply instr_roundtrip_lemma; exact Hw|exact Hp|constructor].
Qed.

Lemma code_ok_of_parse_fuel (P : instr -> Prop) f : forall b acc p,
  parse_all_fuel f b acc = Ok p -> exists q, p = rev acc ++ q /\ (Forall P q -> code_ok P b).
Proof.
  induction f as [|f IH]; intros b acc p H; cbn [parse_all_fuel] in H; [discriminate|].
  destruct (decode_one b) as [[i r]|e|s] eqn:D; try discriminate.
  destruct r as [|x r'].
  - inversion H; subst. exists [i]. split; [reflexivity|].
    intros Hq. inversion Hq; subst. eapply co_cons; [exact D|assumption|constructor].
  - apply IH in H. destruct H as [q [-> Hq]]. exists (i :: q). split.
    + cbn [rev]. rewrite <- app_assoc. reflexivity.
    + intros HF. inversion HF; subst. eapply co_cons; [exact D|assumption|auto].
Qed.
Lemma code_ok_of_parse (P : instr -> Prop) b p : parse_all b = Ok p -> Forall P p -> code_ok P b.
Proof.
  unfold parse_all. intros H HF. destruct (code_ok_of_parse_fuel P _ _ _ _ H) as [q [-> Hq]]. auto.
Qed.

(* A `k : bool` is the level, wherever one occurs in this file: false = what excludes panics, true = session consistency
   on top of it. *)

(* flags an instruction may name; level true also excludes CROAK, whose firing resets the cache to one scope and keeps
   the stack (finding K-C08-croak) *)
Definition iok (bits : N) (k : bool) (i : instr) : Prop :=
  match i with
  | ICatch _ f _ => f < bits
  | ICroak f _ => f < bits /\ k = false
  | _ => True
  end.
Definition cok (bits : N) (k : bool) : bytes -> Prop := code_ok (iok bits k).

(* the bound at level true: the cache's usage counter is a uint32 and wraps at 4 GiB *)
Definition fr_ok (bits cap : N) (k : bool) (fr : fres) : Prop :=
  Forall (fun f => f < bits) (fr_set fr) /\ Forall (fun f => f < bits) (fr_reset fr)
  /\ (k = true -> len (fr_content fr) + INPUT_LIMIT + cap < 4294967296).

Record rs_wf (bits cap : N) (k : bool) (rs : rsrc) : Prop := {
  rw_code : forall sym, match rs_code rs sym with Ok c => cok bits k c | Err _ => True | Panic _ => False end;
  rw_tpl : forall l sym, is_panic (rs_tpl rs l sym) = false;
  rw_menu : forall l t, is_panic (rs_menu rs l t) = false;
  rw_func : forall sym script, rs_func rs sym = Some script -> Forall (fr_ok bits cap k) script
}.

Definition input_small (st : state) : Prop :=
  match s_input st with Some i => len i <= INPUT_LIMIT | None => True end.

Definition SC (bits cap : N) (k : bool) (st : state) (ca : cache) : Prop :=
  s_bitsize st = bits /\ bits <= len (s_flags st) /\ cok bits k (s_code st) /\ c_frames ca <> [] /\
  (k = true -> nav_inv st ca /\ CInv ca /\ c_size ca = cap /\ input_small st).
Definition VInv (bits cap : N) (k : bool) (v : vmst) : Prop := SC bits cap k (v_st v) (v_ca v).

Lemma SC_frames bits cap k st ca : SC bits cap k st ca -> c_frames ca <> [].
Proof. intros (_ & _ & _ & H & _). exact H. Qed.
Lemma SC_nav bits cap k st ca : SC bits cap k st ca -> k = true -> nav_inv st ca.
Proof. intros (_ & _ & _ & _ & H) Hk. apply (H Hk). Qed.
Lemma SC_CInv bits cap k st ca : SC bits cap k st ca -> k = true -> CInv ca.
Proof. intros (_ & _ & _ & _ & H) Hk. apply (H Hk). Qed.
Lemma SC_input bits cap k st ca : SC bits cap k st ca -> k = true -> input_small st.
Proof. intros (_ & _ & _ & _ & H) Hk. apply (H Hk). Qed.

Lemma SC_flagish bits cap k st st' ca : SC bits cap k st ca -> flagish st st' -> SC bits cap k st' ca.
Proof.
  intros (Hb & Hl & Hco & Hne & Hk) (Fpath & _ & Fbits & Flen & Fcode & Finput).
  split; [congruence|]. split; [unfold len; rewrite Flen; exact Hl|]. split; [rewrite Fcode; exact Hco|]. split; [exact Hne|].
  intros Hkt. destruct (Hk Hkt) as (Hn & Hc & Hs & Hi).
  split; [unfold nav_inv in *; rewrite Fpath; exact Hn|]. split; [exact Hc|]. split; [exact Hs|].
  unfold input_small in *. rewrite Finput. exact Hi.
Qed.

Lemma SC_cache bits cap k st ca ca' :
  SC bits cap k st ca -> c_frames ca' <> [] ->
  (k = true -> CInv ca -> c_size ca = cap -> cache_levels ca' = cache_levels ca /\ CInv ca' /\ c_size ca' = cap) ->
  SC bits cap k st ca'.
Proof.
  intros (Hb & Hl & Hco & Hne & Hk) Hne' H.
  split; [exact Hb|]. split; [exact Hl|]. split; [exact Hco|]. split; [exact Hne'|].
  intros Hkt. destruct (Hk Hkt) as (Hn & Hc & Hs & Hi). destruct (H Hkt Hc Hs) as (E & Hc' & Hs').
  split; [unfold nav_inv in *; rewrite E; exact Hn|]. split; [exact Hc'|]. split; [exact Hs'|exact Hi].
Qed.

Lemma SC_path bits cap k st ca p i ca' :
  SC bits cap k st ca -> c_frames ca' <> [] ->
  (k = true -> nav_inv st ca -> CInv ca -> cache_levels ca' = len p + 1 /\ CInv ca' /\ c_size ca' = c_size ca) ->
  SC bits cap k (set_path_idx st p i) ca'.
Proof.
  intros (Hb & Hl & Hco & Hne & Hk) Hne' H.
  split; [exact Hb|]. split; [exact Hl|]. split; [exact Hco|]. split; [exact Hne'|].
  intros Hkt. destruct (Hk Hkt) as (Hn & Hc & Hs & Hi). destruct (H Hkt Hn Hc) as (E & Hc' & Hs').
  split; [exact E|]. split; [exact Hc'|]. split; [congruence|exact Hi].
Qed.

Lemma flag_in_range_ok st i : i < s_bitsize st -> s_bitsize st <= len (s_flags st) -> flag_in_range st i = true.
Proof.
  intros H1 H2. unfold flag_in_range, w32. apply andb_true_intro. split; [apply N.leb_le|apply N.ltb_lt; lia].
  pose proof (N.mod_le (i + 1) 4294967296 ltac:(lia)). lia.
Qed.

Lemma apply_SC bits cap k t st ca st' ca' sym s :
  SC bits cap k st ca -> apply_target t st ca = (st', ca', sym, s) ->
  is_spanic s = false /\ SC bits cap k st' ca'.
Proof.
  intros HSC H. pose proof (SC_frames _ _ _ _ _ HSC) as Hne.
  split; [pose proof (apply_never_panics t st ca) as Hp; rewrite H in Hp; exact Hp|].
  assert (Hcase : s = SOk \/ s <> SOk) by (destruct s; [left; reflexivity|right; discriminate ..]).
  destruct Hcase as [->|Hs]; [|destruct (apply_fail_unchanged Hne H Hs) as [-> ->]; exact HSC].
  destruct (apply_ok_exact Hne H) as (_ & _ & Hst & Hca). rewrite Hst.
  apply (SC_path _ _ _ _ _ _ _ _ HSC).
  - exact (apply_keeps_frames Hne H).
  - intros _ Hn Hc. split; [apply (apply_levels Hn H)|].
    subst ca'. destruct (valid_sym_b t); [apply cache_push_inv; exact Hc|apply pops_CInv; exact Hc].
Qed.

Definition hsafe (bits cap : N) (k : bool) (r : hres) : Prop :=
  is_spanic (snd r) = false /\ VInv bits cap k (fst (fst r)) /\ cok bits k (snd (fst r)).
Lemma hsafe_mk bits cap k v b s : is_spanic s = false -> VInv bits cap k v -> cok bits k b -> hsafe bits cap k (v, b, s).
Proof. intros. unfold hsafe. cbn [fst snd]. auto. Qed.

Lemma wf_catch_sym : wf_sym catch_sym.
Proof. apply wf_symb_true. reflexivity. Qed.
Lemma cok_move_catch bits k : cok bits k move_catch_code.
Proof. unfold move_catch_code. apply code_ok_encode; [exact wf_catch_sym|exact I]. Qed.

Lemma no_flag_cause bits cap k rs st ca i n :
  rs_wf bits cap k rs -> SC bits cap k st ca -> iok bits k i -> ~ flag_cause rs st i n.
Proof.
  intros Hrs (Hb & Hl & _) Hi [[_ H]|[_ (key & script & fr & f & H1 & H2 & H3 & _ & H5)]].
  - destruct i; try contradiction; cbn [iok] in Hi; rewrite flag_in_range_ok in H by (rewrite ?Hb; try apply Hi; lia); discriminate H.
  - pose proof (rw_func _ _ _ _ Hrs key script H1) as HF. rewrite Forall_forall in HF.
    destruct (HF fr H2) as (Hset & Hreset & _). rewrite Forall_forall in Hset, Hreset.
    rewrite flag_in_range_ok in H5; [discriminate H5| |lia].
    rewrite Hb. apply in_app_or in H3. destruct H3; [apply Hreset|apply Hset]; assumption.
Qed.

Lemma refresh_safe bits cap k rs lang key v v1 content :
  rs_wf bits cap k rs -> VInv bits cap k v -> refresh rs lang key v = (v1, content, SOk) ->
  VInv bits cap k v1 /\ (k = true -> len content + cap < 4294967296).
Proof.
  intros Hrs HV H. destruct (refresh_flagish rs lang key v) as (F & E & _). rewrite H in F, E. cbn [fst] in F, E.
  split; [unfold VInv; rewrite E; exact (SC_flagish _ _ _ _ _ _ HV F)|].
  intros Hkt. unfold refresh in H.
  destruct (rs_func rs key) as [script|] eqn:Ef; [|discriminate H]. destruct (nth_fres script _) as [fr|] eqn:En; [|discriminate H].
  cbv zeta in H. destruct (fr_fail fr); [discriminate H|].
  destruct (apply_flags false _ _); [|discriminate H..]. destruct (apply_flags true _ _); [|discriminate H..].
  injection H as _ <-.
  pose proof (rw_func _ _ _ _ Hrs key script Ef) as HF. rewrite Forall_forall in HF.
  destruct (HF fr (nth_fres_In _ _ _ En)) as (_ & _ & Hsmall). specialize (Hsmall Hkt).
  pose proof (SC_input _ _ _ _ _ HV Hkt) as Hi. unfold input_small in Hi.
  rewrite len_app. destruct (fr_echo fr); [|rewrite len_nil; lia].
  destruct (s_input (v_st v)); [lia|rewrite len_nil; lia].
Qed.

Lemma exec_instr_safe bits cap k rs sep lang i b v :
  rs_wf bits cap k rs -> VInv bits cap k v -> iok bits k i -> cok bits k b ->
  hsafe bits cap k (exec_instr rs sep lang i b v).
Proof.
  intros Hrs HV Hi Hb. pose proof (SC_frames _ _ _ _ _ HV) as Hne.
  destruct (exec_instr_eff rs sep lang i b v Hne)
    as [v' s F C Hp _|t st0 nsym v' b' s _ F Ha Hc|sig mode v' -> E C|sym sz v1 content v' _ Hr Ha E|sym v1 content v' s _ Hr C E Hs].
  - apply hsafe_mk; [|unfold VInv; rewrite C; exact (SC_flagish _ _ _ _ _ _ HV F)|exact Hb].
    destruct s; try reflexivity. destruct (no_flag_cause _ _ _ _ _ _ _ _ Hrs HV Hi (Hp _ eq_refl)).
  - destruct (apply_SC _ _ _ _ _ _ _ _ _ _ (SC_flagish _ _ _ _ _ _ HV F) Ha) as [_ HSC].
    pose proof (rw_code _ _ _ _ Hrs nsym) as Hcode.
    destruct (rs_code rs nsym) as [code| |]; [destruct Hc as [-> [->| ->]]|destruct Hc as [-> ->]|contradiction];
      apply hsafe_mk; auto. apply code_ok_app; assumption.
  - (* CROAK is allowed at level false only: nothing is claimed of the levels *)
    destruct Hi as [_ ->]. apply hsafe_mk; [reflexivity| |constructor].
    unfold VInv. rewrite E, C. apply (SC_cache _ _ _ _ _ _ HV); [apply cache_reset_frames, Hne|discriminate].
  - destruct (refresh_safe _ _ _ _ _ _ _ _ _ Hrs HV Hr) as [R2 R3]. apply hsafe_mk; [reflexivity| |exact Hb].
    unfold VInv. rewrite E. pose proof (SC_frames _ _ _ _ _ R2) as Hne1.
    pose proof (cache_add_levels (v_ca v1) sym content (w16 sz) Hne1) as Hl. rewrite Ha in Hl.
    eapply SC_cache; [exact R2|eapply levels_frames; eauto|].
    intros Hkt Hc Hsz. split; [exact Hl|]. specialize (R3 Hkt).
    assert (Hlt : len content + c_size (v_ca v1) < 4294967296) by lia.
    destruct (cache_add_inv _ _ _ _ _ Hc Hlt Ha) as [Hc' Hs']. split; [exact Hc'|congruence].
  - destruct (refresh_safe _ _ _ _ _ _ _ _ _ Hrs HV Hr) as [R2 R3]. apply hsafe_mk; [exact Hs| |exact Hb].
    unfold VInv. rewrite E, C. pose proof (SC_frames _ _ _ _ _ R2) as Hne1.
    pose proof (cache_update_levels (v_ca v1) sym content) as Hl.
    eapply SC_cache; [exact R2|eapply levels_frames; eauto|].
    intros Hkt Hc Hsz. split; [exact Hl|]. specialize (R3 Hkt).
    assert (Hlt : len content + c_size (v_ca v1) < 4294967296) by lia.
    pose proof (cache_update_raw_spec (v_ca v1) sym content Hc Hlt) as Hsp.
    cbv zeta in Hsp. destruct Hsp as (S1 & S2 & _). split; [exact S1|congruence].
Qed.

(* VmProofs.run_inv with the premises its users have (run_safe, FlagProofs2.run_base and
   run_move_catch_path): the step is asked for the instruction decode_one yields, and one premise on
   flag changes stands for the preamble, the logged opcode and the page's error.
   P and Q as in run_inv; Q is all that is asked of a HALT: after it the loop returns at once, and
   the rest of the code need not be what P says of pending code.
   Of the machine P may look at position, cache, input and stored code only (flagish); outside
   the catch node it must put up with MOVE _catch replacing the pending code, which is what
   runErrCheck and runDeadCheck do. *)
Theorem run_invariant_pending (P Q : hres -> Prop) rs sep :
  (forall r, P r -> Q r) ->
  (forall v v' b s, flagish (v_st v) (v_st v') -> v_ca v' = v_ca v -> P (v, b, s) -> P (v', b, s)) ->
  (* where the loop stops without an instruction: TERMINATE set, out of fuel, no code
     (`op_split []` is `Err EGen`, which the loop returns as `SErr EGen None`) *)
  (forall v b, P (v, b, SOk) -> P (v, [], SOk) /\ P (v, b, SFuel) /\ P (v, b, SErr EGen None)) ->
  (forall v b s, P (v, b, s) -> where_sym (v_st v) <> catch_sym -> P (v, move_catch_code, SOk)) ->
  (forall lang v b, P (v, b, SOk) -> b <> [] ->
     exists i r, decode_one b = Ok (i, r) /\ (if is_halt i then Q else P) (exec_instr rs sep lang i r v)) ->
  forall fuel lang b v, P (v, b, SOk) -> Q (run fuel rs sep lang b v).
Proof.
  intros HPQ Hflag Hstop Hcatch Hstep. apply run_inv; [exact HPQ|intros v b H; split; apply (Hstop _ _ H)| | | |].
  - intros v b. apply Hflag; [apply loop_st_flagish|reflexivity].
  - (* no code stops the loop; otherwise b stays a variable.  Hstep is used twice: on v, for the opcode
       that b decodes to; then, P carried over to the machine that has logged this opcode (Hflag: P does
       not see the log), on that machine, where the loop runs the instruction *)
    intros lang v b HP. destruct b as [|x b0] eqn:Eb; [apply Hstop, HP|]. rewrite <- Eb in *.
    assert (Hne : b <> []) by (rewrite Eb; discriminate). clear Eb.
    destruct (Hstep lang _ _ HP Hne) as (i & r & Hd & _).
    destruct (proj1 (decode_one_ok_split _ _ _) Hd) as (op & b1 & -> & Hpa). rewrite Hpa.
    apply (Hflag v (vlog v (EvInstr op)) _ _ (flagish_refl _) eq_refl) in HP.
    destruct (Hstep lang _ _ HP Hne) as (i' & r' & Hd' & Hx). rewrite Hd in Hd'. injection Hd' as <- <-.
    rewrite (parse_args_is_halt _ _ _ _ Hpa) in Hx. exact Hx.
  - intros v b e m H. cbn [loop_errcheck]. cbv zeta.
    assert (H' : P (set_page_err v m, b, SErr e m)).
    { revert H. apply Hflag; destruct m; first [apply flagish_refl|reflexivity]. }
    destruct (getf _ FLAG_LOADFAIL); [|exact H']. destruct (bytes_eqb _ catch_sym) eqn:E; [exact H'|].
    exact (Hcatch _ _ _ H' (beqb_false _ _ E)).
  - intros v H. destruct (dead_check_cases v) as [_|_| |Hw];
      [revert H; apply Hflag; [apply flagish_setf|reflexivity]|exact H|apply Hstop, H|].
    generalize (Hcatch _ _ _ H Hw). apply Hflag; [apply flagish_refl|reflexivity].
Qed.

Lemma run_safe bits cap k rs sep : rs_wf bits cap k rs ->
  forall fuel lang b v, VInv bits cap k v -> cok bits k b -> hsafe bits cap k (run fuel rs sep lang b v).
Proof.
  intros Hrs fuel lang b v HV Hb.
  apply (run_invariant_pending (hsafe bits cap k) (hsafe bits cap k)); [auto| | | | |apply hsafe_mk; auto].
  - intros v0 v' b0 s Hf Hca (H1 & H2 & H3). apply hsafe_mk; [exact H1| |exact H3].
    unfold VInv. rewrite Hca. exact (SC_flagish _ _ _ _ _ _ H2 Hf).
  - intros v0 b0 (_ & H2 & H3). split; [|split]; apply hsafe_mk; auto. constructor.
  - intros v0 b0 s (_ & H2 & _) _. apply hsafe_mk; [reflexivity|exact H2|apply cok_move_catch].
  - intros lang0 v0 b0 (_ & H2 & H3) Hne. destruct (code_ok_decodes _ _ H3 Hne) as (i & r & Hd & Hi & Hr).
    exists i, r. split; [exact Hd|]. destruct (is_halt i); apply exec_instr_safe; assumption.
Qed.

Definition rr_np (r : rres) : Prop := match r with RRPanic _ => False | _ => True end.

Lemma rres_of_np (o : res bytes) : is_panic o = false -> rr_np (rres_of o).
Proof. destruct o; cbn; [auto|auto|discriminate]. Qed.

Lemma vm_render_safe bits cap k rs sep fuel lang v :
  rs_wf bits cap k rs -> VInv bits cap k v ->
  rr_np (snd (vm_render fuel rs sep lang v)) /\ VInv bits cap k (fst (vm_render fuel rs sep lang v)).
Proof.
  intros Hrs HV. apply and_comm.
  (* VInv looks at neither page nor log; an empty page and the lack of fuel are no panic *)
  apply (vm_render_keeps (VInv bits cap k) rr_np); [|auto|auto| |exact I|exact I| |exact HV].
  - intros x Hx. exact (SC_flagish _ _ _ _ _ _ Hx (flagish_resetf _ _)).
  - (* a browse error: MOVE _catch runs *)
    intros x Hx _. destruct (run_safe bits cap k rs sep Hrs fuel lang move_catch_code x Hx (cok_move_catch bits k)) as (R1 & R2 & _).
    split; [exact R2|]. intros n E. rewrite E in R1. discriminate R1.
  - intros c pg sym idx. apply rres_of_np, page_render_no_panic; intros q; apply Hrs.
Qed.

Lemma SC_set_code bits cap k st ca b : SC bits cap k st ca -> cok bits k b -> SC bits cap k (set_code st b) ca.
Proof.
  intros (Hb & Hl & Hco & Hne & Hk) Hc.
  split; [exact Hb|]. split; [exact Hl|]. split; [exact Hc|]. split; [exact Hne|exact Hk].
Qed.

Lemma SC_set_input_raw bits cap k st ca i :
  SC bits cap k st ca -> (k = true -> match i with Some x => len x <= INPUT_LIMIT | None => True end) ->
  SC bits cap k (set_input_raw st i) ca.
Proof.
  intros (Hb & Hl & Hco & Hne & Hk) Hi.
  split; [exact Hb|]. split; [exact Hl|]. split; [exact Hco|]. split; [exact Hne|].
  intros Hkt. destruct (Hk Hkt) as (K1 & K2 & K3 & K4).
  split; [exact K1|]. split; [exact K2|]. split; [exact K3|]. exact (Hi Hkt).
Qed.

(* State.Up followed by Cache.Pop (engine reset, runFirst's deferred calls) *)
Lemma up_pop_SC bits cap k st ca sym st' :
  SC bits cap k st ca -> st_up st = Ok (sym, st') ->
  SC bits cap k st' (match cache_pop ca with Ok c => c | _ => ca end).
Proof.
  intros HSC H. pose proof (SC_frames _ _ _ _ _ HSC) as Hne. unfold st_up in H.
  destruct (s_path st) as [|a l] eqn:Ep; [discriminate|]. injection H as _ <-.
  destruct (pop_levels ca Hne) as (ca' & Hp & Hne' & Hlv). rewrite Hp.
  apply (SC_path _ _ _ _ _ _ _ _ HSC Hne'). intros _ K1 K2.
  destruct (cache_pop_spec ca ca' K2 Hp) as (C1 & C2 & _). split; [|split; assumption].
  unfold nav_inv in K1. rewrite Ep in K1.
  pose proof (length_removelast (a :: l) ltac:(discriminate)) as Hrl. cbn [removelast] in Hrl.
  unfold len in *. destruct (cache_levels ca =? 1) eqn:E1; cbv iota in Hlv; lia.
Qed.

Lemma st_top_no_panic st : is_panic (st_top st) = false.
Proof. unfold st_top. destruct (s_path st) as [|a [|b l]]; reflexivity. Qed.
Lemma st_up_no_panic st : is_panic (st_up st) = false.
Proof. unfold st_up. destruct (s_path st); reflexivity. Qed.

Lemma unwind_SC bits cap k fuel : forall st ca,
  SC bits cap k st ca ->
  is_spanic (snd (unwind fuel st ca)) = false
  /\ SC bits cap k (fst (fst (unwind fuel st ca))) (snd (fst (unwind fuel st ca))).
Proof.
  induction fuel as [|fuel IH]; intros st ca HSC; cbn [unwind]; [auto|].
  pose proof (st_top_no_panic st) as Ht. destruct (st_top st) as [is_top|e|n]; [|auto|discriminate].
  pose proof (st_up_no_panic st) as Hu. destruct (st_up st) as [[sym st']|e|n] eqn:Eup; [|auto|discriminate].
  pose proof (up_pop_SC _ _ _ _ _ _ _ HSC Eup) as HSC'. destruct is_top; [auto|apply IH, HSC'].
Qed.

Lemma eng_reset_inner_safe bits cap k v :
  VInv bits cap k v ->
  is_spanic (snd (eng_reset_inner v)) = false /\ VInv bits cap k (fst (eng_reset_inner v)).
Proof.
  intros HV. rewrite eng_reset_inner_sc, reset_sc_eq.
  destruct (s_path (v_st v)) as [|a p] eqn:Ep; [split; [reflexivity|exact HV]|]. split; [reflexivity|].
  destruct (unwind_SC bits cap k (S (List.length (s_path (v_st v)))) (v_st v) (v_ca v) HV) as (_ & U).
  rewrite unwind_all in U by (rewrite Ep; try discriminate; lia). cbn [fst snd] in U. rewrite Ep in U.
  eapply SC_flagish; [exact U|]. eapply flagish_trans; apply flagish_resetf.
Qed.

Definition EInv (bits cap : N) (k : bool) (e : engine) : Prop := VInv bits cap k (e_v e).
Definition f_np (f : fstat) : Prop := match f with FPanic _ => False | _ => True end.

Lemma eng_flush_safe bits cap k fuel rs c e :
  rs_wf bits cap k rs -> EInv bits cap k e ->
  let ef := eng_flush fuel rs c e in
  f_np (snd ef) /\ EInv bits cap k (fst (fst ef)) /\ e_initd (fst (fst ef)) = e_initd e.
Proof.
  intros Hrs HE. destruct (eng_flush_cases fuel rs c e) as (He & Hf). cbv zeta in *.
  pose proof (vm_render_safe bits cap k rs (c_sep c) fuel (s_lang (v_st (e_v e))) (e_v e) Hrs HE) as [R1 R2].
  pose proof (eng_reset_inner_safe bits cap k _ R2) as [Q1 Q2].
  split; [|destruct He as [->|[->|[_ ->]]]; auto].
  destruct (snd (eng_flush fuel rs c e)) as [| |n|]; try exact I.
  destruct (Hf n eq_refl) as [E|E]; rewrite E in *; [exact R1|discriminate Q1].
Qed.

Lemma first_rsrc_wf bits cap k script : Forall (fr_ok bits cap k) script -> rs_wf bits cap k (first_rsrc script).
Proof.
  intros HF. constructor; cbn [first_rsrc rs_code rs_tpl rs_menu rs_func]; try reflexivity.
  - intros _. constructor.
  - intros sym sc. destruct (bytes_eqb sym first_sym); [intros Hx; injection Hx as <-; exact HF|discriminate].
Qed.

Lemma wf_first_sym : wf_sym first_sym.
Proof. apply wf_symb_true. reflexivity. Qed.
Lemma cok_first_code bits k : cok bits k first_code.
Proof.
  unfold first_code.
  apply code_ok_app; apply code_ok_encode; try exact I; cbn [wf_instr]; try (split; [exact wf_first_sym|]); unfold wf_num; lia.
Qed.

(* a pop on a session without position (State.Up failed) *)
Lemma pop_only_SC bits cap k st ca :
  SC bits cap k st ca -> s_path st = [] -> SC bits cap k st (match cache_pop ca with Ok c => c | _ => ca end).
Proof.
  intros HSC Hp.
  destruct (pop_levels ca (SC_frames _ _ _ _ _ HSC)) as (ca' & Hpop & Hne' & Hlv). rewrite Hpop.
  apply (SC_cache _ _ _ _ _ _ HSC Hne'). intros Hkt K2 K3. pose proof (SC_nav _ _ _ _ _ HSC Hkt) as K1.
  destruct (cache_pop_spec ca ca' K2 Hpop) as (C1 & C2 & _). split; [|split; [exact C1|congruence]].
  unfold nav_inv in K1. rewrite Hp, len_nil in K1. rewrite K1 in *. exact Hlv.
Qed.

(* the entry function's frame can be opened *)
Definition first_pre (st : state) : Prop :=
  len (s_path st) <= MaxLevel /\ last (s_path st) [] <> first_sym.

Lemma st_down_first bits cap k st ca :
  SC bits cap k st ca -> first_pre st ->
  exists st1, st_down st first_sym = Ok st1 /\ SC bits cap k st1 (cache_push ca).
Proof.
  intros HSC [Hd Hlast]. unfold st_down.
  destruct (N.ltb_spec MaxLevel (len (s_path st))); [lia|].
  assert (Hgen : forall p, len p = len (s_path st) + 1 -> SC bits cap k (set_path_idx st p 0) (cache_push ca)).
  { intros p Hp. apply (SC_path _ _ _ _ _ _ _ _ HSC).
    - apply cache_push_frames.
    - intros _ K1 K2. unfold nav_inv in K1. rewrite push_levels. split; [lia|apply cache_push_inv; exact K2]. }
  destruct (s_path st) as [|a l] eqn:Ep.
  - eexists. split; [reflexivity|]. apply Hgen. rewrite len_cons, !len_nil. lia.
  - destruct (bytes_eqb (last (a :: l) []) first_sym) eqn:E; [apply bytes_eqb_eq in E; contradiction|].
    eexists. split; [reflexivity|]. apply Hgen. rewrite len_app. change (len [first_sym]) with 1. lia.
Qed.

Lemma SC_cache_last bits cap k st ca : SC bits cap k st ca -> SC bits cap k st (snd (cache_last ca)).
Proof.
  intros H. unfold cache_last. cbn [snd].
  apply (SC_cache bits cap k st ca _ H); [cbn [c_frames]; exact (SC_frames _ _ _ _ _ H)|].
  intros Hkt Hc Hsz. split; [reflexivity|]. pose proof (cache_last_inv ca Hc) as [L1 L2].
  unfold cache_last in L1, L2. cbn [snd] in L1, L2. split; [exact L1|congruence].
Qed.

(* what a step of Init or Exec keeps, taken from the engine e; the initialised mark is in it because
   once initialised, an engine stays so, and runFirst never runs again *)
Definition skeeps (bits cap : N) (k : bool) (e : engine) (x : engine * stat) : Prop :=
  is_spanic (snd x) = false /\ EInv bits cap k (fst x) /\ (e_initd e = true -> e_initd (fst x) = true).
Definition ekeeps (bits cap : N) (k : bool) (e : engine) (r : engine * bool * stat) : Prop :=
  skeeps bits cap k e (fst (fst r), snd r).
Lemma skeeps_mk bits cap k e e' s :
  is_spanic s = false -> EInv bits cap k e' -> (e_initd e = true -> e_initd e' = true) -> skeeps bits cap k e (e', s).
Proof. intros. unfold skeeps. cbn [fst snd]. auto. Qed.
Lemma ekeeps_mk bits cap k e e' x s :
  is_spanic s = false -> EInv bits cap k e' -> (e_initd e = true -> e_initd e' = true) -> ekeeps bits cap k e (e', x, s).
Proof. exact (skeeps_mk bits cap k e e' s). Qed.

Lemma ekeeps_then_ok bits cap k e x kont :
  skeeps bits cap k e x -> (snd x = SOk -> EInv bits cap k (fst x) -> ekeeps bits cap k (fst x) (kont (fst x))) ->
  ekeeps bits cap k e (then_ok x kont).
Proof.
  intros (H1 & H2 & H3) Hk. apply then_ok_cases; [|intros _; apply ekeeps_mk; assumption].
  intros Hs. destruct (Hk Hs H2) as (K1 & K2 & K3). split; [exact K1|split; [exact K2|auto]].
Qed.
Lemma ekeeps_then_go bits cap k e x kont :
  ekeeps bits cap k e x ->
  (snd x = SOk -> EInv bits cap k (fst (fst x)) -> ekeeps bits cap k (fst (fst x)) (kont (fst (fst x)))) ->
  ekeeps bits cap k e (then_go x kont).
Proof.
  intros (H1 & H2 & H3) Hk. apply then_go_cases; [|intros _; apply ekeeps_mk; assumption].
  intros Hs _. destruct (Hk Hs H2) as (K1 & K2 & K3). split; [exact K1|split; [exact K2|auto]].
Qed.

Definition first_ready (bits cap : N) (k : bool) (c : config) (st : state) : Prop :=
  match c_first c with None => True | Some script => Forall (fr_ok bits cap k) script /\ first_pre st end.

Lemma run_first_safe bits cap k fuel c lang e :
  EInv bits cap k e -> first_ready bits cap k c (v_st (e_v e)) -> ekeeps bits cap k e (run_first fuel c lang e).
Proof.
  intros HE Hpre. unfold run_first, first_ready in *.
  destruct (c_first c) as [script|]; [|apply ekeeps_mk; auto].
  destruct Hpre as [Hscript Hfp]. cbv zeta.
  destruct (st_down_first _ _ _ _ _ HE Hfp) as (st1 & Ed & HS1). rewrite Ed.
  match goal with |- context [run fuel ?rs ?sep lang first_code ?vv] =>
    assert (HVV : VInv bits cap k vv) by exact HS1;
    pose proof (run_safe bits cap k rs sep (first_rsrc_wf _ _ _ _ Hscript) fuel lang first_code vv HVV (cok_first_code bits k)) as (R1 & R2 & R3);
    destruct (run fuel rs sep lang first_code vv) as [[v2 b] s] end.
  cbn [fst snd] in R1, R2, R3.
  destruct (match s with SOk => _ | _ => _ end) as [[r s'] take_exit] eqn:Edec.
  assert (Hdec : is_spanic s' = false).
  { destruct s; try discriminate R1; [destruct b; [destruct (getf _ _)|]|..]; injection Edec as _ <- _; reflexivity. }
  destruct (if take_exit then _ else _) as [exit ca2] eqn:Elast.
  assert (Hlast : SC bits cap k (v_st v2) ca2).
  { destruct take_exit; [|injection Elast as _ <-; exact R2].
    pose proof (SC_cache_last _ _ _ _ _ R2) as HL. rewrite Elast in HL. exact HL. }
  apply ekeeps_mk; [exact Hdec| |auto].
  unfold EInv, VInv. cbn [e_v v_st v_ca].
  set (st3 := resetf (resetf (v_st v2) FLAG_DIRTY) FLAG_TERMINATE).
  assert (HS3 : SC bits cap k st3 ca2).
  { eapply SC_flagish; [exact Hlast|]. eapply flagish_trans; apply flagish_resetf. }
  destruct (st_up st3) as [[sym st']|er|n] eqn:Eup.
  - apply (up_pop_SC _ _ _ _ _ _ _ HS3 Eup).
  - apply pop_only_SC; [exact HS3|]. unfold st_up in Eup. destruct (s_path st3); [reflexivity|discriminate].
  - pose proof (st_up_no_panic st3) as Hn. rewrite Eup in Hn. discriminate.
Qed.

Lemma set_code_eng_safe bits cap k e b :
  EInv bits cap k e -> cok bits k b ->
  EInv bits cap k (fst (set_code_eng e b)) /\ e_initd (fst (set_code_eng e b)) = e_initd e.
Proof.
  intros HE Hb. rewrite set_code_eng_eq. cbv zeta.
  assert (HS : SC bits cap k (set_code (v_st (e_v e)) b) (v_ca (e_v e))) by (apply SC_set_code; [exact HE|exact Hb]).
  destruct b as [|x b']; [destruct (getf _ FLAG_DIRTY)|]; (split; [|reflexivity]); try exact HS.
  exact (SC_cache_last _ _ _ _ _ HS).
Qed.

(* what a request needs where there is an entry function: its results are fr_ok, and the engine is initialised (runFirst
   will not run again), or prepare has nothing to do and the position admits Down(_first) (first_pre) *)
Definition FirstOk (bits cap : N) (k : bool) (c : config) (e : engine) : Prop :=
  match c_first c with
  | None => True
  | Some script => Forall (fr_ok bits cap k) script
                   /\ (e_initd e = true \/ (e_execd e = false /\ first_pre (v_st (e_v e))))
  end.

Lemma cok_move_root bits k c : wf_sym (cfg_root c) -> cok bits k (encode (IMove (cfg_root c))).
Proof. intros H. apply code_ok_encode; [exact H|exact I]. Qed.

Lemma prepare_safe bits cap k fuel rs c e :
  rs_wf bits cap k rs -> EInv bits cap k e ->
  skeeps bits cap k e (prepare fuel rs c e) /\ e_initd (fst (prepare fuel rs c e)) = e_initd e.
Proof.
  intros Hrs HE. apply (prepare_cases (fun x => skeeps bits cap k e x /\ e_initd (fst x) = e_initd e)); intros _.
  - split; [apply skeeps_mk; auto|reflexivity].
  - destruct (eng_flush_safe bits cap k fuel rs c e Hrs HE) as (F1 & F2 & F3). cbv zeta.
    split; [apply skeeps_mk; [destruct (snd _); try reflexivity; contradiction|exact F2|congruence]|exact F3].
Qed.

Lemma take_input_safe bits cap k input e : EInv bits cap k e -> skeeps bits cap k e (take_input input e).
Proof.
  intros HE. rewrite take_input_eq. destruct (N.ltb_spec INPUT_LIMIT (len input)); apply skeeps_mk; auto.
  apply SC_set_input_raw; [exact HE|intros _; assumption].
Qed.

Lemma unstale_safe bits cap k e : EInv bits cap k e -> skeeps bits cap k e (unstale e).
Proof.
  intros HE. apply unstale_cases; [apply skeeps_mk; auto|].
  destruct (eng_reset_inner_safe bits cap k (e_v e) HE) as [Q1 Q2]. apply skeeps_mk; auto.
Qed.

Lemma init_done_safe bits cap k c i e :
  wf_sym (cfg_root c) -> EInv bits cap k e -> (k = true -> match i with Some x => len x <= INPUT_LIMIT | None => True end) ->
  EInv bits cap k (init_done c i e).
Proof.
  intros Hroot HE Hi. apply SC_set_input_raw; [|exact Hi].
  destruct (s_code (v_st (e_v e))); [apply SC_set_code; [exact HE|apply cok_move_root, Hroot]|exact HE].
Qed.

Lemma reset_empty_safe bits cap k c input e :
  wf_sym (cfg_root c) -> EInv bits cap k e -> skeeps bits cap k e (reset_empty c input e).
Proof.
  intros Hroot HE. apply reset_empty_cases; [apply skeeps_mk; auto|]. cbv zeta.
  destruct (eng_reset_inner_safe bits cap k (vset_st (e_v e) (set_code (v_st (e_v e)) (encode (IMove (cfg_root c))))))
    as [Q1 Q2]; [apply SC_set_code; [exact HE|apply cok_move_root; exact Hroot]|].
  apply skeeps_mk; auto.
Qed.

Lemma init_new_safe bits cap k fuel c e input :
  wf_sym (cfg_root c) -> EInv bits cap k e -> first_ready bits cap k c (v_st (e_v e)) ->
  ekeeps bits cap k e (init_new fuel c e input).
Proof.
  intros Hroot HE HF. unfold init_new.
  apply ekeeps_then_ok; [apply take_input_safe, HE|]. intros Hs H3.
  apply ekeeps_then_go.
  - (* runFirst on the new input, at the same position *)
    apply run_first_safe; [exact H3|]. rewrite take_input_eq in *. destruct (_ <? _); [discriminate|exact HF].
  - intros _ H4. apply ekeeps_then_ok; [apply unstale_safe, H4|]. intros _ H5.
    apply ekeeps_mk; [reflexivity| |reflexivity]. apply init_done_safe; [exact Hroot|exact H5|].
    exact (SC_input _ _ _ _ _ HE).
Qed.

Lemma eng_init_safe bits cap k fuel rs c e input :
  rs_wf bits cap k rs -> wf_sym (cfg_root c) -> EInv bits cap k e -> FirstOk bits cap k c e ->
  ekeeps bits cap k e (eng_init fuel rs c e input).
Proof.
  intros Hrs Hroot HE HF. rewrite eng_init_steps.
  destruct (prepare_safe bits cap k fuel rs c e Hrs HE) as [HP Hi].
  apply ekeeps_then_ok; [exact HP|]. intros _ H1.
  destruct (e_initd (fst (prepare fuel rs c e))) eqn:Hi1; [apply ekeeps_mk; auto|].
  apply (init_new_safe bits cap k fuel c (cleared _) input Hroot H1).
  (* the engine was not initialised: prepare had nothing to do, and FirstOk speaks of the position *)
  unfold FirstOk, first_ready in *. destruct (c_first c); [|exact I].
  destruct HF as [H [H2|[H2 H3]]]; [congruence|]. rewrite prepare_idle by exact H2. auto.
Qed.

Lemma eng_exec_inner_safe bits cap k fuel rs c e :
  rs_wf bits cap k rs -> EInv bits cap k e -> ekeeps bits cap k e (eng_exec_inner fuel rs c e).
Proof.
  intros Hrs HE.
  assert (HV0 : VInv bits cap k (vset_st (e_v e) (set_code (v_st (e_v e)) []))).
  { apply SC_set_code; [exact HE|constructor]. }
  apply eng_exec_inner_cases; [intros _; apply ekeeps_mk; auto|]. intros v1 b s _ Hr.
  assert (Hcode : cok bits k (s_code (v_st (e_v e)))) by apply HE.
  pose proof (run_safe bits cap k rs (c_sep c) Hrs fuel (s_lang (v_st (e_v e))) _ _ HV0 Hcode) as (R1 & R2 & R3).
  rewrite Hr in R1, R2, R3. cbn [fst snd] in R1, R2, R3.
  destruct s; try discriminate R1; try (apply ekeeps_mk; auto; fail).
  destruct (getf (v_st v1) FLAG_TERMINATE); [apply ekeeps_mk; auto|].
  destruct (set_code_eng_safe bits cap k (mkEng v1 (e_initd e) (e_exit e) (e_exiting e) true) b R2 R3) as [S1 S2].
  apply ekeeps_mk; [reflexivity|exact S1|cbn [e_initd] in S2; congruence].
Qed.

Lemma eng_exec_safe bits cap k fuel rs c e input :
  rs_wf bits cap k rs -> wf_sym (cfg_root c) -> EInv bits cap k e -> FirstOk bits cap k c e ->
  ekeeps bits cap k e (eng_exec fuel rs c e input).
Proof.
  intros Hrs Hroot HE HF. rewrite eng_exec_steps.
  apply ekeeps_then_go; [apply eng_init_safe; assumption|]. intros _ H1. unfold exec_tail.
  apply ekeeps_then_ok; [apply reset_empty_safe; assumption|]. intros _ H2.
  destruct (_ && negb _); [apply ekeeps_mk; auto|].
  apply ekeeps_then_ok; [apply take_input_safe, H2|]. intros _ H3. apply eng_exec_inner_safe; assumption.
Qed.

Definition resp_no_panic (r : response) : Prop :=
  (forall n, r_exec r <> SPanic n) /\ (forall n, r_flush r <> FPanic n).
Lemma resp_no_panic_mk cont s out f : is_spanic s = false -> f_np f -> resp_no_panic (mkResp cont s out f).
Proof. intros H1 H2. split; cbn [r_exec r_flush]; intros n E; rewrite E in *; [discriminate|contradiction]. Qed.

Lemma request_long_safe bits cap k fuel rs c e input :
  rs_wf bits cap k rs -> wf_sym (cfg_root c) -> EInv bits cap k e -> FirstOk bits cap k c e ->
  let r := request_long fuel rs c e input in
  resp_no_panic (snd r) /\ EInv bits cap k (fst r) /\ (e_initd e = true -> e_initd (fst r) = true).
Proof.
  intros Hrs Hroot HE HF. unfold request_long.
  pose proof (eng_exec_safe bits cap k fuel rs c e input Hrs Hroot HE HF) as (X1 & X2 & X3).
  destruct (eng_exec fuel rs c e input) as [[e1 cont] s]. cbn [fst snd] in X1, X2, X3.
  pose proof (eng_flush_safe bits cap k fuel rs c e1 Hrs X2) as (F1 & F2 & F3). cbv zeta in F1, F2, F3.
  destruct (eng_flush fuel rs c e1) as [[e2 out] f]. cbn [fst snd] in F1, F2, F3.
  destruct s; try discriminate X1; cbn [fst snd]; (split; [apply resp_no_panic_mk; auto; exact I|]);
    (split; [assumption|]); auto; rewrite F3; exact X3.
Qed.

Definition cfg_bits (c : config) : N := w32 (c_flagcount c + 8).
Definition cfg_ok (c : config) : Prop :=
  wf_sym (cfg_root c) /\ c_flagcount c + 8 <= 2040 /\ c_cachesize c < 4294967296.
Definition cfg_okb (c : config) : bool :=
  wf_symb (cfg_root c) && (c_flagcount c + 8 <=? 2040) && (c_cachesize c <? 4294967296).

Lemma cfg_okb_sound c : cfg_okb c = true -> cfg_ok c.
Proof.
  unfold cfg_okb, cfg_ok. intros H.
  apply andb_true_iff in H. destruct H as [H H3]. apply andb_true_iff in H. destruct H as [H1 H2].
  split; [apply wf_symb_true; exact H1|]. split; [apply N.leb_le; exact H2|apply N.ltb_lt; exact H3].
Qed.

Lemma len_falses n : len (falses n) = N.of_nat n.
Proof. unfold len. rewrite length_falses. reflexivity. Qed.

Lemma to_byte_size_covers bs : bs <= 2040 -> bs <= 8 * to_byte_size bs.
Proof. intros H. destruct (N.eqb_spec bs 0) as [->|]; [reflexivity|]. rewrite to_byte_size_eq by lia. lia. Qed.

Lemma fresh_SC k c : cfg_ok c -> SC (cfg_bits c) (c_cachesize c) k (fresh_state c) (fresh_cache c).
Proof.
  intros (Hroot & Hfc & Hcap). unfold cfg_bits.
  assert (Hbs : w32 (c_flagcount c + 8) = c_flagcount c + 8) by (unfold w32; apply N.mod_small; lia).
  eapply SC_flagish; [|apply fresh_state_flagish].
  unfold new_state, fresh_cache. cbv zeta.
  split; [reflexivity|]. split; [cbn [s_flags]; rewrite len_falses, N2Nat.id; apply to_byte_size_covers; lia|].
  split; [constructor|]. split; [cbn; discriminate|].
  intros _. split; [reflexivity|]. split; [apply new_cache_inv; exact Hcap|]. split; [reflexivity|exact I].
Qed.

Definition snap_ok (bits cap : N) (k : bool) (sn : option snapshot) : Prop :=
  match sn with Some (s, ca) => SC bits cap k s ca | None => True end.

Lemma new_engine_EInv k c sn w lg :
  cfg_ok c -> snap_ok (cfg_bits c) (c_cachesize c) k sn -> EInv (cfg_bits c) (c_cachesize c) k (new_engine c sn w lg).
Proof.
  intros Hc Hs. unfold new_engine. destruct sn as [[s ca]|]; [exact Hs|]. apply fresh_SC. exact Hc.
Qed.

Lemma snap_of_ok bits cap k st ca : SC bits cap k st ca -> snap_ok bits cap k (Some (snap_of st ca)).
Proof. intros H. unfold snap_of, snap_ok. apply SC_set_input_raw; [exact H|intros _; exact I]. Qed.

Definition PInv (bits cap : N) (k : bool) (p : pworld) : Prop := snap_ok bits cap k (pw_store p).

Lemma request_persisted_safe k fuel rs c p input :
  rs_wf (cfg_bits c) (c_cachesize c) k rs -> cfg_ok c -> PInv (cfg_bits c) (c_cachesize c) k p ->
  FirstOk (cfg_bits c) (c_cachesize c) k c (new_engine c (pw_store p) (pw_w p) (pw_log p)) ->
  resp_no_panic (snd (request_persisted fuel rs c p input))
  /\ PInv (cfg_bits c) (c_cachesize c) k (fst (request_persisted fuel rs c p input)).
Proof.
  intros Hrs Hc HP HF. rewrite request_persisted_long.
  pose proof (new_engine_EInv k c _ (pw_w p) (pw_log p) Hc HP) as HE.
  destruct (request_long_safe _ _ k fuel rs c _ input Hrs (proj1 Hc) HE HF) as (R1 & R2 & _). cbv zeta in R1, R2.
  destruct (request_long fuel rs c _ input) as [e2 r]. split; [exact R1|].
  apply (pers_of_store (snap_ok _ _ _)); [|intros _; apply snap_of_ok, R2].
  unfold store0_of, PInv in *. destruct (pw_store p); [exact HP|]. apply snap_of_ok, fresh_SC, Hc.
Qed.

(* histories in which every request has its own fuel (FlagProofs.requests and FlagProofs2.requests_long give
   all requests of a list one fuel) *)
Fixpoint hist_long (rs : rsrc) (c : config) (e : engine) (h : list (nat * bytes)) : engine * list response :=
  match h with
  | [] => (e, [])
  | (fuel, input) :: r =>
    let '(e', resp) := request_long fuel rs c e input in
    let '(e'', resps) := hist_long rs c e' r in (e'', resp :: resps)
  end.
Fixpoint hist_pers (rs : rsrc) (c : config) (p : pworld) (h : list (nat * bytes)) : pworld * list response :=
  match h with
  | [] => (p, [])
  | (fuel, input) :: r =>
    let '(p', resp) := request_persisted fuel rs c p input in
    let '(p'', resps) := hist_pers rs c p' r in (p'', resp :: resps)
  end.

Lemma FirstOk_none bits cap k c e : c_first c = None -> FirstOk bits cap k c e.
Proof. intros H. unfold FirstOk. rewrite H. exact I. Qed.

Lemma hist_long_safe bits cap k rs c :
  rs_wf bits cap k rs -> wf_sym (cfg_root c) ->
  match c_first c with Some script => Forall (fr_ok bits cap k) script | None => True end ->
  forall h e, EInv bits cap k e -> c_first c = None \/ e_initd e = true ->
  Forall resp_no_panic (snd (hist_long rs c e h)) /\ EInv bits cap k (fst (hist_long rs c e h)).
Proof.
  intros Hrs Hroot Hf. induction h as [|[fuel input] h IH]; intros e HE Hi; cbn [hist_long].
  - cbn [fst snd]. split; [constructor|exact HE].
  - assert (HF : FirstOk bits cap k c e).
    { destruct Hi as [Hn|Hi]; [exact (FirstOk_none _ _ _ _ _ Hn)|]. unfold FirstOk. destruct (c_first c); [split; [exact Hf|left; exact Hi]|exact I]. }
    pose proof (request_long_safe bits cap k fuel rs c e input Hrs Hroot HE HF) as (R1 & R2 & R3). cbv zeta in R1, R2, R3.
    assert (Hi' : c_first c = None \/ e_initd (fst (request_long fuel rs c e input)) = true)
      by (destruct Hi; [left|right; apply R3]; assumption).
    clear R3. destruct (request_long fuel rs c e input) as [e' resp]. cbn [fst snd] in R1, R2, Hi'.
    destruct (IH e' R2 Hi') as [I1 I2]. destruct (hist_long rs c e' h) as [e'' resps]. cbn [fst snd] in *.
    split; [constructor; assumption|exact I2].
Qed.

Lemma hist_pers_safe k rs c :
  rs_wf (cfg_bits c) (c_cachesize c) k rs -> cfg_ok c -> c_first c = None ->
  forall h p, PInv (cfg_bits c) (c_cachesize c) k p ->
  Forall resp_no_panic (snd (hist_pers rs c p h)) /\ PInv (cfg_bits c) (c_cachesize c) k (fst (hist_pers rs c p h)).
Proof.
  intros Hrs Hc Hf. induction h as [|[fuel input] h IH]; intros p HP; cbn [hist_pers].
  - cbn [fst snd]. split; [constructor|exact HP].
  - pose proof (request_persisted_safe k fuel rs c p input Hrs Hc HP (FirstOk_none _ _ _ _ _ Hf)) as [R1 R2].
    destruct (request_persisted fuel rs c p input) as [p' resp]. cbn [fst snd] in R1, R2.
    destruct (IH p' R2) as [I1 I2]. destruct (hist_pers rs c p' h) as [p'' resps]. cbn [fst snd] in *.
    split; [constructor; assumption|exact I2].
Qed.

From Vise Require Import CorrBase EngineCorr EngineMon.

(* entry functions' values are far from the uint32 wrap of the cache usage counter *)
Definition vals_small (cap : N) (a : app) : bool :=
  forallb (fun f => forallb (fun fr => len (fr_content fr) + INPUT_LIMIT + cap <? 4294967296) (snd f)) (a_funcs a).

Lemma instr_wf_iok a bits self i : instr_wf a bits self i = true -> iok bits false i.
Proof.
  destruct i; cbn [instr_wf iok]; try (intros; exact I); try discriminate.
  - intros H. apply andb_true_iff in H. destruct H as [_ H]. apply N.ltb_lt. exact H.
  - intros H. split; [apply N.ltb_lt; exact H|reflexivity].
Qed.

Definition is_croak (i : instr) : bool := match i with ICroak _ _ => true | _ => false end.
Lemma iok_no_croak bits i : iok bits false i -> is_croak i = false -> iok bits true i.
Proof. destruct i; cbn [iok is_croak]; auto. discriminate. Qed.

Lemma fres_wf_ok bits cap fr : fres_wf bits fr = true -> fr_ok bits cap false fr.
Proof.
  unfold fres_wf, fr_ok. intros H. apply andb_true_iff in H. destruct H as [H1 H2].
  rewrite forallb_forall in H1, H2.
  split; [apply Forall_forall; intros x Hx; apply N.ltb_lt; apply H1; exact Hx|].
  split; [apply Forall_forall; intros x Hx; apply N.ltb_lt; apply H2; exact Hx|discriminate].
Qed.

(* what the proofs use of wf_app_b (its cycle check is not among it) *)
Lemma wf_app_b_parts a c : wf_app_b a c = true ->
  has_node a (cfg_root c) = true
  /\ (forall sym code, In (sym, code) (a_code a) ->
       decodes code = true /\ forallb (instr_wf a (cfg_bits c) sym) (node_instrs a sym) = true)
  /\ (forall sym script, In (sym, script) (a_funcs a) -> forallb (fres_wf (cfg_bits c)) script = true)
  /\ match c_first c with Some script => forallb (fres_wf (cfg_bits c)) script = true | None => True end.
Proof.
  unfold wf_app_b, cfg_bits. cbv zeta. intros H. repeat rewrite andb_true_iff in H.
  destruct H as ((((Hroot & _) & Hnodes) & Hfuncs) & Hfirst). rewrite forallb_forall in Hnodes, Hfuncs.
  split; [exact Hroot|]. split; [|split].
  - intros sym code Hin. specialize (Hnodes _ Hin). cbn [fst snd] in Hnodes. repeat rewrite andb_true_iff in Hnodes.
    destruct Hnodes as (((Hd & Hi) & _) & _). auto.
  - intros sym script Hin. exact (Hfuncs _ Hin).
  - destruct (c_first c); [exact Hfirst|exact I].
Qed.

Lemma fres_wf_all bits cap script : forallb (fres_wf bits) script = true -> Forall (fr_ok bits cap false) script.
Proof. rewrite forallb_forall, Forall_forall. intros H fr Hin. apply fres_wf_ok, H, Hin. Qed.

Lemma wf_app_node a c sym code :
  wf_app_b a c = true -> alookup sym (a_code a) = Some code ->
  exists p, parse_all code = Ok p /\ node_instrs a sym = p /\ Forall (iok (cfg_bits c) false) p.
Proof.
  intros Hwf Hl. destruct (wf_app_b_parts a c Hwf) as (_ & Hnodes & _).
  destruct (Hnodes sym code (alookup_in_pair _ _ _ Hl)) as [Hd Hi].
  unfold decodes in Hd. destruct code as [|x code']; [discriminate|].
  destruct (parse_all (x :: code')) as [p|e|n] eqn:Ep; try discriminate.
  assert (En : node_instrs a sym = p) by (unfold node_instrs; rewrite Hl, Ep; reflexivity).
  exists p. split; [reflexivity|]. split; [exact En|]. rewrite En in Hi.
  rewrite forallb_forall in Hi. apply Forall_forall. intros i Hin. eapply instr_wf_iok, Hi, Hin.
Qed.

Lemma wf_app_rs_wf a c : wf_app_b a c = true -> rs_wf (cfg_bits c) (c_cachesize c) false (app_rsrc a).
Proof.
  intros Hwf. constructor; cbn [app_rsrc rs_code rs_tpl rs_menu rs_func].
  - intros sym. destruct (alookup sym (a_code a)) as [code|] eqn:El; [|exact I].
    destruct (wf_app_node a c sym code Hwf El) as (p & Hp & _ & HF). eapply code_ok_of_parse; eassumption.
  - intros l sym. destruct (lookup_lang (a_tpl a) sym l); reflexivity.
  - intros l t. destruct (lookup_lang (a_menu a) (t ++ menu_suffix) l); reflexivity.
  - intros sym script Hl. destruct (wf_app_b_parts a c Hwf) as (_ & _ & Hfs & _).
    apply fres_wf_all, (Hfs sym), alookup_in_pair, Hl.
Qed.

Lemma existsb_false {A} (f : A -> bool) l x : existsb f l = false -> In x l -> f x = false.
Proof. intros H Hin. destruct (f x) eqn:E; [|reflexivity]. rewrite <- H. symmetry. apply existsb_exists. eauto. Qed.

(* has_croak: the guard of K-C08-croak *)
Lemma wf_app_rs_wf_consistent a c :
  wf_app_b a c = true -> has_croak a = false -> vals_small (c_cachesize c) a = true ->
  rs_wf (cfg_bits c) (c_cachesize c) true (app_rsrc a).
Proof.
  intros Hwf Hnc Hsm. pose proof (wf_app_rs_wf a c Hwf) as H0.
  constructor; [|apply H0|apply H0|]; cbn [app_rsrc rs_code rs_func].
  - intros sym. destruct (alookup sym (a_code a)) as [code|] eqn:El; [|exact I].
    destruct (wf_app_node a c sym code Hwf El) as (p & Hp & En & HF).
    eapply code_ok_of_parse; [exact Hp|].
    pose proof (existsb_false _ _ _ Hnc (alookup_in_pair _ _ _ El)) as Hno. cbn [fst] in Hno. rewrite En in Hno.
    rewrite Forall_forall in *. intros i Hin. apply iok_no_croak; [apply HF, Hin|exact (existsb_false _ _ _ Hno Hin)].
  - intros sym script Hl. pose proof (rw_func _ _ _ _ H0 sym script Hl) as HF.
    unfold vals_small in Hsm. rewrite forallb_forall in Hsm.
    specialize (Hsm _ (alookup_in_pair _ _ _ Hl)). cbn [snd] in Hsm. rewrite forallb_forall in Hsm.
    rewrite Forall_forall in *. intros fr Hin. destruct (HF fr Hin) as (A1 & A2 & _).
    split; [exact A1|]. split; [exact A2|]. intros _. apply N.ltb_lt, Hsm, Hin.
Qed.

Definition session_consistent (st : state) (ca : cache) : Prop :=
  cache_levels ca = len (s_path st) + 1 /\ CInv ca.
Lemma SC_consistent bits cap st ca : SC bits cap true st ca -> session_consistent st ca.
Proof. intros H. split; [exact (SC_nav _ _ _ _ _ H eq_refl)|exact (SC_CInv _ _ _ _ _ H eq_refl)]. Qed.

Lemma wf_app_rs_wf_at a c k :
  wf_app_b a c = true -> (k = true -> has_croak a = false /\ vals_small (c_cachesize c) a = true) ->
  rs_wf (cfg_bits c) (c_cachesize c) k (app_rsrc a).
Proof.
  intros Hwf Hk. destruct k; [destruct (Hk eq_refl); apply wf_app_rs_wf_consistent|apply wf_app_rs_wf]; assumption.
Qed.

(* c_first c = None cannot be dropped: the witnesses of K-C08-first below *)
Lemma history_safe a c k w lg h :
  wf_app_b a c = true -> cfg_okb c = true -> c_first c = None ->
  (k = true -> has_croak a = false /\ vals_small (c_cachesize c) a = true) ->
  (Forall resp_no_panic (snd (hist_long (app_rsrc a) c (new_engine c None w lg) h))
   /\ EInv (cfg_bits c) (c_cachesize c) k (fst (hist_long (app_rsrc a) c (new_engine c None w lg) h)))
  /\ (Forall resp_no_panic (snd (hist_pers (app_rsrc a) c (mkPw None w lg false) h))
      /\ PInv (cfg_bits c) (c_cachesize c) k (fst (hist_pers (app_rsrc a) c (mkPw None w lg false) h))).
Proof.
  intros Hwf Hc Hf Hk. apply cfg_okb_sound in Hc. pose proof (wf_app_rs_wf_at a c k Hwf Hk) as Hrs.
  split.
  - apply hist_long_safe; [exact Hrs|apply Hc|rewrite Hf; exact I|apply new_engine_EInv; [exact Hc|exact I]|left; exact Hf].
  - apply hist_pers_safe; [exact Hrs|exact Hc|exact Hf|exact I].
Qed.

(* The witnesses of props/C08safe.v.
   K-C08-croak (C08_session_consistent_refuted_croak): root moves to foo, foo's "CROAK 8 0" fires (flag 8
   is not set): the cache is reset to one scope, the navigation stack keeps both nodes *)
Definition wit_croak_app : app :=
  mkApp [(s2b "root", encode (IMove (s2b "foo")));
         (s2b "foo", encode_prog [ICroak 8 false; IHalt]);
         (catch_sym, encode IHalt)] [] [] [].
Definition wit_croak_cfg : config := mkCfg 0 [] 1 0 [] [] false None.

(* K-C08-first, by depth (C08_history_never_panics_refuted_first_depth): with an entry function
   (WithFirst) every request of persisted operation runs State.Down("_first") on the stored position.
   applyTarget lets the stack grow to MaxLevel + 1 = 129 nodes, State.Down panics beyond MaxLevel
   nodes: a session 129 levels deep crashes on its next request. *)
Definition chain_name (k : N) : bytes := [110; 48 + k / 100; 48 + (k / 10) mod 10; 48 + k mod 10].
Fixpoint chain_nodes (n : nat) (k : N) : list (bytes * bytes) :=
  match n with
  | O => [(chain_name k, encode_prog [IHalt; IHalt])]
  | S n' => (chain_name k, encode (IMove (chain_name (k + 1)))) :: chain_nodes n' (k + 1)
  end.
Definition wit_deep_app : app :=
  mkApp ((s2b "root", encode (IMove (chain_name 1))) :: (catch_sym, encode IHalt) :: chain_nodes 127 1) [] [] [].
Definition wit_first_ok : fres := mkFres (s2b "x") false 0 [] [] false.
Definition wit_deep_cfg : config := mkCfg 0 [] 0 0 [] [] false (Some [wit_first_ok]).

(* Evaluating wf_app_b on the chain walks from every node to the end of the chain, each step
   searching the table: quadratic in the visits, slow without the VM.  Its cycle check is
   therefore argued: moves that descend along a rank cannot cycle, and here every move goes to
   a later entry of the table; the other conjuncts are evaluated. *)
Lemma mem_bytes_In x l : mem_bytes x l = true -> In x l.
Proof.
  induction l as [|y l IH]; cbn [mem_bytes]; [discriminate|]. intros H. apply orb_true_iff in H.
  destruct H as [H|H]; [left; symmetry; apply bytes_eqb_eq; exact H|right; apply IH; exact H].
Qed.

Lemma no_cycle_ranked a (rk : bytes -> nat) :
  (forall n t, In t (imm_targets a n) -> (rk t < rk n)%nat) ->
  forall fuel seen n, (rk n < fuel)%nat -> (forall s, In s seen -> (rk n < rk s)%nat) ->
  no_cycle_from fuel a seen n = true.
Proof.
  intros Hrk. induction fuel as [|f IH]; intros seen n Hf Hseen; [lia|]. cbn [no_cycle_from].
  apply andb_true_intro. split.
  - destruct (mem_bytes n seen) eqn:E; [|reflexivity]. apply mem_bytes_In, Hseen in E. lia.
  - apply forallb_forall. intros t Ht. specialize (Hrk _ _ Ht). apply IH; [lia|].
    intros s [<-|Hs]; [exact Hrk|]. specialize (Hseen _ Hs). lia.
Qed.

(* the rank of a node: how many entries of the table its own entry and the later ones are *)
Fixpoint entries_from {V} (n : bytes) (l : list (bytes * V)) : nat :=
  match l with
  | [] => O
  | (k, _) :: r => if bytes_eqb n k then S (List.length r) else entries_from n r
  end.
Lemma entries_from_le {V} n (l : list (bytes * V)) : (entries_from n l <= List.length l)%nat.
Proof. induction l as [|[k v] l IH]; cbn [entries_from List.length]; [lia|]. destruct (bytes_eqb n k); lia. Qed.

Lemma forward_moves_acyclic a :
  forallb (fun nc => forallb (fun t => Nat.ltb (entries_from t (a_code a)) (entries_from (fst nc) (a_code a)))
                             (imm_targets a (fst nc))) (a_code a) = true ->
  forall n, no_cycle_from (S (List.length (a_code a))) a [] n = true.
Proof.
  intros H n. apply (no_cycle_ranked a (fun n => entries_from n (a_code a))).
  - intros m t Ht. destruct (alookup m (a_code a)) as [c|] eqn:E.
    + rewrite forallb_forall in H. specialize (H _ (alookup_in_pair _ _ _ E)). cbn [fst] in H.
      rewrite forallb_forall in H. specialize (H t Ht). lia.
    + unfold imm_targets, node_instrs in Ht. rewrite E in Ht. destruct Ht.
  - pose proof (entries_from_le n (a_code a)). lia.
  - intros s [].
Qed.

Lemma forallb_and_r {A} (f g : A -> bool) l : (forall x, g x = true) -> forallb (fun x => f x && g x) l = forallb f l.
Proof. intros Hg. induction l as [|x l IH]; cbn [forallb]; [reflexivity|]. rewrite Hg, IH, andb_true_r. reflexivity. Qed.

(* K-C08-first, by failure (C08_history_never_panics_refuted_first_fail): a failing entry function
   sends its private VM to "_catch"; runFirst's single deferred Up leaves "_first" on the stack of the
   engine, which is not initialised.  The next Exec on the same (long-lived) engine calls
   State.Down("_first") again: "down into same node" panic. *)
Definition wit_first_fail : fres := mkFres [] false 1 [] [] true.
Definition wit_fail_cfg : config := mkCfg 0 [] 0 0 [] [] false (Some [wit_first_fail]).
Definition wit_fail_app : app := mkApp [(s2b "root", encode IHalt); (catch_sym, encode IHalt)] [] [] [].

(* K-C08-flagcount (C08_history_never_panics_refuted_flagcount): state.toByteSize returns a uint8:
   with more than 2032 client flags the flag field is SHORTER than BitSize says (FlagCount 4000:
   BitSize 4008, 245 bytes), and a flag the range check accepts indexes past the field.  cfg_okb
   excludes it. *)
Definition wit_flags_app : app :=
  mkApp [(s2b "root", encode_prog [ICatch catch_sym 2000 true; IHalt]); (catch_sym, encode IHalt)] [] [] [].
Definition wit_flags_cfg : config := mkCfg 0 [] 4000 0 [] [] false None.

Lemma wf_app_first a c :
  wf_app_b a c = true ->
  match c_first c with Some script => Forall (fr_ok (cfg_bits c) (c_cachesize c) false) script | None => True end.
Proof.
  intros Hwf. destruct (wf_app_b_parts a c Hwf) as (_ & _ & _ & Hf).
  destruct (c_first c); [apply fres_wf_all; exact Hf|exact I].
Qed.

Lemma first_pre_fresh c w lg : first_pre (v_st (e_v (new_engine c None w lg))).
Proof.
  destruct (fresh_state_flagish c) as (E & _). unfold first_pre, new_engine. cbn [e_v v_st]. rewrite E.
  split; [cbn; lia|cbn; discriminate].
Qed.

(* non-vacuity (C08_guards_inhabited, C08_history_nontrivial, C08_invariant_inhabited, C08_rs_wf_inhabited):
   LOAD + MAP + menu + INCMP + CATCH + _catch with an ascent *)
Definition wit_app : app :=
  mkApp [(s2b "root", encode_prog [ILoad (s2b "aa") 0; IMap (s2b "aa"); IMOut (s2b "go") (s2b "1"); IHalt; IInCmp (s2b "foo") (s2b "1")]);
         (s2b "foo", encode_prog [ICatch (s2b "root") 9 true; IMOut (s2b "back") (s2b "0"); IHalt; IInCmp (s2b "_") (s2b "0")]);
         (catch_sym, encode_prog [IHalt; IMove (s2b "_")])]
        [(s2b "root", s2b "root {{.aa}}"); (s2b "foo", s2b "foo"); (catch_sym, s2b "catch")] []
        [(s2b "aa", [mkFres (s2b "hello") false 0 [8] [] false])].
Definition wit_cfg : config := mkCfg 0 [] 2 0 [] [] false None.
(* start, valid selector, junk, over-long, unknown selector, ascent, and a request without fuel *)
Definition wit_hist : list (nat * bytes) :=
  [(200%nat, []); (200%nat, s2b "1"); (200%nat, s2b "!junk"); (200%nat, rep 65 300); (200%nat, s2b "9");
   (200%nat, s2b "0"); (0%nat, s2b "1")].
Definition resp_view (r : response) := (r_cont r, r_exec r, r_out r, r_flush r).
Definition wit_trace : list (bool * stat * bytes * fstat) :=
  [(true, SOk, s2b "root hello" ++ [10] ++ s2b "1:go", FOk);
   (true, SOk, s2b "foo" ++ [10] ++ s2b "0:back", FOk);
   (true, SErr EGen None, [], FErr EFlushNoExec);
   (false, SErr EGen None, [], FErr EFlushNoExec);
   (true, SOk, s2b "invalid input: '9'" ++ [10] ++ s2b "catch", FOk);
   (true, SOk, s2b "foo" ++ [10] ++ s2b "0:back", FOk);
   (false, SFuel, [], FFuel)].

Lemma wit_guards :
  wf_app_b wit_app wit_cfg = true /\ cfg_okb wit_cfg = true /\ c_first wit_cfg = None
  /\ has_croak wit_app = false /\ vals_small (c_cachesize wit_cfg) wit_app = true.
Proof. vm_compute. repeat split. Qed.
Lemma wit_runs :
  map resp_view (snd (hist_long (app_rsrc wit_app) wit_cfg (new_engine wit_cfg None [] []) wit_hist)) = wit_trace
  /\ map resp_view (snd (hist_pers (app_rsrc wit_app) wit_cfg (mkPw None [] [] false) wit_hist)) = wit_trace.
Proof. vm_compute. split; reflexivity. Qed.
(* the same application behind an entry function that succeeds (C08_first_long_inhabited) *)
Definition wit_first_cfg : config := mkCfg 0 [] 2 0 [] [] false (Some [wit_first_ok]).
