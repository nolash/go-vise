(* The flag field of the state model (StateModel.get_flag / set_flag / reset_flag / match_flag over
   new_state) behaves as a SET OF FLAG INDICES, for every flag count with count + 8 <= 2040 (a bit field of
   at most 255 bytes: beyond that NewState's uint8 byte size wraps) and every sequence of operations.
   In order: the reference set (mem_n_ins, mem_n_del); the invariant FR between a state and a set, through one
   operation (FR_step) and through every sequence, in two forms of the runs (FR_ops, and FR_run over FlagCorr's
   own); then the field as the bytes the state exports (flag_bytes: flag i is bit i mod 8 of byte i / 8;
   FR_bytes) and what the write of one bit leaves alone (write_bit).  For props/C06f.v.
   VmProofs is imported for six lemmas on bit lists only: nth_set_nth_bit_same, nth_set_nth_bit_other,
   length_set_nth_bit, to_byte_size_eq, length_falses, nth_falses. *)
From Coq Require Import Lia ZArith ZifyN ZifyNat ZifyBool.
From Vise Require Import VmProofs Bytes Errors Consts StateModel CorrBase FlagCorr BytesProofs.
Local Open Scope N_scope.

(* lia is to see through the / 8 and mod 8 of the byte layout of the flag field *)
Local Ltac Zify.zify_post_hook ::= Z.div_mod_to_equations.

Lemma nth_nil {A} : forall k (d : A), nth k [] d = d.
Proof. intros [|k]; reflexivity. Qed.

Lemma mem_n_nil : forall i, mem_n i [] = false.
Proof. reflexivity. Qed.

Lemma mem_n_cons : forall i j l, mem_n i (j :: l) = (i =? j) || mem_n i l.
Proof. reflexivity. Qed.

Lemma mem_n_ins : forall i l j, mem_n j (if mem_n i l then l else i :: l) = if j =? i then true else mem_n j l.
Proof.
  intros i l j. destruct (mem_n i l) eqn:Em; [|apply mem_n_cons].
  destruct (N.eqb_spec j i) as [->|_]; [exact Em|reflexivity].
Qed.

Lemma mem_n_del : forall i l j, mem_n j (del_n i l) = if j =? i then false else mem_n j l.
Proof.
  intros i l j. unfold del_n. induction l as [|x l IH]; cbn [filter]; [now destruct (j =? i)|].
  destruct (N.eqb_spec x i) as [->|Hx]; cbn [negb]; rewrite ?mem_n_cons, IH;
    destruct (N.eqb_spec j i) as [Ej|Hj]; try reflexivity.
  rewrite Ej. now rewrite (proj2 (N.eqb_neq i x)) by congruence.
Qed.

Lemma new_state_bitsize : forall count, count + 8 <= 2040 -> s_bitsize (new_state count) = count + 8.
Proof. intros count Hle. unfold new_state. cbn [s_bitsize]. unfold w32. lia. Qed.

Lemma new_state_flags : forall count, count + 8 <= 2040 ->
  s_flags (new_state count) = falses (N.to_nat (8 * ((count + 15) / 8))).
Proof.
  intros count Hle. unfold new_state. cbn [s_flags].
  replace (w32 (count + 8)) with (count + 8) by (unfold w32; lia).
  rewrite to_byte_size_eq by lia.
  replace (count + 8 + 7) with (count + 15) by lia. reflexivity.
Qed.

(* the invariant: the state's flag field IS the set *)
Definition FR (count : N) (s : state) (set : list N) : Prop :=
  s_bitsize s = count + 8 /\
  len (s_flags s) = 8 * ((count + 15) / 8) /\
  forall i, nth (N.to_nat i) (s_flags s) false = mem_n i set.

Lemma FR_bitsize {count s set} : FR count s set -> s_bitsize s = count + 8.
Proof. intros (H & _). exact H. Qed.
Lemma FR_len {count s set} : FR count s set -> len (s_flags s) = 8 * ((count + 15) / 8).
Proof. intros (_ & H & _). exact H. Qed.
Lemma FR_nth {count s set} i : FR count s set -> nth (N.to_nat i) (s_flags s) false = mem_n i set.
Proof. intros (_ & _ & H). apply H. Qed.

Lemma FR_new : forall count, count + 8 <= 2040 -> FR count (new_state count) [].
Proof.
  intros count Hle. unfold FR. rewrite new_state_bitsize, new_state_flags by exact Hle.
  split; [reflexivity|]. split.
  - unfold len. rewrite length_falses. lia.
  - intros i. apply nth_falses.
Qed.

(* the range check of GetFlag/SetFlag/ResetFlag is exactly "the flag exists", for EVERY i : N:
   i = 2^32 - 1 passes the uint32 test (w32 (i + 1) = 0) but fails the slice index *)
Lemma FR_in_range : forall count s set i, count + 8 <= 2040 -> FR count s set ->
  flag_in_range s i = fl_exists count i.
Proof.
  intros count s set i Hle H. unfold flag_in_range, fl_exists, w32. rewrite (FR_bitsize H), (FR_len H).
  destruct (i <? count + 8) eqn:Ei.
  - apply andb_true_intro. split; lia.
  - destruct (i <? 8 * ((count + 15) / 8)) eqn:Ej; [|apply andb_false_r].
    rewrite andb_true_r. lia.
Qed.

Lemma FR_write : forall count s set i v set', FR count s set -> i < count + 8 ->
  (forall j, mem_n j set' = if j =? i then v else mem_n j set) ->
  FR count (set_flags s (set_nth_bit (N.to_nat i) v (s_flags s))) set'.
Proof.
  intros count s set i v set' (Hb & Hl & Hn) Hi Hset. unfold FR, len in *. cbn [s_bitsize s_flags set_flags].
  rewrite length_set_nth_bit. split; [exact Hb|]. split; [exact Hl|].
  intros j. rewrite Hset. destruct (N.eqb_spec j i) as [->|Hne].
  - apply nth_set_nth_bit_same. lia.
  - rewrite nth_set_nth_bit_other by lia. apply Hn.
Qed.

Definition fop_idx (o : fop) : N := match o with FSet i | FReset i | FGet i | FMatch i _ => i end.

(* the reference, one operation: new set and the expected answer *)
Definition fl_ref_step (count : N) (set : list N) (o : fop) : list N * fobs :=
  let i := fop_idx o in
  if negb (fl_exists count i) then (set, FPanic) else
  match o with
  | FSet _ => (if mem_n i set then set else i :: set, FB (negb (mem_n i set)))
  | FReset _ => (del_n i set, FB (mem_n i set))
  | FGet _ => (set, FB (mem_n i set))
  | FMatch _ m => (set, FB (Bool.eqb m (mem_n i set)))
  end.

Lemma fl_ref_run_cons : forall count set o r ops,
  fl_ref_run count set ((o, r) :: ops) =
  let '(set1, want) := fl_ref_step count set o in
  let '(ok, set') := fl_ref_run count set1 ops in (fobs_eqb r want && ok, set').
Proof.
  intros count set o r ops. cbn [fl_ref_run]. unfold fl_ref_step, fop_idx.
  destruct o as [i|i|i|i m]; cbv beta iota zeta;
    destruct (negb (fl_exists count i)); reflexivity.
Qed.

Lemma FR_step : forall count s set o, count + 8 <= 2040 -> FR count s set ->
  FR count (fst (fl_model_step s o)) (fst (fl_ref_step count set o)) /\
  snd (fl_model_step s o) = snd (fl_ref_step count set o).
Proof.
  intros count s set o Hle HFR.
  pose proof (FR_in_range count s set (fop_idx o) Hle HFR) as Hr.
  pose proof (FR_nth (fop_idx o) HFR) as Hn.
  unfold fl_model_step, fl_ref_step, set_flag, reset_flag, match_flag, get_flag.
  destruct o as [i|i|i|i m]; cbn [fop_idx] in *; rewrite Hr;
    destruct (fl_exists count i) eqn:Ex; cbn [negb obind fst snd]; rewrite ?Hn;
    (split; [|reflexivity]); try exact HFR; unfold fl_exists in Ex.
  - apply (FR_write count s set); [exact HFR|lia|exact (mem_n_ins i set)].
  - apply (FR_write count s set); [exact HFR|lia|exact (mem_n_del i set)].
Qed.

Fixpoint fl_model_answers (s : state) (ops : list fop) : list fobs :=
  match ops with
  | [] => []
  | o :: ops' => let '(s', r) := fl_model_step s o in r :: fl_model_answers s' ops'
  end.
Fixpoint fl_model_final (s : state) (ops : list fop) : state :=
  match ops with
  | [] => s
  | o :: ops' => fl_model_final (fst (fl_model_step s o)) ops'
  end.
Fixpoint fl_ref_answers (count : N) (set : list N) (ops : list fop) : list fobs :=
  match ops with
  | [] => []
  | o :: ops' => let '(set', r) := fl_ref_step count set o in r :: fl_ref_answers count set' ops'
  end.
Fixpoint fl_ref_final (count : N) (set : list N) (ops : list fop) : list N :=
  match ops with
  | [] => set
  | o :: ops' => fl_ref_final count (fst (fl_ref_step count set o)) ops'
  end.

(* THE property: from a state that holds a set (NewState(count) holds the empty one, FR_new) the model
   answers every operation of every sequence exactly as a set of flag indices does, and ends holding
   the set the reference ends with *)
Lemma FR_ops : forall count ops s set, count + 8 <= 2040 -> FR count s set ->
  fl_model_answers s ops = fl_ref_answers count set ops /\
  FR count (fl_model_final s ops) (fl_ref_final count set ops).
Proof.
  intros count ops. induction ops as [|o ops IH]; intros s set Hle HFR; [split; [reflexivity|exact HFR]|].
  cbn [fl_model_answers fl_ref_answers fl_model_final fl_ref_final].
  destruct (FR_step count s set o Hle HFR) as [HF Hr].
  destruct (fl_model_step s o) as [s' r]. destruct (fl_ref_step count set o) as [set' r'].
  cbn [fst snd] in *. subst r'. destruct (IH s' set' Hle HF) as [-> HF']. split; [reflexivity|exact HF'].
Qed.

(* the same over FlagCorr's own runs, whatever the observed values are *)
Lemma FR_run : forall count ops s set, count + 8 <= 2040 -> FR count s set ->
  fst (fl_model_run s ops) = fst (fl_ref_run count set ops) /\
  FR count (snd (fl_model_run s ops)) (snd (fl_ref_run count set ops)).
Proof.
  intros count ops. induction ops as [|[o r] ops IH]; intros s set Hle HFR.
  - cbn [fl_model_run fl_ref_run fst snd]. split; [reflexivity|exact HFR].
  - rewrite fl_ref_run_cons. cbn [fl_model_run].
    pose proof (FR_step count s set o Hle HFR) as [HF Hr].
    destruct (fl_model_step s o) as [s' r1]. destruct (fl_ref_step count set o) as [set' r2].
    cbn [fst snd] in HF, Hr. subst r2.
    pose proof (IH s' set' Hle HF) as [Hok HF'].
    destruct (fl_model_run s' ops) as [ok1 s'']. destruct (fl_ref_run count set' ops) as [ok2 set''].
    cbn [fst snd] in *. subst ok2. split; [reflexivity|exact HF'].
Qed.

Lemma bits_val_double : forall l w, bits_val l (2 * w) = 2 * bits_val l w.
Proof. induction l as [|b l IH]; intros w; cbn [bits_val]; [reflexivity|]. rewrite IH. destruct b; lia. Qed.

Lemma testbit_bits_val : forall l j, N.testbit (bits_val l 1) j = nth (N.to_nat j) l false.
Proof.
  induction l as [|b l IH]; intros j; cbn [bits_val].
  - rewrite nth_nil. apply N.bits_0.
  - rewrite bits_val_double.
    replace ((if b then 1 else 0) + 2 * bits_val l 1) with (2 * bits_val l 1 + N.b2n b) by (destruct b; cbn [N.b2n]; lia).
    destruct (N.zero_or_succ j) as [->|[k ->]].
    + apply N.testbit_0_r.
    + rewrite N.testbit_succ_r, N2Nat.inj_succ. apply IH.
Qed.

Lemma byte_bit_nil : forall i, byte_bit [] i = false.
Proof. intros i. unfold byte_bit. rewrite nth_nil. apply N.bits_0. Qed.

Lemma byte_bit_cons_lt : forall x bs i, i < 8 -> byte_bit (x :: bs) i = N.testbit x i.
Proof.
  intros x bs i Hi. unfold byte_bit.
  replace (i / 8) with 0 by lia. replace (i mod 8) with i by lia. reflexivity.
Qed.

Lemma byte_bit_cons_ge : forall x bs i, 8 <= i -> byte_bit (x :: bs) i = byte_bit bs (i - 8).
Proof.
  intros x bs i Hi. unfold byte_bit.
  replace (N.to_nat (i / 8)) with (S (N.to_nat ((i - 8) / 8))) by lia.
  replace ((i - 8) mod 8) with (i mod 8) by lia. reflexivity.
Qed.

Lemma flag_bytes_fuel_nil : forall fuel, flag_bytes_fuel fuel [] = [].
Proof. intros [|f]; reflexivity. Qed.

Lemma flag_bytes_fuel_spec : forall n fuel l,
  List.length l = (8 * n)%nat -> (n <= fuel)%nat ->
  List.length (flag_bytes_fuel fuel l) = n /\
  forall i, byte_bit (flag_bytes_fuel fuel l) i = nth (N.to_nat i) l false.
Proof.
  induction n as [|n IH]; intros fuel l Hlen Hfuel.
  - destruct l; [|discriminate Hlen]. rewrite flag_bytes_fuel_nil. split; [reflexivity|].
    intros i. now rewrite byte_bit_nil, nth_nil.
  - destruct fuel as [|f]; [lia|].
    assert (E : flag_bytes_fuel (S f) l = bits_val (firstn 8 l) 1 :: flag_bytes_fuel f (skipn 8 l))
      by (destruct l; [discriminate Hlen|reflexivity]).
    rewrite E. destruct (IH f (skipn 8 l)) as [IHlen IHbit]; [rewrite skipn_length; lia|lia|].
    split; [cbn [List.length]; now rewrite IHlen|].
    (* the first byte holds the first eight bits, the other bytes the rest *)
    intros i. rewrite <- (firstn_skipn 8 l) at 3.
    assert (H8 : List.length (firstn 8 l) = 8%nat) by (rewrite firstn_length; lia).
    destruct (N.ltb_spec i 8).
    + rewrite byte_bit_cons_lt, testbit_bits_val, app_nth1 by lia. reflexivity.
    + rewrite byte_bit_cons_ge, IHbit, app_nth2 by lia. f_equal. lia.
Qed.

Lemma flag_bytes_spec : forall n l, List.length l = (8 * n)%nat ->
  len (flag_bytes l) = N.of_nat n /\
  forall i, byte_bit (flag_bytes l) i = nth (N.to_nat i) l false.
Proof.
  intros n l Hlen. unfold flag_bytes, len.
  destruct (flag_bytes_fuel_spec n (S (List.length l)) l Hlen ltac:(lia)) as [Hl Hb].
  rewrite Hl. split; [reflexivity|exact Hb].
Qed.

Lemma FR_bytes : forall count s set, FR count s set ->
  len (flag_bytes (s_flags s)) = (count + 15) / 8 /\
  forall i, byte_bit (flag_bytes (s_flags s)) i = mem_n i set.
Proof.
  intros count s set H. pose proof (FR_len H) as Hl.
  assert (Hlen : List.length (s_flags s) = (8 * N.to_nat ((count + 15) / 8))%nat)
    by (unfold len in Hl; lia).
  destruct (flag_bytes_spec _ _ Hlen) as [Hbl Hbb].
  split; [rewrite Hbl; lia|]. intros i. rewrite Hbb. apply (FR_nth i H).
Qed.

Definition same_but_flag_field (s s' : state) : Prop :=
  s_code s' = s_code s /\ s_path s' = s_path s /\ s_bitsize s' = s_bitsize s /\ s_idx s' = s_idx s /\
  s_lang s' = s_lang s /\ s_input s' = s_input s /\ len (s_flags s') = len (s_flags s).

Lemma write_bit : forall s i v, let s' := set_flags s (set_nth_bit (N.to_nat i) v (s_flags s)) in
  same_but_flag_field s s' /\
  (forall j, j <> i -> get_flag s' j = get_flag s j) /\
  (flag_in_range s i = true -> get_flag s' i = Ok v).
Proof.
  intros s i v s'.
  assert (Hr : forall j, flag_in_range s' j = flag_in_range s j).
  { intros j. unfold flag_in_range, len. cbn [s' s_bitsize s_flags set_flags]. now rewrite length_set_nth_bit. }
  split; [|split].
  - unfold same_but_flag_field, len. cbn [s' s_flags set_flags]. rewrite length_set_nth_bit. repeat split.
  - intros j Hne. unfold get_flag. rewrite Hr. cbn [s' s_flags set_flags].
    rewrite nth_set_nth_bit_other by lia. reflexivity.
  - intros Hi. unfold get_flag. rewrite Hr, Hi. cbn [s' s_flags set_flags]. f_equal.
    apply nth_set_nth_bit_same. unfold flag_in_range, len in Hi. lia.
Qed.
