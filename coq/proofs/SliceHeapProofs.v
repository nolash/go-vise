(* Lemmas about model/SliceHeap.v (property C19): the ownership invariant of the sessions' slices and the
   soundness of one repaired step under it; any schedule refines value semantics and sessions do not interfere;
   Run and the handlers of VmModel only ever do to the code what the trace language can express. *)
From Coq Require Import Lia ZArith ZifyN ZifyNat.
From Vise Require Import Bytes BytesProofs Errors Consts EngConsts Codec CodecProofs CacheModel StateModel NavModel RenderModel VmModel EngineModel VmProofs SliceHeap.
Local Open Scope N_scope.

Lemma owner_eqb_eq a b : owner_eqb a b = true <-> a = b.
Proof.
  destruct a as [|s|], b as [|t|]; cbn [owner_eqb]; split; intros H; try discriminate; try reflexivity.
  - apply N.eqb_eq in H. now subst.
  - inversion H. apply N.eqb_refl.
Qed.

Lemma aid_eqb_eq (a b : aid) : aid_eqb a b = true <-> a = b.
Proof.
  destruct a as [oa ka], b as [ob kb]. unfold aid_eqb. cbn [fst snd]. rewrite andb_true_iff, owner_eqb_eq, N.eqb_eq.
  split; [intros [-> ->]; reflexivity | intros H; inversion H; auto].
Qed.

Lemma h_set_same (h : heap) a v : h_set h a v a = v.
Proof. unfold h_set. now rewrite (proj2 (aid_eqb_eq a a) eq_refl). Qed.

Lemma h_set_other (h : heap) a v b : b <> a -> h_set h a v b = h b.
Proof. intros H. unfold h_set. destruct (aid_eqb b a) eqn:E; [apply aid_eqb_eq in E; contradiction|reflexivity]. Qed.

Lemma take_0 {A} (l : list A) : take 0 l = [].
Proof. reflexivity. Qed.

Lemma take_add {A} a b (l : list A) : take (a + b) l = take a l ++ take b (drop a l).
Proof.
  unfold take, drop. rewrite N2Nat.inj_add. generalize (N.to_nat a) as n. intros n. revert l.
  induction n as [|n IH]; intros [|x l]; cbn [firstn skipn Nat.add List.app]; rewrite ?firstn_nil; try reflexivity.
  now rewrite IH.
Qed.

Lemma len_write_at pos data arr : pos + len data <= len arr -> len (write_at pos data arr) = len arr.
Proof.
  intros H. unfold write_at. rewrite !len_app, len_take by lia. rewrite len_drop. lia.
Qed.

Lemma read_after_write off ln data arr :
  off + ln + len data <= len arr ->
  take (ln + len data) (drop off (write_at (off + ln) data arr)) = take ln (drop off arr) ++ data.
Proof.
  intros H. unfold write_at. rewrite (take_add off ln), <- app_assoc, drop_app_exact by (rewrite len_take; lia).
  rewrite app_assoc. apply take_app_exact. rewrite len_app, len_take by (rewrite len_drop; lia). reflexivity.
Qed.

Lemma read_before_write off ln pos data arr :
  off + ln <= pos -> pos <= len arr ->
  take ln (drop off (write_at pos data arr)) = take ln (drop off arr).
Proof.
  intros H1 H2. unfold write_at. replace (take pos arr) with (take (off + ln + (pos - (off + ln))) arr) by (f_equal; lia).
  rewrite !take_add, <- !app_assoc, drop_app_exact by (rewrite len_take; lia).
  apply take_app_exact. rewrite len_take by (rewrite len_drop; lia). reflexivity.
Qed.

Lemma sl_read_len (h : owner * N -> list N) sl : len (sl_read h sl) <= sl_len sl.
Proof. unfold sl_read, take, len. rewrite firstn_length. lia. Qed.

Lemma sl_read_len_exact (h : heap) sl :
  sl_off sl + sl_len sl <= len (h (sl_arr sl)) -> len (sl_read h sl) = sl_len sl.
Proof. intros H. unfold sl_read. rewrite len_take; [reflexivity|]. rewrite len_drop. lia. Qed.

Lemma sl_read_nil (h : owner * N -> list N) : sl_read h sl_nil = [].
Proof. reflexivity. Qed.

Lemma sl_read_len0 (h : heap) sl : sl_len sl = 0 -> sl_read h sl = [].
Proof. intros H. unfold sl_read. now rewrite H. Qed.

Lemma skipn_add {A} (k o : nat) : forall a : list A, skipn (k + o) a = skipn k (skipn o a).
Proof.
  induction o as [|o IH]; intros a.
  - now rewrite Nat.add_0_r.
  - destruct a as [|x a]; [now rewrite !skipn_nil|].
    replace (k + S o)%nat with (S (k + o)) by lia. cbn [skipn]. apply IH.
Qed.

Lemma sl_read_reslice (h : heap) n sl : sl_read h (sl_reslice n sl) = drop n (sl_read h sl).
Proof.
  unfold sl_read, sl_reslice, take, drop. cbn [sl_arr sl_off sl_len].
  destruct (N.le_gt_cases n (sl_len sl)) as [Hle|Hgt].
  - rewrite N.min_l by lia.
    replace (N.to_nat (sl_off sl + n)) with (N.to_nat n + N.to_nat (sl_off sl))%nat by lia.
    replace (N.to_nat (sl_len sl - n)) with (N.to_nat (sl_len sl) - N.to_nat n)%nat by lia.
    rewrite skipn_firstn_comm. f_equal. apply skipn_add.
  - rewrite N.min_r by lia. replace (sl_len sl - sl_len sl) with 0 by lia.
    cbn [N.to_nat firstn]. rewrite skipn_all2; [reflexivity|]. rewrite firstn_length. lia.
Qed.

(* a slice of session s: empty with no capacity, or inside an array the session allocated itself *)
Definition slice_own (s next : N) (h : owner * N -> list N) (sl : slice) : Prop :=
  (sl_cap sl = 0 /\ sl_len sl = 0) \/
  (exists k, sl_arr sl = (OOwned s, k) /\ k < next /\
             sl_off sl + sl_cap sl <= len (h (sl_arr sl)) /\ sl_len sl <= sl_cap sl).

Definition sess_inv (s : N) (h : owner * N -> list N) (ss : sess) : Prop :=
  slice_own s (ss_next ss) h (ss_buf ss) /\ slice_own s (ss_next ss) h (ss_code ss) /\
  (sl_arr (ss_buf ss) <> sl_arr (ss_code ss) \/ sl_cap (ss_buf ss) = 0 \/ sl_cap (ss_code ss) = 0).

Definition shared_intact (tbl : list (list N * list N)) (h : owner * N -> list N) : Prop :=
  forall k, h (OShared, k) = res_heap tbl (OShared, k).

Definition winv (tbl : list (list N * list N)) (w : world) : Prop :=
  shared_intact tbl (w_heap w) /\ forall s, sess_inv s (w_heap w) (w_sess w s).

(* what a step of session s leaves of the heap: every array that is not one of s's own *)
Definition frame_for (s : N) (h h' : heap) : Prop :=
  forall a, (forall k, a <> (OOwned s, k)) -> h' a = h a.

Lemma no_write s (h : heap) :
  (forall a : aid, In a [] -> exists k, a = (OOwned s, k)) /\ frame_for s h h.
Proof. split; [intros a []|intros a _; reflexivity]. Qed.

Lemma slice_own_nil s next h : slice_own s next h sl_nil.
Proof. left. split; reflexivity. Qed.

Lemma slice_own_next s n n' h sl : n <= n' -> slice_own s n h sl -> slice_own s n' h sl.
Proof.
  intros Hn [H|(k & Ha & Hk & Hb & Hl)]; [left; exact H|].
  right. exists k. repeat split; try assumption. lia.
Qed.

Lemma slice_own_read_len {s n h sl} : slice_own s n h sl -> len (sl_read h sl) = sl_len sl.
Proof.
  intros [[_ Hl]|(k & _ & _ & Hb & Hl)]; [now rewrite sl_read_len0, Hl|apply sl_read_len_exact; lia].
Qed.

Lemma slice_own_reslice s n h k sl : slice_own s n h sl -> slice_own s n h (sl_reslice k sl).
Proof.
  unfold sl_reslice. intros [H|(j & Ha & Hj & Hb & Hl)]; [left|right; exists j]; cbn [sl_arr sl_off sl_len sl_cap];
    repeat split; try assumption; lia.
Qed.

Lemma slice_own_same_array s n (h h' : heap) sl :
  slice_own s n h sl -> sl_cap sl = 0 \/ h' (sl_arr sl) = h (sl_arr sl) ->
  slice_own s n h' sl /\ sl_read h' sl = sl_read h sl.
Proof.
  intros [H|(k & Ha & Hk & Hb & Hl)] [Hc|E].
  1,2: split; [left; exact H|now rewrite !sl_read_len0].
  - split; [left; lia|rewrite !sl_read_len0 by lia; reflexivity].
  - split; [right; exists k; now rewrite E|unfold sl_read; now rewrite E].
Qed.

Lemma slice_own_frame {s t n h h' sl} :
  t <> s -> frame_for s h h' -> slice_own t n h sl ->
  slice_own t n h' sl /\ sl_read h' sl = sl_read h sl.
Proof.
  intros Hts Hf H. apply slice_own_same_array; [exact H|].
  destruct H as [[Hc _]|(k & Ha & _)]; [left; exact Hc|right].
  apply Hf. rewrite Ha. congruence.
Qed.

Lemma sess_inv_frame s t h h' ss :
  t <> s -> frame_for s h h' -> sess_inv t h ss -> sess_inv t h' ss /\ sess_obs h' ss = sess_obs h ss.
Proof.
  intros Hts Hf (Hb & Hc & Hd).
  destruct (slice_own_frame Hts Hf Hb) as [Hb' Eb], (slice_own_frame Hts Hf Hc) as [Hc' Ec].
  split; [exact (conj Hb' (conj Hc' Hd))|]. unfold sess_obs. now rewrite Eb, Ec.
Qed.

(* array k of session s is given the contents v: a slice sl' inside v and the session's other slice ot, which lies elsewhere,
   make a session again; ot reads as before, sl' reads x from v *)
Lemma own_write_sound {s k n n'} {h : heap} {v sl' ot x} :
  slice_own s n h ot -> sl_cap ot = 0 \/ sl_arr ot <> (OOwned s, k) -> n <= n' -> k < n' ->
  sl_arr sl' = (OOwned s, k) -> sl_off sl' + sl_cap sl' <= len v -> sl_len sl' <= sl_cap sl' ->
  take (sl_len sl') (drop (sl_off sl') v) = x ->
  let h' := h_set h (OOwned s, k) v in
  sess_inv s h' (mkSess sl' ot n') /\ sess_obs h' (mkSess sl' ot n') = (x, sl_read h ot) /\
  (forall a, In a [(OOwned s, k)] -> exists j, a = (OOwned s, j)) /\ frame_for s h h'.
Proof.
  intros Hot Hne Hn Hk Ha Hb Hl Hx h'.
  destruct (slice_own_same_array s n' h h' ot (slice_own_next s n n' h ot Hn Hot)) as [Hot1 Hot2];
    [destruct Hne as [Hc|Hne]; [left; exact Hc|right; now apply h_set_other]|].
  unfold sess_inv, sess_obs. cbn [ss_buf ss_code ss_next]. split; [split; [|split; [exact Hot1|]]|split; [|split]].
  - right. exists k. rewrite Ha. unfold h'. rewrite h_set_same. auto.
  - rewrite Ha. destruct Hne as [Hc|Hne]; [right; right; exact Hc|left; congruence].
  - rewrite Hot2. unfold sl_read at 1, h'. rewrite Ha, h_set_same, Hx. reflexivity.
  - intros a [<-|[]]. now exists k.
  - intros a Hna. apply h_set_other, Hna.
Qed.

(* a node's code is what its slice reads, as long as the shared arrays are as the table gave them *)
Lemma res_code_read tbl h k : shared_intact tbl h -> res_code tbl k = option_map (sl_read h) (res_slice tbl k).
Proof.
  intros Hs. unfold res_slice, res_code. destruct (res_entry tbl k) as [[code spare]|] eqn:E; [|reflexivity].
  cbn [option_map]. unfold sl_read. cbn [sl_arr sl_off sl_len]. rewrite Hs. unfold res_heap. cbn [fst snd]. rewrite E.
  rewrite drop_0, take_app_exact; reflexivity.
Qed.

Lemma sess_inv_nil {s n h b} : slice_own s n h b -> sess_inv s h (mkSess sl_nil b n).
Proof. intros Hb. exact (conj (slice_own_nil _ _ _) (conj Hb (or_intror (or_introl eq_refl)))). Qed.

Lemma sess_inv_swap {s n h a b} : sess_inv s h (mkSess a b n) -> sess_inv s h (mkSess b a n).
Proof. intros (Ha & Hb & Hd). split; [exact Hb|split; [exact Ha|]]. cbn [ss_buf ss_code] in *. intuition auto. Qed.

(* the slice appended to and the other slice the session owns are written here as a session that holds the two *)
Lemma append_sound {s next} {h : heap} {sl ot data grow h' sl' wr used} :
  sess_inv s h (mkSess sl ot next) ->
  sl_append grow (OOwned s, next) h sl data = (h', sl', wr, used) ->
  let ss' := mkSess sl' ot (if used then next + 1 else next) in
  sess_inv s h' ss' /\ sess_obs h' ss' = (sl_read h sl ++ data, sl_read h ot) /\
  (forall a, In a wr -> exists k, a = (OOwned s, k)) /\ frame_for s h h'.
Proof.
  intros Hinv Happ ss'. pose proof Hinv as (Hsl & Hot & Hd). subst ss'. cbn [ss_buf ss_code ss_next] in Hsl, Hot, Hd.
  unfold sl_append in Happ. destruct data as [|x data'] eqn:Edata.
  { injection Happ as <- <- <- <-. rewrite app_nil_r. split; [exact Hinv|split; [reflexivity|apply no_write]]. }
  rewrite <- Edata in *. assert (Hdl : 0 < len data) by (rewrite Edata, len_cons; lia).
  clear Edata x data'.
  destruct (N.leb_spec (sl_len sl + len data) (sl_cap sl)) as [Ecap|Ecap]; injection Happ as <- <- <- <-.
  - (* in place *)
    destruct Hsl as [[Hc Hl]|(k & Ha & Hk & Hb & Hl)]; [lia|]. rewrite Ha in *.
    (* the premises on numbers and sizes by lia; left: ot lies elsewhere, the array, what the new slice reads *)
    apply (own_write_sound Hot); cbn [sl_arr sl_off sl_len sl_cap]; try (rewrite ?len_write_at; lia).
    + destruct Hd as [Hd|[Hd|Hd]]; [right; congruence|lia|left; exact Hd].
    + reflexivity.
    + unfold sl_read. rewrite Ha. apply read_after_write. lia.
  - (* new array: all of the session's arrays have smaller numbers *)
    pose proof (slice_own_read_len Hsl) as Hrl.
    set (need := sl_len sl + len data) in *. set (ncap := N.max need (grow (sl_cap sl) need)).
    apply (own_write_sound Hot); cbn [sl_arr sl_off sl_len sl_cap]; try (rewrite ?len_app, ?len_rep, ?Hrl; lia).
    + destruct Hot as [[Hc _]|(k & Ha & Hk & _)]; [left; exact Hc|right]. rewrite Ha. intros E. inversion E. lia.
    + reflexivity.
    + rewrite drop_0, app_assoc. apply take_app_exact. now rewrite len_app, Hrl.
Qed.

Lemma session_step_sound {c s} {h : heap} {ss o h' ss' wr} :
  op_repaired o = true ->
  shared_intact (sc_res c) h -> sess_inv s h ss ->
  session_step c s h ss o = (h', ss', wr) ->
  sess_inv s h' ss' /\
  sess_obs h' ss' = pure_step (sc_res c) (sess_obs h ss) o /\
  (forall a, In a wr -> exists k, a = (OOwned s, k)) /\
  frame_for s h h'.
Proof.
  intros Hrep Hsh Hinv Hstep. pose proof Hinv as (Hb & Hc & Hd). destruct ss as [buf code next].
  unfold sess_obs at 2. cbn [ss_buf ss_code ss_next] in *.
  destruct o as [n|k|k|k|data| | |]; cbn [session_step pure_step ss_buf ss_code ss_next] in *; unfold sl_copy_fresh in *;
    try discriminate Hrep.
  - injection Hstep as <- <- <-. rewrite <- sl_read_reslice.
    split; [|split; [reflexivity|apply no_write]].
    split; [apply slice_own_reslice, Hb|split; [exact Hc|]].
    unfold sl_reslice. cbn [ss_buf ss_code sl_arr sl_cap]. destruct Hd as [Hd|[Hd|Hd]]; auto. right. left. lia.
  - rewrite (res_code_read _ h k Hsh). destruct (res_slice (sc_res c) k) as [rsl|]; cbn [option_map].
    + destruct (sl_append _ _ h buf _) as [[[h1 b1] wr1] used] eqn:Ea. injection Hstep as <- <- <-.
      exact (append_sound Hinv Ea).
    + injection Hstep as <- <- <-. exact (conj Hinv (conj eq_refl (no_write s h))).
  - rewrite (res_code_read _ h k Hsh). destruct (res_slice (sc_res c) k) as [rsl|]; cbn [option_map].
    + destruct (sl_append _ _ h sl_nil _) as [[[h1 b1] wr1] used] eqn:Ea. injection Hstep as <- <- <-.
      exact (append_sound (sess_inv_nil Hc) Ea).
    + injection Hstep as <- <- <-. exact (conj Hinv (conj eq_refl (no_write s h))).
  - destruct (sl_append _ _ h sl_nil data) as [[[h1 b1] wr1] used] eqn:Ea. injection Hstep as <- <- <-.
    exact (append_sound (sess_inv_nil Hc) Ea).
  - injection Hstep as <- <- <-. exact (conj (sess_inv_nil Hb) (conj eq_refl (no_write s h))).
  - injection Hstep as <- <- <-.
    exact (conj (sess_inv_swap (sess_inv_nil Hc)) (conj eq_refl (no_write s h))).
  - (* decode: the copy becomes the stored code, next to an empty buffer *)
    destruct (sl_append _ _ h sl_nil (sl_read h code)) as [[[h1 c1] wr1] used] eqn:Ea. injection Hstep as <- <- <-.
    destruct (append_sound (sess_inv_nil (slice_own_nil s next h)) Ea) as (A1 & A2 & A3).
    split; [exact (sess_inv_swap A1)|split; [|exact A3]].
    unfold sess_obs in *. cbn [ss_buf ss_code] in *. injection A2 as ->. reflexivity.
Qed.

Definition wobs (w : world) (s : N) : list N * list N := sess_obs (w_heap w) (w_sess w s).

Definition pure_exec (tbl : list (list N * list N)) (p : list N * list N) (ops : list op) : list N * list N :=
  fold_left (pure_step tbl) ops p.

Definition writes_owned (e : tev) : Prop :=
  forall a, In a (te_writes e) -> exists k, a = (OOwned (te_sid e), k).

Lemma world_step_sound {c w sid o w' e} :
  op_repaired o = true -> winv (sc_res c) w -> world_step c w sid o = (w', e) ->
  winv (sc_res c) w' /\ te_sid e = sid /\
  te_obs e = pure_step (sc_res c) (wobs w sid) o /\ wobs w' sid = te_obs e /\
  (forall t, t <> sid -> wobs w' t = wobs w t) /\ writes_owned e.
Proof.
  intros Hrep [Hsh Hss] Hstep. unfold world_step in Hstep.
  destruct (session_step c sid (w_heap w) (w_sess w sid) o) as [[h' ss'] wr] eqn:Es.
  injection Hstep as <- <-.
  destruct (session_step_sound Hrep Hsh (Hss sid) Es) as (I1 & I2 & I3 & I4).
  assert (Hoth : forall t, t <> sid -> sess_inv t h' (w_sess w t) /\ sess_obs h' (w_sess w t) = sess_obs (w_heap w) (w_sess w t))
    by (intros t Ht; apply (sess_inv_frame sid); auto).
  unfold winv, wobs, writes_owned, sess_set. cbn [w_heap w_sess te_sid te_obs te_writes]. rewrite N.eqb_refl.
  split; [split|split; [reflexivity|split; [exact I2|split; [reflexivity|split; [|exact I3]]]]].
  - intros k. rewrite I4; [apply Hsh|discriminate].
  - intros t. destruct (N.eqb_spec t sid) as [->|Ht]; [exact I1|now apply Hoth].
  - intros t Ht. rewrite (proj2 (N.eqb_neq t sid) Ht). now apply Hoth.
Qed.

(* any interleaving, any number of sessions: the trace of every session is the value-semantics
   trace of its own operations; the invariant is kept; every write goes to an array of the writer *)
Lemma run_sched_refines {c sched w w' tr} :
  sched_repaired sched = true -> winv (sc_res c) w -> run_sched c w sched = (w', tr) ->
  winv (sc_res c) w' /\
  (forall s, obs_of s tr = pure_run (sc_res c) (wobs w s) (map snd (sched_of s sched))) /\
  (forall s, wobs w' s = pure_exec (sc_res c) (wobs w s) (map snd (sched_of s sched))) /\
  Forall writes_owned tr.
Proof.
  revert w w' tr. induction sched as [|[sid o] r IH]; intros w w' tr Hrep Hinv Hrun.
  - inversion Hrun; subst. split; [exact Hinv|]. split; [reflexivity|]. split; [reflexivity|constructor].
  - cbn [run_sched] in Hrun. cbn [sched_repaired forallb snd] in Hrep. apply andb_true_iff in Hrep as [Ho Hr].
    destruct (world_step c w sid o) as [w1 e] eqn:E1.
    destruct (run_sched c w1 r) as [w2 es] eqn:E2.
    inversion Hrun; subst w' tr. clear Hrun.
    destruct (world_step_sound Ho Hinv E1) as (J1 & J2 & J3 & J4 & J5 & J6).
    destruct (IH _ _ _ Hr J1 E2) as (K1 & K2 & K2' & K3).
    split; [exact K1|]. split; [|split; [|constructor; assumption]].
    + intros s. unfold obs_of, sched_of. cbn [filter fst]. rewrite J2.
      destruct (N.eqb_spec sid s) as [<-|Hs]; cbn [map snd pure_run te_obs].
      * fold (obs_of sid es). now rewrite K2, J4, J3.
      * fold (obs_of s es). now rewrite K2, J5 by congruence.
    + intros s. rewrite K2'. unfold sched_of, pure_exec. cbn [filter fst].
      destruct (N.eqb_spec sid s) as [<-|Hs]; cbn [map snd fold_left].
      * now rewrite J4, J3.
      * now rewrite J5 by congruence.
Qed.

Lemma winv_init tbl : winv tbl (world_init tbl).
Proof. split; [intros k; reflexivity|]. intros s. exact (sess_inv_nil (slice_own_nil s 0 _)). Qed.

Lemma sched_of_idem s sched : sched_of s (sched_of s sched) = sched_of s sched.
Proof.
  unfold sched_of. induction sched as [|p r IH]; [reflexivity|]. cbn [filter].
  destruct (fst p =? s) eqn:E; [cbn [filter]; rewrite E; now f_equal|exact IH].
Qed.

Lemma sched_of_repaired s sched : sched_repaired sched = true -> sched_repaired (sched_of s sched) = true.
Proof.
  unfold sched_repaired, sched_of. rewrite !forallb_forall. intros H p Hp. apply filter_In in Hp as [Hp _]. auto.
Qed.

Lemma of_sid_cons {A : Type} sid t (x : A) l :
  of_sid sid ((t, x) :: l) = if t =? sid then x :: of_sid sid l else of_sid sid l.
Proof. unfold of_sid. cbn [filter fst]. destruct (t =? sid); reflexivity. Qed.

(* serving any interleaving of requests gives every session the responses and the final state it gets alone
   (props/C19.v: f := EngineModel.request_long / request_persisted, which see one session's engine / store
   and the immutable resource) *)
Lemma serve_noninterference {S I O : Type} (f : S -> I -> S * O) : forall sched (w : N -> S) sid,
  of_sid sid (snd (serve f w sched)) = snd (serve_solo f (w sid) (of_sid sid sched)) /\
  fst (serve f w sched) sid = fst (serve_solo f (w sid) (of_sid sid sched)).
Proof.
  induction sched as [|[t i] r IH]; intros w sid; [split; reflexivity|].
  cbn [serve]. rewrite of_sid_cons.
  destruct (f (w t) i) as [s' o] eqn:Ef.
  specialize (IH (fun u => if u =? t then s' else w u) sid).
  destruct (serve f (fun u => if u =? t then s' else w u) r) as [w2 os]. cbn [fst snd] in *. rewrite of_sid_cons.
  destruct (N.eqb_spec t sid) as [->|Ht].
  - rewrite N.eqb_refl in IH. cbn [serve_solo]. rewrite Ef.
    destruct (serve_solo f s' (of_sid sid r)) as [s2 os2]. cbn [fst snd] in *.
    destruct IH as [-> IH2]. split; [reflexivity|exact IH2].
  - rewrite (proj2 (N.eqb_neq sid t)) in IH by congruence. exact IH.
Qed.

Lemma exec_instr_buf {rs sep lang i b v v' b' s} :
  exec_instr rs sep lang i b v = (v', b', s) ->
  b' = b \/ b' = [] \/ exists sym c, rs_code rs sym = Ok c /\ (b' = c \/ b' = b ++ c).
Proof.
  (* HandlerProofs.exec_instr_eff says as much of the pending code (he_croak: []; he_go: the node's code, alone or
     appended, or b; the others: b) but asks for a cache with a frame, which run_code_invariant below, stated for every
     machine, cannot give: the handlers are unfolded, with a case analysis on every scrutinee of H, innermost last.  Each of
     their return expressions hands on b (first disjunct, closed by `auto`), [] (CROAK on a match: second, `auto`), or,
     after a fetch_code that answered Ok code, code (CATCH) or b ++ code (MOVE, INCMP): third, by `eauto` from the equation
     on rs_code that the case analysis leaves in the context *)
  destruct i; cbn [exec_instr]; unfold run_catch, run_croak, run_load, run_reload, run_map, run_move, run_incmp, fetch_code;
    intros H; repeat match type of H with context [match ?x with _ => _ end] => destruct x eqn:? end;
    injection H as <- <- <-; auto; right; right; eauto.
Qed.

(* What decoding, every handler, runErrCheck and runDeadCheck keep of the pending code, the whole run
   keeps: a predicate on the buffer alone, for any bytes, decodable or not.  (Where the code is known to
   decode and the invariant also speaks of machine and status: SafetyProofs.run_invariant_pending.) *)
Theorem run_code_invariant (C : list N -> Prop) rs sep :
  C [] -> C move_catch_code -> (forall pre r, C (pre ++ r) -> C r) ->
  (forall lang i b v, C b -> C (snd (fst (exec_instr rs sep lang i b v)))) ->
  forall fuel lang b v, C b -> C (snd (fst (run fuel rs sep lang b v))).
Proof.
  (* P = Q; the premises on stopping and on the preamble hand the code on or drop it: auto *)
  intros Hnil Hcatch Hsuf Hexec. apply (run_inv (fun r => C (snd (fst r))) (fun r => C (snd (fst r)))); auto.
  - (* decoding, then the handler *)
    intros lang v b HC. cbn [fst snd] in HC. destruct (op_split b) as [[op b1]|e|n] eqn:Eop; try exact HC.
    assert (HC1 : C b1).
    { destruct (op_split_shape _ _ _ Eop) as (h & l & -> & _). exact (Hsuf [h; l] b1 HC). }
    destruct (parse_args op b1) as [[i b2]|e|n] eqn:Epa; try exact HC1.
    assert (H2 : C (snd (fst (exec_instr rs sep lang i b2 (vlog v (EvInstr op)))))); [|destruct (op =? op_HALT); exact H2].
    apply Hexec. destruct (pp_decode b i b2) as (pre & -> & _); [apply decode_one_ok_split; eauto|]. exact (Hsuf pre b2 HC).
  - (* runErrCheck *) intros v b e m HC. cbn [loop_errcheck]. cbv zeta. destruct (_ && _); [exact Hcatch|exact HC].
  - (* runDeadCheck *) intros v _. destruct (dead_check_cases v); assumption.
Qed.

(* The operations of model/SliceHeap.v that Run performs on its buffer: consuming what it decoded, the code
   of a node appended or in place of the buffer, and the two lines Run builds itself. *)
Definition run_op (o : op) : Prop :=
  match o with
  | OpConsume _ | OpAppendFromResource _ | OpReplaceFromResource _ => True
  | OpReplaceFresh d => d = [] \/ d = move_catch_code
  | _ => False
  end.

Lemma run_op_repaired ops : Forall run_op ops -> forallb op_repaired ops = true.
Proof.
  intros H. apply forallb_forall. intros o Ho. apply (proj1 (Forall_forall _ _) H) in Ho.
  destruct o; try reflexivity. contradiction.
Qed.

Definition op_reach (tbl : restbl) (code b x : list N) : Prop :=
  exists ops, Forall run_op ops /\ pure_exec tbl (b, code) ops = (x, code).

Lemma op_reach_step {tbl code b x} o {y} :
  run_op o -> pure_step tbl (x, code) o = (y, code) -> op_reach tbl code b x -> op_reach tbl code b y.
Proof.
  intros Ho Hs (ops & H1 & H2). exists (ops ++ [o]). split.
  - apply Forall_app. split; [exact H1|constructor; [exact Ho|constructor]].
  - unfold pure_exec in *. rewrite fold_left_app, H2. exact Hs.
Qed.

Lemma op_reach_refl tbl code b : op_reach tbl code b b.
Proof. exists []. split; [constructor|reflexivity]. Qed.

Definition covers (rs : rsrc) (tbl : restbl) : Prop :=
  forall sym c, rs_code rs sym = Ok c -> exists k, res_code tbl k = Some c.

(* Run, whatever the program, the state and the fuel, does to its code what a sequence of these operations
   does, for every resource table that holds the application's code (whatever the spare capacities) *)
Theorem run_is_op_trace rs tbl code sep : covers rs tbl -> forall fuel lang b v,
  op_reach tbl code b (snd (fst (run fuel rs sep lang b v))).
Proof.
  intros Hcov fuel lang b v.
  assert (Hfresh : forall d x, d = [] \/ d = move_catch_code -> op_reach tbl code b x -> op_reach tbl code b d)
    by (intros d x Hd; exact (op_reach_step (OpReplaceFresh d) Hd eq_refl)).
  apply (run_code_invariant (op_reach tbl code b) rs sep).
  - exact (Hfresh [] b (or_introl eq_refl) (op_reach_refl _ _ _)).
  - exact (Hfresh _ b (or_intror eq_refl) (op_reach_refl _ _ _)).
  - intros pre r. apply (op_reach_step (OpConsume (len pre)) I). cbn [pure_step]. now rewrite drop_app_exact.
  - intros lang' i x v0 Hx. destruct (exec_instr rs sep lang' i x v0) as [[v1 b2] s1] eqn:Eex. cbn [fst snd].
    destruct (exec_instr_buf Eex) as [->|[->|(sym & c & Hc & Hb)]];
      [exact Hx|exact (Hfresh [] x (or_introl eq_refl) Hx)|].
    destruct (Hcov _ _ Hc) as [k Hk]. revert Hx.
    destruct Hb as [->| ->];
      [apply (op_reach_step (OpReplaceFromResource k))|apply (op_reach_step (OpAppendFromResource k))];
      try exact I; cbn [pure_step]; rewrite Hk; reflexivity.
  - apply op_reach_refl.
Qed.

(* the table of an application: node k = k-th entry of a_code, any spare capacity per node *)
Definition tbl_of (a : app) (sp : list N -> list N) : list (list N * list N) :=
  map (fun kv => (snd kv, sp (fst kv))) (a_code a).

Lemma tbl_of_covers a sp : covers (app_rsrc a) (tbl_of a sp).
Proof.
  unfold covers, tbl_of, app_rsrc. cbn [rs_code]. intros sym c.
  induction (a_code a) as [|[k v] l IH]; cbn [alookup]; [discriminate|].
  destruct (bytes_eqb sym k).
  - intros H. inversion H; subst. exists 0. reflexivity.
  - intros H. destruct (IH H) as [i Hi]. exists (i + 1).
    unfold res_code, res_entry in *. replace (N.to_nat (i + 1)) with (S (N.to_nat i)) by lia. exact Hi.
Qed.

Theorem vm_run_is_op_trace {a} sp {fuel sep lang b} code {v v' b' st} :
  run fuel (app_rsrc a) sep lang b v = (v', b', st) ->
  exists ops, Forall run_op ops /\ pure_exec (tbl_of a sp) (b, code) ops = (b', code).
Proof.
  intros Hrun. change b' with (snd (fst (v', b', st))). rewrite <- Hrun.
  apply run_is_op_trace, tbl_of_covers.
Qed.

(* The schedules of props/C19.v.  C19_adopt_refuted: a CATCH that keeps the resource's slice as its buffer (OpAdopt),
   two sessions on one goroutine.  Node 0: three bytes of code and eight bytes of spare capacity (0xEE); nodes 1 and 2:
   two bytes each *)
Definition adopt_tbl : list (list N * list N) := [([9; 9; 9], rep 238 8); ([1; 1], []); ([2; 2], [])].
Definition adopt_cfg : scfg := mkScfg (fun _ _ _ need => 2 * need) adopt_tbl.
(* both sessions CATCH to node 0, then each MOVEs on (1 to node 1, 2 to node 2), then 1 decodes on *)
Definition adopt_sched : list (N * op) :=
  [(1, OpAdopt 0); (2, OpAdopt 0); (1, OpAppendFromResource 1); (2, OpAppendFromResource 2); (1, OpConsume 3)].

(* C19_nonvacuous: the same schedule with the CATCH that copies (OpReplaceFromResource), and seven more steps *)
Definition repaired_sched : list (N * op) :=
  [(1, OpReplaceFromResource 0); (2, OpReplaceFromResource 0); (1, OpAppendFromResource 1);
   (2, OpAppendFromResource 2); (1, OpConsume 3); (3, OpReplaceFresh [7; 7]); (1, OpStore); (2, OpConsume 4);
   (3, OpAppendFromResource 0); (1, OpTake); (1, OpAppendFromResource 2); (1, OpDecodeFresh)].
