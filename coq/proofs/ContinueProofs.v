(* C08, last clause: "... and the session can still be saved, loaded and CONTINUED".
   Persisted operation, no entry function: a stored session without pending code and with
   TERMINATE clear, whatever else it contains, is restarted at the entry node by the next accepted
   request: init unwinds the position and injects MOVE <root>, the move succeeds on the empty stack
   and the first code fetched is the root's.  This is read off the event log, which only grows. *)
From Coq Require Import Lia ZifyN ZifyNat ZifyBool.
From Vise Require Import Bytes Errors Consts EngConsts Codec CacheModel StateModel NavModel NavSpec RenderModel
  VmModel EngineModel SymbolProofs BytesProofs CodecProofs NavProofs VmProofs EngineProofs CorrBase EngineCorr EngineMon SafetyProofs.
Local Open Scope N_scope.

Lemma grows_app P l l' : grows P l l' -> exists m, l' = m ++ l.
Proof. intros (m & E & _). exists m. exact E. Qed.

Lemma eng_flush_log fuel rs c e : exists l, v_log (e_v (fst (fst (eng_flush fuel rs c e)))) = l ++ v_log (e_v e).
Proof.
  destruct (eng_flush_cases fuel rs c e) as (He & _).
  destruct He as [->|[->|[_ ->]]]; [exists []; reflexivity|..]; cbn [e_v eset_v]; rewrite ?eng_reset_inner_log;
    exact (grows_app _ _ _ (vm_render_events fuel rs (c_sep c) _ (e_v e))).
Qed.

Lemma init_sc_restart c s ca :
  s_code s = [] -> getf s FLAG_TERMINATE = false ->
  let s' := fst (init_sc c s ca) in
  s_path s' = [] /\ getf s' FLAG_TERMINATE = false /\ s_code s' = encode (IMove (cfg_root c)).
Proof.
  intros Hc Ht. unfold init_sc. rewrite Hc. unfold stale. rewrite Hc, Ht, reset_sc_eq.
  destruct (s_path s) as [|a p] eqn:Ep; cbn [negb fst]; repeat split; try assumption.
  exact (getf_reset_state_term s).
Qed.

Lemma s_path_flags st f : s_path (set_flags st f) = s_path st. Proof. reflexivity. Qed.

Lemma run_move_root_log a sep lang f root v :
  wf_sym root -> valid_sym_b root = true -> ahas root (a_code a) = true ->
  s_path (v_st v) = [] -> getf (v_st v) FLAG_TERMINATE = false ->
  exists l, v_log (fst (fst (run (S f) (app_rsrc a) sep lang (encode (IMove root)) v)))
            = l ++ EvCode root :: EvMove 0 root root :: EvInstr op_MOVE :: v_log v.
Proof.
  intros Hw Hv Hn Hp Ht. rewrite <- (app_nil_r (encode (IMove root))), run_S_instr, Ht by exact Hw. cbn [instr_op].
  (* the move logs the three events; whatever follows only adds to the log *)
  apply (loop_tail_keeps (fun x => exists l, v_log x = l ++ EvCode root :: EvMove 0 root root :: EvInstr op_MOVE :: v_log v)).
  - intros x m H. destruct m; exact H.
  - intros x H. destruct (dead_check_cases x); exact H.
  - intros b x [l H]. destruct (grows_app _ _ _ (run_no_render (app_rsrc a) sep f (loop_lang lang (v_st v)) b x)) as [m E].
    exists (m ++ l). rewrite E, H. apply app_assoc.
  - exists []. cbn [exec_instr]. destruct (loop_st_flagish (v_st v)) as (Ep & _).
    rewrite run_move_empty by (exact Hv || exact (eq_trans Ep Hp)).
    cbn [app_rsrc rs_observed rs_code]. unfold ahas in Hn.
    destruct (alookup root (a_code a)); [reflexivity|discriminate].
Qed.

Lemma long_finish_log fuel rs c e1 cont s :
  exists l, v_log (e_v (fst (long_finish fuel rs c (e1, cont, s)))) = l ++ v_log (e_v e1).
Proof. apply (long_finish_fst (fun e => exists l, v_log (e_v e) = l ++ v_log (e_v e1))); [exists []; reflexivity|apply eng_flush_log]. Qed.

(* what the injected MOVE <root> logs when it restarts a session at the entry node (newest first):
   the instruction, the move from the empty position, the fetch of the node's code *)
Definition restart_events (c : config) : list ev :=
  [EvCode (cfg_root c); EvMove 0 (cfg_root c) (cfg_root c); EvInstr op_MOVE].

(* decidable guard: the entry node's name is a node name of the VM (symRegex); a control token or a
   one-letter name as Root makes the injected MOVE fail or go elsewhere.  (C04's RoutingProofs2.root_ok is a Prop
   and asks wf_sym as well.) *)
Definition root_ok (c : config) : bool := valid_sym_b (cfg_root c).

Lemma continuable_exec a c f st ca pg w lg0 t i :
  c_first c = None -> cfg_okb c = true -> root_ok c = true -> has_node a (cfg_root c) = true ->
  s_code st = [] -> getf st FLAG_TERMINATE = false -> refused_b i = false ->
  exists l, v_log (e_v (fst (fst (eng_exec (S f) (app_rsrc a) c (mkEng (mkVm st ca pg w lg0 t) false [] false false) i))))
            = l ++ restart_events c ++ lg0.
Proof.
  intros Hf Hc Hr Hn Hcode Ht Hi. apply cfg_okb_sound in Hc. destruct Hc as (Hw & _ & _).
  (* refused_b (corr/EngineMon.v) is EngineProofs.refused_bool term for term: Hi serves exec_tail_accepted *)
  rewrite eng_exec_fresh, (proj1 (orb_false_elim _ _ Hi)), exec_tail_accepted by assumption.
  pose proof (init_sc_restart c st ca Hcode Ht) as (I1 & I2 & I3). cbv zeta in I1, I2, I3.
  destruct (init_sc c st ca) as [s' ca']. cbn [fst] in I1, I2, I3.
  rewrite reset_opt_none by (right; exact I1).
  rewrite eng_exec_inner_log; cbn [fed e_v eset_v vset_st v_st s_code set_input_raw]; rewrite I3; [|apply encode_nonempty].
  apply run_move_root_log; assumption.
Qed.

Lemma continuable_request a c f p st ca i :
  c_first c = None -> cfg_okb c = true -> root_ok c = true -> has_node a (cfg_root c) = true ->
  pw_store p = Some (st, ca) -> s_code st = [] -> getf st FLAG_TERMINATE = false -> refused_b i = false ->
  exists l, pw_log (fst (request_persisted (S f) (app_rsrc a) c p i)) = l ++ restart_events c ++ pw_log p.
Proof.
  intros Hf Hc Hr Hn Hst Hcode Ht Hi.
  rewrite request_persisted_long, request_long_finish, new_engine_sess. rewrite Hst. cbn [sess fst snd].
  destruct (continuable_exec a c f st ca (new_vm_page (c_out c) (c_sep c)) (pw_w p) (pw_log p) false i
              Hf Hc Hr Hn Hcode Ht Hi) as [l Hl].
  destruct (eng_exec (S f) (app_rsrc a) c _ i) as [[e1 cont] s]. cbn [fst] in Hl.
  destruct (long_finish_log (S f) (app_rsrc a) c e1 cont s) as [l2 H2].
  exists (l2 ++ l). destruct (long_finish _ _ _ _) as [e2 r]. cbn [pers_of fst pw_log] in *. rewrite H2, Hl, app_assoc. reflexivity.
Qed.

Lemma continuable_no_fuel a c p st ca i :
  c_first c = None -> pw_store p = Some (st, ca) -> s_code st = [] -> refused_b i = false ->
  r_exec (snd (request_persisted O (app_rsrc a) c p i)) = SFuel.
Proof.
  intros Hf Hst Hcode Hi.
  rewrite request_persisted_fresh, Hst, (proj1 (orb_false_elim _ _ Hi)), exec_tail_accepted by assumption. cbn [sess fst snd].
  pose proof (init_sc_code c st ca) as Hne. destruct (init_sc c st ca) as [s1 ca1]. cbn [fst] in Hne.
  (* a reset on empty input keeps the pending code or replaces it by MOVE <root> *)
  set (e2 := reset_opt c i _).
  assert (Hc2 : s_code (v_st (e_v e2)) <> []).
  { unfold e2, reset_opt, forced. cbn [e_v v_st]. destruct (c_reset_empty c && (len i =? 0)); [|exact Hne].
    destruct (s_path s1); [exact Hne|apply encode_nonempty]. }
  rewrite eng_exec_inner_run by exact Hc2. reflexivity.
Qed.

(* non-vacuity (C08_continuable_restart_after_error): corpus application "restart-after-error" (go/cmd/vh/engine.go);
   RoutingProofs2.rae_app is the same term, RoutingProofs2.rae_cfg names the Root that is left to its default here *)
Definition rae_app : app :=
  mkApp [(s2b "root", encode_prog [ILoad (s2b "aa") 5; IMap (s2b "aa"); IHalt; IInCmp (s2b "foo") (s2b "1")]);
         (s2b "foo", encode_prog [IHalt; IInCmp (s2b "_") (s2b "0")]);
         (catch_sym, encode_prog [IHalt; IInCmp (s2b "_") (s2b "*")])]
        [(s2b "root", s2b "root {{.aa}}"); (s2b "foo", s2b "foo"); (catch_sym, s2b "catch")] []
        [(s2b "aa", [mkFres (s2b "toolong") false 0 [] [] false; mkFres (s2b "ok") false 0 [] [] false])].
Definition rae_cfg : config := mkCfg 0 [] 1 0 [] [] false None.
Definition rae_after1 : pworld := fst (hist_pers (app_rsrc rae_app) rae_cfg (mkPw None [] [] false) [(100%nat, [])]).

(* request 1 fails AT the entry node (the value is longer than LOAD's limit): stored at [root], no
   pending code, TERMINATE clear — the premises of the theorem; request 2 restarts (its events begin
   with the injected MOVE root, the move, the fetch of root) and shows "root ok"; request 3 moves on *)
Lemma rae_runs :
  wf_app_b rae_app rae_cfg = true /\ cfg_okb rae_cfg = true /\ c_first rae_cfg = None /\ root_ok rae_cfg = true
  /\ match pw_store rae_after1 with
     | Some (st, ca) => s_code st = [] /\ s_path st = [s2b "root"] /\ getf st FLAG_TERMINATE = false
     | None => False
     end
  /\ refused_b (s2b "1") = false
  /\ map resp_view (snd (hist_pers (app_rsrc rae_app) rae_cfg (mkPw None [] [] false)
                           [(100%nat, []); (100%nat, s2b "1"); (100%nat, s2b "1")]))
     = [(false, SErr EGen None, [], FErr EFlushNoExec); (true, SOk, s2b "root ok", FOk); (true, SOk, s2b "foo", FOk)]
  /\ pw_log (fst (request_persisted 100 (app_rsrc rae_app) rae_cfg rae_after1 (s2b "1")))
     = [EvRender (s2b "root") 0 None; EvInstr op_HALT; EvInstr op_MAP; EvFunc (s2b "aa") None (Some (s2b "1")); EvInstr op_LOAD]
       ++ restart_events rae_cfg ++ pw_log rae_after1.
Proof. vm_compute. repeat split. Qed.

(* the guard root_ok is needed (C08_continuable_needs_root_ok): a one-letter Root passes wf_app_b and cfg_okb, but MOVE r is not a
   valid target (symRegex wants two characters), so no request ever fetches code *)
Definition badroot_app : app := mkApp [([114], encode IHalt); (catch_sym, encode IHalt)] [] [] [].
Definition badroot_cfg : config := mkCfg 0 [114] 0 0 [] [] false None.
