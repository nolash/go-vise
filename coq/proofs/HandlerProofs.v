(* What ONE instruction does to state and cache, what it leaves pending and how it can fail, by kind of outcome (heff,
   exec_instr_eff).  Where VmProofs.vm_ops is the closure under which any number of operations are read, heff is exact
   about a single instruction (which call of applyTarget, which Add, which code is pending, which status and why), for
   invariants that need preconditions at the point of the operation. *)
From Coq Require Import Lia ZifyN ZifyNat ZifyBool.
From Vise Require Import Bytes Errors Consts EngConsts Codec CacheModel StateModel NavModel RenderModel
  VmModel BytesProofs CacheProofs NavProofs VmProofs.
Local Open Scope N_scope.

Lemma apply_flags_panic set fl : forall st n, apply_flags set fl st = Panic n ->
  n = (if set then 21 else 22) /\ exists f, In f fl /\ is_writeable_flag f = true /\ flag_in_range st f = false.
Proof.
  induction fl as [|f fl IH]; intros st n; [discriminate|]. rewrite apply_flags_cons.
  destruct (is_writeable_flag f) eqn:Hw; [|intros H; destruct (IH _ _ H) as (E & g & G1 & G2); eauto using in_cons].
  destruct (flag_in_range st f) eqn:Hr; [|intros [= <-]; eauto using in_eq].
  intros H. destruct (IH _ _ H) as (E & g & G1 & G2 & G3). split; [exact E|]. exists g.
  rewrite (flagish_range st _ g) in G3 by (destruct set; [apply flagish_setf|apply flagish_resetf]). auto using in_cons.
Qed.

(* why an instruction can panic, a resource's code getter apart: a flag outside the flag field, named by CATCH or
   CROAK (site 20) or by the result of a function (21, 22: func_cause) *)
Definition func_cause (rs : rsrc) (st : state) (n : N) : Prop :=
  (n = 21 \/ n = 22) /\ exists key script fr f, rs_func rs key = Some script /\ In fr script
    /\ In f (fr_reset fr ++ fr_set fr) /\ is_writeable_flag f = true /\ flag_in_range st f = false.
Definition flag_cause (rs : rsrc) (st : state) (i : instr) (n : N) : Prop :=
  (n = 20 /\ match i with ICatch _ f _ | ICroak f _ => flag_in_range st f = false | _ => False end) \/ func_cause rs st n.

Lemma refresh_flagish rs lang key v :
  flagish (v_st v) (v_st (fst (fst (refresh rs lang key v)))) /\ v_ca (fst (fst (refresh rs lang key v))) = v_ca v
  /\ forall n, snd (refresh rs lang key v) = SPanic n -> func_cause rs (v_st v) n.
Proof.
  unfold refresh. destruct (rs_func rs key) as [script|] eqn:Ef; [|split; [apply flagish_refl|split; [reflexivity|discriminate]]].
  destruct (nth_fres _ _) as [fr|] eqn:En; [|split; [apply flagish_refl|split; [reflexivity|discriminate]]]. cbv zeta.
  cbn [v_st v_ca vlog vset_w vset_st].
  destruct (fr_fail fr); [split; [apply flagish_setf|split; [reflexivity|discriminate]]|].
  assert (Hc : forall n g, (n = 21 \/ n = 22) -> In g (fr_reset fr ++ fr_set fr) -> is_writeable_flag g = true ->
                 flag_in_range (v_st v) g = false -> func_cause rs (v_st v) n).
  { intros n g Hn G1 G2 G3. split; [exact Hn|]. exists key, script, fr, g. eauto 6 using nth_fres_In. }
  destruct (apply_flags false _ _) as [st1| |] eqn:E1; [|split; [apply flagish_refl|split; [reflexivity|discriminate]]|].
  2:{ split; [apply flagish_refl|]. split; [reflexivity|]. intros n [= <-]. destruct (apply_flags_panic _ _ _ _ E1) as (-> & g & G1 & G2 & G3).
      apply (Hc _ g); auto using in_or_app. }
  pose proof (flag_op_frame False (fo_flags E1)) as H1.
  destruct (apply_flags true _ st1) as [st2| |] eqn:E2; [|split; [apply flagish_refl|split; [reflexivity|discriminate]]|].
  - split; [|split; [reflexivity|discriminate]]. cbn [fst v_st vset_st].
    eapply flagish_trans; [exact H1|]. eapply flagish_trans; [exact (flag_op_frame False (fo_flags E2))|].
    destruct (getf st2 FLAG_LANG); [apply flagish_set_language|apply flagish_refl].
  - split; [apply flagish_refl|]. split; [reflexivity|]. intros n [= <-]. destruct (apply_flags_panic _ _ _ _ E2) as (-> & g & G1 & G2 & G3).
    apply (Hc _ g); auto using in_or_app. rewrite <- (flagish_range _ _ g H1). exact G3.
Qed.

Definition move_target (i : instr) : option bytes :=
  match i with ICatch t _ _ | IMove t | IInCmp t _ => Some t | _ => None end.

(* The outcome of one handler on pending code b and machine v, in five kinds; page, log and counters are not spoken of.
   he_go: the one successful applyTarget is made from a state st0 that differs from the machine's in flags (INCMP
   sets its flags first); that CATCH replaces the pending code while MOVE and INCMP append is not recorded.
   he_update: RELOAD drops what Update answers and ends with the status of the Map that follows, which may refuse and
   never panics (page_map_no_panic): hence any status but a panic. *)
Inductive heff (rs : rsrc) (lang : option bytes) (i : instr) (b : bytes) (v : vmst) : hres -> Prop :=
| he_stay v' s :
    flagish (v_st v) (v_st v') -> v_ca v' = v_ca v ->
    (forall n, s = SPanic n -> flag_cause rs (v_st v) i n) ->
    (* MOVE goes unconditionally: where it stays, it has failed *)
    (forall t, i = IMove t -> s <> SOk) ->
    heff rs lang i b v (v', b, s)
| he_go t st0 nsym v' b' s :
    move_target i = Some t -> flagish (v_st v) st0 ->
    apply_target t st0 (v_ca v) = (v_st v', v_ca v', nsym, SOk) ->
    match rs_code rs nsym with
    | Ok code => s = SOk /\ (b' = code \/ b' = b ++ code)
    | Err e => s = SErr e None /\ b' = b
    | Panic n => s = SPanic n /\ b' = b
    end ->
    heff rs lang i b v (v', b', s)
| he_croak sig mode v' :
    i = ICroak sig mode -> v_st v' = v_st v -> v_ca v' = cache_reset (v_ca v) -> heff rs lang i b v (v', [], SOk)
| he_add sym sz v1 content v' :
    i = ILoad sym sz -> refresh rs lang sym v = (v1, content, SOk) ->
    cache_add (v_ca v1) sym content (w16 sz) = Ok (v_ca v') -> v_st v' = v_st v1 ->
    heff rs lang i b v (v', b, SOk)
| he_update sym v1 content v' s :
    i = IReload sym -> refresh rs lang sym v = (v1, content, SOk) ->
    v_ca v' = fst (cache_update_raw (v_ca v1) sym content) -> v_st v' = v_st v1 -> is_spanic s = false ->
    heff rs lang i b v (v', b, s).

Lemma he_quiet rs lang i b v v' s :
  flagish (v_st v) (v_st v') -> v_ca v' = v_ca v -> is_spanic s = false -> (forall t, i <> IMove t) ->
  heff rs lang i b v (v', b, s).
Proof.
  intros F C Hs Hi. apply he_stay; [exact F|exact C|intros n ->; discriminate Hs|intros t E; destruct (Hi t E)].
Qed.

Lemma match_flag_cases st sig mode :
  match match_flag st sig mode with Ok _ => True | Err _ => False | Panic n => n = 20 /\ flag_in_range st sig = false end.
Proof. unfold match_flag, get_flag. destruct (flag_in_range st sig); cbn [obind]; auto. Qed.

(* `pg` is what the handler does to the page on success, `f` to the pending code *)
Lemma he_fetch rs lang i b v t st0 st' ca' nsym v1 (pg : vmst -> vmst) (f : bytes -> bytes) :
  move_target i = Some t -> flagish (v_st v) st0 -> apply_target t st0 (v_ca v) = (st', ca', nsym, SOk) ->
  v_st v1 = st' -> v_ca v1 = ca' -> (forall x, v_st (pg x) = v_st x /\ v_ca (pg x) = v_ca x) ->
  (forall code, f code = code \/ f code = b ++ code) ->
  heff rs lang i b v (let '(v2, c) := fetch_code rs nsym v1 in
                      match c with
                      | Ok code => (pg v2, f code, SOk)
                      | Err e => (v2, b, SErr e None)
                      | Panic n => (v2, b, SPanic n)
                      end).
Proof.
  intros Ht F Ha <- <- Hpg Hf. unfold fetch_code.
  set (v2 := if rs_observed rs then _ else v1).
  assert (E : v_st v2 = v_st v1 /\ v_ca v2 = v_ca v1) by (unfold v2; destruct (rs_observed rs); auto). destruct E as [E1 E2].
  destruct (rs_code rs nsym) as [code|e|n] eqn:Hc; eapply (he_go _ _ _ _ _ t st0 nsym); try eassumption;
    rewrite ?(proj1 (Hpg v2)), ?(proj2 (Hpg v2)), ?E1, ?E2, ?Hc; auto.
Qed.

Theorem exec_instr_eff rs sep lang i b v :
  c_frames (v_ca v) <> [] -> heff rs lang i b v (exec_instr rs sep lang i b v).
Proof.
  intros Hne. pose proof (flagish_refl (v_st v)) as F0.
  destruct i as [|sym sig mode|sig mode|sym sz|sym|sym|sym| |dest sel| | | |]; cbn [exec_instr]; try (apply he_quiet; [exact F0|reflexivity|reflexivity|discriminate]).
  - unfold run_catch. pose proof (match_flag_cases (v_st v) sig mode) as Hm.
    destruct (match_flag (v_st v) sig mode) as [[|]|e|n]; [|apply he_quiet; auto; discriminate|exfalso; exact Hm|].
    2:{ apply he_stay; auto; [|discriminate]. intros n0 [= <-]. left. exact Hm. }
    destruct (apply_target sym (v_st v) (v_ca v)) as [[[st' ca'] nsym] s] eqn:Ha.
    destruct s; try (destruct (apply_stays Hne Ha) as (-> & -> & Hp); [discriminate|];
                     apply he_quiet; auto; discriminate).
    eapply he_fetch with (pg := fun x => x) (f := fun c => c); [reflexivity|exact F0|exact Ha|..]; auto.
  - unfold run_croak. pose proof (match_flag_cases (v_st v) sig mode) as Hm.
    destruct (match_flag (v_st v) sig mode) as [[|]|e|n]; [|apply he_quiet; auto; discriminate|exfalso; exact Hm|].
    + eapply he_croak; reflexivity.
    + apply he_stay; auto; [|discriminate]. intros n0 [= <-]. left. exact Hm.
  - unfold run_load. pose proof (cache_get_no_panic (v_ca v) sym) as Hg.
    destruct (cache_get (v_ca v) sym); [apply he_quiet; auto; discriminate| |discriminate Hg].
    destruct (refresh_flagish rs lang sym v) as (F & C & Hp).
    destruct (refresh rs lang sym v) as [[v1 content] s] eqn:Hr. cbn [fst snd] in F, C, Hp.
    destruct s; try (apply he_stay; auto; [intros n E; right; exact (Hp n E)|discriminate]).
    pose proof (cache_add_frames (v_ca v1) sym content (w16 sz) ltac:(rewrite C; exact Hne)) as Hf.
    destruct (cache_add (v_ca v1) sym content (w16 sz)) as [ca'|e'|n] eqn:Ea;
      [|destruct e'; apply he_quiet; auto; discriminate|exfalso; exact Hf].
    eapply he_add; [reflexivity|exact Hr|exact Ea|reflexivity].
  - unfold run_reload.
    destruct (refresh_flagish rs lang sym v) as (F & C & Hp).
    destruct (refresh rs lang sym v) as [[v1 content] s] eqn:Hr. cbn [fst snd] in F, C, Hp.
    destruct s; try (apply he_stay; auto; [intros n E; right; exact (Hp n E)|discriminate]).
    destruct (cache_update_raw (v_ca v1) sym content) as [ca' oe] eqn:Eu. cbv zeta.
    match goal with |- context [page_map ?c ?p ?k] => pose proof (page_map_no_panic c p k) as Hpm; destruct (page_map c p k) end;
      [| |discriminate Hpm]; (eapply he_update; [reflexivity|exact Hr|cbn [v_ca vset_ca vset_pg]; rewrite Eu; reflexivity|reflexivity|reflexivity]).
  - unfold run_map. pose proof (page_map_no_panic (v_ca v) (v_pg v) sym) as Hpm.
    destruct (page_map (v_ca v) (v_pg v) sym); [| |discriminate Hpm]; apply he_quiet; auto; discriminate.
  - unfold run_move.
    destruct (apply_target sym (v_st v) (v_ca v)) as [[[st' ca'] nsym] s] eqn:Ha.
    destruct s; try (destruct (apply_stays Hne Ha) as (-> & -> & Hp); [discriminate|];
                     apply he_stay; auto; [intros n E; rewrite E in Hp; discriminate Hp|intros t _; discriminate]).
    eapply he_fetch with (pg := fun x => vset_pg x (vm_reset sep (v_pg x))) (f := fun c => b ++ c); [reflexivity|exact F0|exact Ha|..]; auto.
  - apply he_quiet; [apply flagish_setf|reflexivity|reflexivity|discriminate].
  - unfold run_incmp. cbv zeta.
    destruct (getf (v_st v) FLAG_INMATCH && getf (v_st v) FLAG_READIN); [apply he_quiet; auto; discriminate|].
    set (st0 := if getf (v_st v) FLAG_INMATCH then v_st v else setf (v_st v) FLAG_READIN).
    assert (F1 : flagish (v_st v) st0) by (unfold st0; destruct (getf (v_st v) FLAG_INMATCH); [exact F0|apply flagish_setf]).
    cbn [v_st v_ca vset_st].
    destruct (s_input st0) as [input|]; [|apply he_quiet; auto; discriminate].
    destruct (_ || _); [|apply he_quiet; auto; discriminate].
    assert (F2 : flagish (v_st v) (resetf (setf st0 FLAG_INMATCH) FLAG_READIN)).
    { eapply flagish_trans; [exact F1|]. eapply flagish_trans; [apply flagish_setf|apply flagish_resetf]. }
    destruct (apply_target dest _ (v_ca v)) as [[[st' ca'] nsym] s] eqn:Ha.
    destruct s as [|e m| |]; try (destruct (apply_stays Hne Ha) as (-> & -> & Hp); [discriminate|]).
    + eapply he_fetch with (pg := fun x => x) (f := fun c => b ++ c); [reflexivity|exact F2|exact Ha|..]; auto.
    + destruct e; apply he_quiet; auto; try discriminate.
      eapply flagish_trans; [exact F2|apply flagish_setf].
    + discriminate Hp.
    + apply he_quiet; auto; discriminate.
Qed.
