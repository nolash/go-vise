(* engine.Loop (model/LoopModel.v) in terms of the request driver request_long: first request and for loop
   alike are `loop_reqs`, a function of the driver's responses (loop_rest_reqs, eng_loop_reqs), and the
   theorems are inductions over its inputs: what is written, the engine left, every chunk fits (on SizeProofs),
   nothing after the request that does not go on.  Then how Loop reads: split_lines over a concatenation, the
   unterminated tail that is dropped (loop_reader_decomposition, loop_ignores_tail), trim_space; last, the
   fixtures of props/C20loop.v. *)
From Coq Require Import Lia ZifyN ZifyNat ZifyBool.
From Vise Require Import Bytes Errors Consts EngConsts Codec CacheModel StateModel NavModel RenderModel VmModel EngineModel
  LoopModel BytesProofs RenderProofs SizeProofs.
Local Open Scope N_scope.

(* LoopModel.long_resps runs every request on the one fuel of Loop; SizeProofs.long_responses takes a
   fuel with each input: the former is the latter with the same fuel throughout, so the facts proved
   about long_responses carry over *)
Lemma long_resps_long_responses fuel rs c : forall inputs e,
  long_resps fuel rs c e inputs = long_responses rs c e (map (pair fuel) inputs).
Proof.
  induction inputs as [|i inputs IH]; intros e; [reflexivity|].
  cbn [long_resps map long_responses].
  destruct (request_long fuel rs c e i) as [e' r]. rewrite IH. reflexivity.
Qed.

Lemma nl_after_nil : nl_after [] = [].
Proof. reflexivity. Qed.

(* Loop as a function of the responses request_long gives, first request and for loop alike: it
   writes the chunk of each response and goes on while resp_goes_on.  The engine it is left with is
   the request driver's, except after an Exec error, where Loop has not flushed. *)
Fixpoint loop_reqs (first : bool) (fuel : nat) (rs : rsrc) (c : config) (e : engine) (inputs : list bytes)
  : bytes * lstat * engine :=
  match inputs with
  | [] => ([], LOk, e)
  | i :: rest =>
    let '(e', r) := request_long fuel rs c e i in
    if resp_goes_on first r
    then let '(w, st, e3) := loop_reqs false fuel rs c e' rest in (resp_chunk r ++ w, st, e3)
    else (resp_chunk r, resp_lstat first r,
          match r_exec r with SErr _ _ => fst (fst (eng_exec fuel rs c e i)) | _ => e' end)
  end.

(* on a response record given by its fields: unfold resp_goes_on, resp_lstat and resp_chunk, read the
   fields, and tidy the `&& false` and `++ []` that leaves *)
Ltac lnorm :=
  unfold resp_goes_on, resp_lstat, resp_chunk; cbn [r_cont r_exec r_flush r_out andb];
  rewrite ?Bool.andb_false_r, ?app_nil_r.

Lemma loop_rest_reqs fuel rs c : forall lines e,
  loop_rest fuel rs c e lines = loop_reqs false fuel rs c e lines.
Proof.
  induction lines as [|ln rest IH]; intros e; [reflexivity|].
  cbn [loop_rest loop_reqs]. unfold request_long.
  destruct (eng_exec fuel rs c e ln) as [[e1 cont] s]. destruct s as [|er msg|n|].
  - (* Exec ended well: Flush, and Loop goes on if Flush succeeded and cont is set *)
    destruct (eng_flush fuel rs c e1) as [[e2 out] f]. destruct f as [|er|n|]; lnorm; try reflexivity.
    destruct cont; [rewrite IH|]; reflexivity.
  - (* an Exec error: Loop returns before Flush, request_long flushes; nothing is written either way *)
    destruct (eng_flush fuel rs c e1) as [[e2 out] f]. lnorm. reflexivity.
  - lnorm. reflexivity.
  - lnorm. reflexivity.
Qed.

Lemma eng_loop_reqs rs c fuel e initial reader :
  eng_loop rs c fuel e initial reader = loop_reqs true fuel rs c e (loop_inputs initial reader).
Proof.
  unfold eng_loop, loop_inputs. cbn [loop_reqs]. unfold request_long.
  destruct (eng_exec fuel rs c e (loop_initial initial)) as [[e1 cont] s]. destruct s as [|er msg|n|].
  - (* Exec ended well: Flush; on the first request the Flush error ErrFlushNoExec does not stop Loop *)
    destruct (eng_flush fuel rs c e1) as [[e2 out] f]. destruct f as [|er|n|]; lnorm; try reflexivity.
    + destruct cont; [rewrite loop_rest_reqs|]; reflexivity.
    + destruct (err_eqb er EFlushNoExec); lnorm; try reflexivity.
      destruct cont; [rewrite loop_rest_reqs|]; reflexivity.
  - destruct (eng_flush fuel rs c e1) as [[e2 out] f]. lnorm. reflexivity.
  - lnorm. reflexivity.
  - lnorm. reflexivity.
Qed.

Lemma loop_reqs_output fuel rs c : forall inputs first e,
  fst (fst (loop_reqs first fuel rs c e inputs))
    = List.concat (map resp_chunk (loop_prefix first (long_resps fuel rs c e inputs)))
  /\ snd (fst (loop_reqs first fuel rs c e inputs)) = prefix_stat first (long_resps fuel rs c e inputs).
Proof.
  induction inputs as [|i rest IH]; intros first e; [split; reflexivity|].
  cbn [loop_reqs long_resps]. destruct (request_long fuel rs c e i) as [e' r].
  cbn [loop_prefix prefix_stat map List.concat]. destruct (resp_goes_on first r).
  - destruct (IH false e') as [IHw IHs]. destruct (loop_reqs false fuel rs c e' rest) as [[w st] e3].
    cbn [fst snd] in *. rewrite IHw, IHs. split; reflexivity.
  - cbn [fst snd map List.concat]. rewrite app_nil_r. split; reflexivity.
Qed.

Theorem loop_output_is_requests rs c fuel e initial reader :
  let resps := long_resps fuel rs c e (loop_inputs initial reader) in
  fst (fst (eng_loop rs c fuel e initial reader)) = List.concat (map resp_chunk (loop_prefix true resps))
  /\ snd (fst (eng_loop rs c fuel e initial reader)) = prefix_stat true resps.
Proof. rewrite eng_loop_reqs. apply loop_reqs_output. Qed.

Lemma loop_prefix_nth : forall l first k r, nth_error (loop_prefix first l) k = Some r -> nth_error l k = Some r.
Proof.
  induction l as [|r0 l IH]; intros first k r; [destruct k; discriminate|].
  cbn [loop_prefix]. destruct k as [|k]; [exact (fun H => H)|]. cbn [nth_error].
  destruct (resp_goes_on first r0); [apply IH|destruct k; discriminate].
Qed.
Lemma loop_prefix_incl : forall l first r, In r (loop_prefix first l) -> In r l.
Proof. intros l first r Hin. apply In_nth_error in Hin as [k Hk]. exact (nth_error_In _ _ (loop_prefix_nth _ _ _ _ Hk)). Qed.

Lemma loop_prefix_before : forall l first pre r post,
  loop_prefix first l = pre ++ r :: post -> all_go_on first pre = true.
Proof.
  induction l as [|r0 l IH]; intros first pre r post Heq; [destruct pre; discriminate Heq|].
  cbn [loop_prefix] in Heq. destruct pre as [|p pre]; [reflexivity|].
  injection Heq as <- Heq. cbn [all_go_on].
  destruct (resp_goes_on first r0); [|destruct pre; discriminate Heq].
  exact (IH _ _ _ _ Heq).
Qed.

Lemma loop_prefix_all_but_last_go_on : forall l first pre r,
  loop_prefix first l = pre ++ [r] ->
  all_go_on first pre = true.
Proof. intros l first pre r. apply loop_prefix_before. Qed.

(* after an Exec error request_long still flushes and Loop does not *)
Definition no_exec_error (r : response) : Prop := forall er m, r_exec r <> SErr er m.

Lemma eng_after_cons fuel rs c e i l :
  eng_after fuel rs c e (i :: l) = eng_after fuel rs c (fst (request_long fuel rs c e i)) l.
Proof. reflexivity. Qed.

Lemma loop_reqs_engine fuel rs c : forall inputs first e,
  Forall no_exec_error (loop_prefix first (long_resps fuel rs c e inputs)) ->
  snd (loop_reqs first fuel rs c e inputs)
  = eng_after fuel rs c e (firstn (List.length (loop_prefix first (long_resps fuel rs c e inputs))) inputs).
Proof.
  induction inputs as [|i rest IH]; intros first e; [reflexivity|].
  cbn [loop_reqs long_resps]. rewrite (surjective_pairing (request_long fuel rs c e i)).
  cbn [loop_prefix List.length firstn]. rewrite eng_after_cons.
  destruct (request_long fuel rs c e i) as [e' r]. cbn [fst snd]. intros Hne.
  destruct (resp_goes_on first r).
  - specialize (IH false e' (Forall_inv_tail Hne)).
    destruct (loop_reqs false fuel rs c e' rest) as [[w st] e3]. exact IH.
  - cbn [snd]. pose proof (Forall_inv Hne) as Hr. destruct (r_exec r) eqn:Ex; try reflexivity.
    destruct (Hr _ _ Ex).
Qed.

Theorem loop_engine_is_requests rs c fuel e initial reader :
  let inputs := loop_inputs initial reader in
  let made := loop_prefix true (long_resps fuel rs c e inputs) in
  Forall no_exec_error made ->
  snd (eng_loop rs c fuel e initial reader) = eng_after fuel rs c e (firstn (List.length made) inputs).
Proof. rewrite eng_loop_reqs. apply loop_reqs_engine. Qed.

Lemma eng_after_snoc fuel rs c : forall l e i,
  eng_after fuel rs c e (l ++ [i]) = fst (request_long fuel rs c (eng_after fuel rs c e l) i).
Proof. intros l e i. unfold eng_after. rewrite fold_left_app. reflexivity. Qed.

Lemma long_resps_nth fuel rs c : forall inputs e k,
  nth_error (long_resps fuel rs c e inputs) k
  = option_map (fun i => snd (request_long fuel rs c (eng_after fuel rs c e (firstn k inputs)) i))
               (nth_error inputs k).
Proof.
  induction inputs as [|i0 inputs IH]; intros e k; [destruct k; reflexivity|].
  cbn [long_resps]. destruct k as [|k]; cbn [nth_error firstn].
  - cbn [option_map]. change (eng_after fuel rs c e []) with e.
    destruct (request_long fuel rs c e i0) as [e' r]. reflexivity.
  - rewrite eng_after_cons. destruct (request_long fuel rs c e i0) as [e' r]. cbn [nth_error fst]. apply IH.
Qed.

Lemma eng_after_reach fuel rs c : forall l e, long_reach rs c e -> long_reach rs c (eng_after fuel rs c e l).
Proof.
  induction l as [|i l IH]; intros e Hr; [exact Hr|].
  rewrite eng_after_cons. apply IH. apply LReachS. exact Hr.
Qed.

(* transfer: the k-th response is THE response of request_long, from the engine the request driver
   has reached after the first k inputs — an engine of SizeProofs.long_reach when e is one *)
Theorem loop_requests_are_driver_requests rs c fuel e initial reader k r :
  let inputs := loop_inputs initial reader in
  nth_error (loop_prefix true (long_resps fuel rs c e inputs)) k = Some r ->
  exists i, nth_error inputs k = Some i
    /\ r = snd (request_long fuel rs c (eng_after fuel rs c e (firstn k inputs)) i)
    /\ (long_reach rs c e -> long_reach rs c (eng_after fuel rs c e (firstn k inputs)))
    /\ all_go_on true (firstn k (loop_prefix true (long_resps fuel rs c e inputs))) = true.
Proof.
  intros inputs Hk. pose proof (loop_prefix_nth _ _ _ _ Hk) as Hk'.
  rewrite long_resps_nth in Hk'. destruct (nth_error inputs k) as [i|]; [|discriminate Hk'].
  injection Hk' as <-. exists i. split; [reflexivity|]. split; [reflexivity|]. split; [apply eng_after_reach|].
  (* the first k requests made all went on *)
  destruct (List.nth_error_split _ _ Hk) as [pre [post [Heq <-]]].
  rewrite Heq, firstn_app, PeanoNat.Nat.sub_diag, firstn_all. cbn [firstn]. rewrite app_nil_r.
  exact (loop_prefix_before _ _ _ _ _ Heq).
Qed.

(* Loop over a persister: the one deferred Finish saves the session of the engine Loop ends with *)
Lemma loop_stored_is_final_session c res :
  e_initd (snd res) = true ->
  loop_stored c res = Some (snap_of (v_st (e_v (snd res))) (v_ca (e_v (snd res)))).
Proof. intros Hi. unfold loop_stored, loop_saved, eng_finish. rewrite Hi. reflexivity. Qed.

Lemma resp_chunk_cases r :
  resp_chunk r = [] \/ resp_chunk r = r_out r \/ resp_chunk r = r_out r ++ [LF].
Proof.
  unfold resp_chunk. destruct (r_exec r); try (left; reflexivity).
  destruct (r_flush r); try (right; left; reflexivity).
  unfold nl_after. destruct (r_out r); [left; reflexivity|right; right; reflexivity].
Qed.

Lemma resp_chunk_len r : len (resp_chunk r) <= len (r_out r) + 1.
Proof.
  destruct (resp_chunk_cases r) as [H|[H|H]]; rewrite H.
  - change (len (@nil N)) with 0. lia.
  - lia.
  - rewrite len_app. change (len [LF]) with 1. lia.
Qed.

(* every chunk written fits: the Flush output of every request Loop makes is within the output
   size in the arithmetic of the code (uint32), and what is written for it is that output, that
   output and one LF, or nothing *)
Theorem loop_every_chunk_fits rs c fuel e initial reader :
  PgInv c (e_v e) -> 0 < c_out c ->
  let made := loop_prefix true (long_resps fuel rs c e (loop_inputs initial reader)) in
  fst (fst (eng_loop rs c fuel e initial reader)) = List.concat (map resp_chunk made)
  /\ Forall (fun r => w32 (len (r_out r)) <= c_out c
                      /\ (resp_chunk r = [] \/ resp_chunk r = r_out r \/ resp_chunk r = r_out r ++ [LF])) made.
Proof.
  intros Hinv Hpos made. split; [apply loop_output_is_requests|].
  apply Forall_forall. intros r Hin. split; [|apply resp_chunk_cases].
  apply loop_prefix_incl in Hin. rewrite long_resps_long_responses in Hin.
  eapply long_responses_fit32; eassumption.
Qed.

Lemma concat_len_bound (k : N) : forall (l : list bytes),
  Forall (fun ch => len ch <= k) l -> len (List.concat l) <= len l * k.
Proof.
  induction l as [|ch l IH]; intros Hall.
  - change (len (List.concat (@nil bytes))) with 0. lia.
  - cbn [List.concat]. rewrite len_app, len_cons.
    pose proof (Forall_inv Hall) as H1. specialize (IH (Forall_inv_tail Hall)). cbn beta in H1. nia.
Qed.

(* absolute form, PARTIAL under the guard of C01_flush_fits (outputs below 4 GiB; see
   C01_check_refuted_uint32wrap for why it cannot be dropped) *)
Theorem loop_written_bound_partial rs c fuel e initial reader :
  PgInv c (e_v e) -> 0 < c_out c ->
  let made := loop_prefix true (long_resps fuel rs c e (loop_inputs initial reader)) in
  Forall (fun r => len (r_out r) < 4294967296) made ->
  Forall (fun r => len (resp_chunk r) <= c_out c + 1) made
  /\ len (fst (fst (eng_loop rs c fuel e initial reader))) <= len made * (c_out c + 1).
Proof.
  intros Hinv Hpos made Hsmall.
  destruct (loop_every_chunk_fits rs c fuel e initial reader Hinv Hpos) as [Hw Hfit].
  fold made in Hw, Hfit.
  assert (Hch : Forall (fun r => len (resp_chunk r) <= c_out c + 1) made).
  { apply Forall_forall. intros r Hin.
    rewrite Forall_forall in Hfit, Hsmall. destruct (Hfit r Hin) as [H32 _]. specialize (Hsmall r Hin).
    rewrite w32_small in H32 by exact Hsmall. pose proof (resp_chunk_len r). lia. }
  split; [exact Hch|].
  rewrite Hw.
  assert (Hl : len made = len (map resp_chunk made)) by (unfold len; rewrite map_length; reflexivity).
  rewrite Hl. apply concat_len_bound, Forall_map, Hch.
Qed.

Lemma loop_reqs_stops fuel rs c : forall l1 l2 first e,
  all_go_on first (long_resps fuel rs c e l1) = false ->
  loop_reqs first fuel rs c e (l1 ++ l2) = loop_reqs first fuel rs c e l1.
Proof.
  induction l1 as [|i l1 IH]; intros l2 first e Hstop; [discriminate Hstop|].
  revert Hstop. cbn [List.app loop_reqs long_resps]. destruct (request_long fuel rs c e i) as [e' r].
  cbn [all_go_on]. destruct (resp_goes_on first r); [|reflexivity].
  intros Hstop. rewrite (IH l2 false e' Hstop). reflexivity.
Qed.

Definition ends_nl (r : bytes) : Prop := r = [] \/ exists r', r = r' ++ [LF].

Lemma split_lines_app : forall r1 r2,
  snd (split_lines r1) = [] ->
  split_lines (r1 ++ r2) = (fst (split_lines r1) ++ fst (split_lines r2), snd (split_lines r2)).
Proof.
  induction r1 as [|b r1 IH]; intros r2 Ht.
  - cbn [List.app split_lines fst]. destruct (split_lines r2); reflexivity.
  - revert Ht. cbn [List.app split_lines]. specialize (IH r2).
    destruct (split_lines r1) as [ls t]. cbn [fst snd] in IH.
    destruct (b =? LF).
    + cbn [fst snd]. intros Ht. rewrite (IH Ht). reflexivity.
    + destruct ls as [|l ls].
      * cbn [snd]. intros Ht. discriminate Ht.
      * cbn [fst snd]. intros Ht. rewrite (IH Ht). reflexivity.
Qed.

Lemma split_lines_snoc_nl : forall r, snd (split_lines (r ++ [LF])) = [] /\ fst (split_lines (r ++ [LF])) <> [].
Proof.
  induction r as [|b r [IHt IHl]].
  - split; [reflexivity|discriminate].
  - cbn [List.app split_lines]. destruct (split_lines (r ++ [LF])) as [ls t]. cbn [fst snd] in *. subst t.
    destruct (b =? LF).
    + split; [reflexivity|discriminate].
    + destruct ls as [|l ls]; [exfalso; apply IHl; reflexivity|]. split; [reflexivity|discriminate].
Qed.

Lemma ends_nl_no_tail r : ends_nl r -> snd (split_lines r) = [].
Proof. intros [->|[r' ->]]; [reflexivity|apply split_lines_snoc_nl]. Qed.

Lemma split_lines_no_nl : forall t, ~ In LF t -> split_lines t = ([], t).
Proof.
  induction t as [|b t IH]; intros Hno; [reflexivity|].
  cbn [split_lines]. rewrite IH by (intros H; apply Hno; right; exact H).
  destruct (b =? LF) eqn:Hb; [|reflexivity].
  exfalso. apply Hno. left. apply N.eqb_eq in Hb. exact Hb.
Qed.

Lemma loop_lines_app r1 r2 :
  ends_nl r1 ->
  loop_lines (r1 ++ r2) = (fst (loop_lines r1) ++ fst (loop_lines r2), snd (loop_lines r2)).
Proof.
  intros Hnl. unfold loop_lines. rewrite (split_lines_app r1 r2 (ends_nl_no_tail r1 Hnl)).
  destruct (split_lines r1) as [ls1 t1]. destruct (split_lines r2) as [ls2 t2]. cbn [fst snd].
  rewrite map_app. reflexivity.
Qed.

(* if, on the reader content r1 (ending with a line feed), some request does not go on —
   it reports cont = false, or fails — then whatever follows r1 has no effect: same bytes
   written, same status, same engine *)
Theorem loop_stops_at_end rs c fuel e initial r1 r2 :
  ends_nl r1 ->
  all_go_on true (long_resps fuel rs c e (loop_inputs initial r1)) = false ->
  eng_loop rs c fuel e initial (r1 ++ r2) = eng_loop rs c fuel e initial r1.
Proof.
  intros Hnl. rewrite !eng_loop_reqs. unfold loop_inputs. rewrite (loop_lines_app r1 r2 Hnl). cbn [fst].
  apply (loop_reqs_stops fuel rs c (loop_initial initial :: fst (loop_lines r1))).
Qed.

Lemma stop_not_all_go_on : forall l first r, In r l -> r_cont r = false -> all_go_on first l = false.
Proof.
  induction l as [|r0 l IH]; intros first r Hin Hc; [destruct Hin|].
  cbn [all_go_on]. destruct Hin as [->|Hin].
  - unfold resp_goes_on. rewrite Hc. reflexivity.
  - rewrite (IH false r Hin Hc). apply Bool.andb_false_r.
Qed.

(* bufio.ReadString returns what follows the last line feed together with io.EOF, and Loop
   returns on io.EOF before looking at the data: those bytes are never executed *)
Theorem loop_drops_unterminated_tail rs c fuel e initial r tail :
  ends_nl r -> ~ In LF tail ->
  fst (loop_lines (r ++ tail)) = fst (loop_lines r)
  /\ eng_loop rs c fuel e initial (r ++ tail) = eng_loop rs c fuel e initial r.
Proof.
  intros Hnl Hno.
  assert (Hl : fst (loop_lines (r ++ tail)) = fst (loop_lines r)).
  { rewrite (loop_lines_app r tail Hnl). cbn [fst]. unfold loop_lines at 2.
    rewrite (split_lines_no_nl tail Hno). cbn [fst map]. apply app_nil_r. }
  split; [exact Hl|]. unfold eng_loop. rewrite Hl. reflexivity.
Qed.

Lemma split_lines_concat : forall r, List.concat (fst (split_lines r)) ++ snd (split_lines r) = r.
Proof.
  induction r as [|b r IH]; [reflexivity|].
  cbn [split_lines]. destruct (split_lines r) as [ls t]. cbn [fst snd] in IH.
  destruct (b =? LF) eqn:Hb.
  - apply N.eqb_eq in Hb. subst b. cbn [fst snd List.concat List.app]. rewrite IH. reflexivity.
  - destruct ls as [|l ls]; cbn [fst snd List.concat List.app] in *; rewrite <- IH; [reflexivity|].
    rewrite <- !app_assoc. reflexivity.
Qed.

Lemma split_lines_tail_no_nl : forall r, ~ In LF (snd (split_lines r)).
Proof.
  induction r as [|b r IH]; [intros H; exact H|].
  cbn [split_lines]. destruct (split_lines r) as [ls t]. cbn [snd] in IH.
  destruct (b =? LF) eqn:Hb; [exact IH|].
  destruct ls as [|l ls]; [|exact IH].
  cbn [snd]. intros [H|H]; [|exact (IH H)]. subst b. discriminate Hb.
Qed.

Lemma split_lines_lines_end_nl : forall r l, In l (fst (split_lines r)) -> exists l', l = l' ++ [LF].
Proof.
  induction r as [|b r IH]; intros l Hin; [destruct Hin|].
  revert Hin. cbn [split_lines]. destruct (split_lines r) as [ls t]. cbn [fst] in IH.
  destruct (b =? LF).
  - cbn [fst]. intros [<-|Hin]; [exists []; reflexivity|apply IH; exact Hin].
  - destruct ls as [|l0 ls]; [intros Hin; destruct Hin|].
    cbn [fst]. intros [<-|Hin].
    + destruct (IH l0 (or_introl eq_refl)) as [l' ->]. exists (b :: l'). reflexivity.
    + apply IH. right. exact Hin.
Qed.

Lemma concat_ends_nl : forall ls : list bytes,
  (forall l, In l ls -> exists l', l = l' ++ [LF]) -> ends_nl (List.concat ls).
Proof.
  induction ls as [|l ls IH]; intros Hall; [left; reflexivity|].
  cbn [List.concat]. destruct (IH (fun l0 H => Hall l0 (or_intror H))) as [Hnil|[r' Hr']].
  - rewrite Hnil, app_nil_r. right. apply Hall. left. reflexivity.
  - rewrite Hr'. right. exists (l ++ r'). rewrite app_assoc. reflexivity.
Qed.

Theorem loop_reader_decomposition reader :
  let complete := List.concat (fst (split_lines reader)) in
  let tail := snd (split_lines reader) in
  reader = complete ++ tail /\ ends_nl complete /\ ~ In LF tail.
Proof.
  cbn zeta. split; [symmetry; apply split_lines_concat|]. split; [|apply split_lines_tail_no_nl].
  apply concat_ends_nl. apply split_lines_lines_end_nl.
Qed.

Corollary loop_ignores_tail rs c fuel e initial reader :
  eng_loop rs c fuel e initial reader
  = eng_loop rs c fuel e initial (List.concat (fst (split_lines reader))).
Proof.
  destruct (loop_reader_decomposition reader) as [Heq [Hnl Hno]].
  rewrite Heq at 1. apply loop_drops_unterminated_tail; assumption.
Qed.

(* white space at either end of a line never reaches Exec: the trimmed line neither starts nor
   ends with an ASCII white space byte *)
Lemma trim_front_spec rv : forall s,
  (exists p, s = p ++ trim_front rv s) /\ (forall b r, trim_front rv s = b :: r -> ascii_space_b b = false).
Proof.
  set (Q := fun s t : bytes => (exists p, s = p ++ t) /\ (forall b r, t = b :: r -> ascii_space_b b = false)).
  assert (Hkeep : forall b s, ascii_space_b b = false -> Q (b :: s) (b :: s)).
  { intros b s Hb. split; [exists []; reflexivity|]. intros b' r [= <- _]. exact Hb. }
  assert (Hdrop : forall p s t, Q s t -> Q (p ++ s) t).
  { intros p s t [[p' ->] Ht]. split; [exists (p ++ p'); apply app_assoc|exact Ht]. }
  (* strong induction on the length: trim_front recurses on tails up to three bytes down *)
  assert (H : forall n s, (List.length s <= n)%nat -> Q s (trim_front rv s)).
  { induction n as [|n IH]; intros s Hlen; (destruct s as [|b1 s1]; [split; [exists []; reflexivity|discriminate]|]);
      cbn [List.length] in Hlen; [lia|]. cbn [trim_front].
    destruct (ascii_space_b b1) eqn:Hb1; [apply (Hdrop [b1]), IH; lia|].
    destruct s1 as [|b2 s2]; [apply Hkeep, Hb1|]. cbn [List.length] in Hlen.
    destruct (if rv then space2_b b2 b1 else space2_b b1 b2); [apply (Hdrop [b1; b2]), IH; lia|].
    destruct s2 as [|b3 s3]; [apply Hkeep, Hb1|]. cbn [List.length] in Hlen.
    destruct (if rv then space3_b b3 b2 b1 else space3_b b1 b2 b3); [apply (Hdrop [b1; b2; b3]), IH; lia|].
    apply Hkeep, Hb1. }
  intros s. apply (H (List.length s)). lia.
Qed.

Theorem trim_space_ends s :
  (forall b r, trim_space s = b :: r -> ascii_space_b b = false)
  /\ (forall b r, trim_space s = r ++ [b] -> ascii_space_b b = false)
  /\ exists p q, s = p ++ trim_space s ++ q.
Proof.
  unfold trim_space, trim_right, trim_left.
  set (l := trim_front false s).
  destruct (trim_front_spec false s) as [[p Hp] Hfront]. fold l in Hp, Hfront.
  destruct (trim_front_spec true (rev l)) as [[q Hq] Hback].
  assert (Hl : l = rev (trim_front true (rev l)) ++ rev q).
  { rewrite <- rev_app_distr, <- Hq, rev_involutive. reflexivity. }
  split; [|split].
  - intros b r Hbr.
    destruct l as [|b0 l0] eqn:El; [cbn [rev trim_front] in Hbr; discriminate Hbr|].
    (* the first byte of the result is the first byte of l, unless the result is empty *)
    assert (Hb0 : ascii_space_b b0 = false) by (eapply Hfront; reflexivity).
    rewrite Hbr in Hl. cbn [List.app] in Hl. injection Hl as Hb _. subst b0. exact Hb0.
  - intros b r Hbr.
    assert (Hrev : trim_front true (rev l) = b :: rev r).
    { rewrite <- (rev_involutive (trim_front true (rev l))), Hbr, rev_app_distr. reflexivity. }
    eapply Hback. exact Hrev.
  - exists p, (rev q). rewrite <- Hl. exact Hp.
Qed.

(* Fixtures of the Examples of props/C20loop.v (C20loop_nonvacuous_graceful_end, _stop_hypotheses, _tail_dropped,
   _errors, _stored).  Corpus case exit-overflow with a short exit value: root halts and offers "1" -> end1,
   which loads " see you" and halts: graceful end on the second request *)
Definition wit_loop_app : app := wit_exit_app (s2b " see you").
Definition wit_loop_cfg : config := wit_cfg30.
Definition wit_loop_run (initial : option bytes) (reader : string) :=
  let '(w, st, e) := eng_loop (app_rsrc wit_loop_app) wit_loop_cfg 3000 (new_engine wit_loop_cfg None [] []) initial (s2b reader) in
  (w, st, s_path (v_st (e_v e)), List.length (v_log (e_v e))).
Definition lf_s : string := String (Ascii.ascii_of_nat 10) EmptyString.
Definition cr_s : string := String (Ascii.ascii_of_nat 13) EmptyString.
Definition tab_s : string := String (Ascii.ascii_of_nat 9) EmptyString.
