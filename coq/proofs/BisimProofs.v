(* C07: one long-lived engine and one engine per request over a store answer alike.
   In this order: pages compared up to fields that nothing reads (peq), which Page.Render respects (page_render_peq);
   machines that differ in their pages only (veq), which every instruction, Run and Vm.Render respect (exec_instr_veq,
   run_veq, vm_render_veq); what one machine keeps through a run (vm_ops_keep, run_halt_wait); the engine-level
   simulation (erel and Linv, R, step_simulation, history_simulation).  At the end the C17 lemmas on a refused FIRST
   request, which are stated over e_init and first_exec of this file, and the applications of the Examples of props/C07.v. *)
From Coq Require Import Lia.
From Vise Require Import Bytes Errors Consts EngConsts Codec CacheModel StateModel NavModel RenderModel VmModel EngineModel
  BytesProofs CodecProofs NavProofs VmProofs RenderProofs EngineProofs.
Local Open Scope N_scope.

(* the sizer's member table and running total are written (Sizer.Set) and never read *)
Definition znorm (z : sizer) : sizer := mkSizer (z_out z) [] 0 (z_crsrs z) (z_sink z).
(* the menu's browse configuration and availability flags, which Menu.Reset erases (go-vise c373f7d).
   The run loop never reads them (only rendering does), so it respects the equivalence that ignores them
   (lk = true) as well as the finer one; the engine simulation below uses lk = false only, and nothing instantiates
   lk = true (props/C07.C07_run_respects_equiv is stated for every lk). *)
Definition scrub_menu (m : menu) : menu :=
  mkMenu (m_items m) browse_zero (m_page_count m) false false (m_sink m) (m_keep m) (m_sep m) (m_has_rs m).
Definition mnorm (lk : bool) (m : menu) : menu := if lk then scrub_menu m else m.
(* lk = false: equal up to the dead sizer fields; lk = true: also up to the browse configuration *)
Definition pnorm (lk : bool) (pg : page) : page :=
  mkPage (p_map pg) (p_sink pg) (option_map (mnorm lk) (p_menu pg)) (option_map znorm (p_sizer pg)) (p_err pg) (p_extra pg).
Definition peq (lk : bool) (a b : page) : Prop := pnorm lk a = pnorm lk b.

(* what Run does to the page when execution resumes after a HALT *)
Definition wreset (pg : page) : page := upd_menu menu_reset (page_reset (page_with_error pg None)).

(* what survives every operation: presence of menu and sizer, separator, resource, output size *)
Definition pshape (pg : page) : option (bytes * bool) * option N :=
  (option_map (fun m => (m_sep m, m_has_rs m)) (p_menu pg), option_map z_out (p_sizer pg)).

Lemma peq_refl : forall lk a, peq lk a a. Proof. reflexivity. Qed.
Lemma peq_sym : forall lk a b, peq lk a b -> peq lk b a. Proof. unfold peq; intros; congruence. Qed.
Lemma peq_trans : forall lk a b c, peq lk a b -> peq lk b c -> peq lk a c. Proof. unfold peq; intros; congruence. Qed.

Lemma pshape_pnorm : forall lk pg, pshape (pnorm lk pg) = pshape pg.
Proof. intros [|] [mp sk [m|] [z|] er ex]; reflexivity. Qed.
Lemma peq_pshape : forall lk a b, peq lk a b -> pshape a = pshape b.
Proof. intros lk a b H. rewrite <- (pshape_pnorm lk a), H. apply pshape_pnorm. Qed.

Definition mop (f : menu -> menu) : Prop :=
  forall m, scrub_menu (f m) = scrub_menu (f (scrub_menu m)) /\ mshape (f m) = mshape m.

Lemma menu_op_mop : forall f, menu_op f -> mop f.
Proof.
  intros f [s t| |t s|t s] m; try (split; reflexivity).
  unfold menu_with_pages. cbn [menu_with_sink m_page_count scrub_menu]. destruct (m_page_count m =? 0); split; reflexivity.
Qed.

Definition pres (F : page -> page) : Prop := forall lk pg, pnorm lk (F pg) = pnorm lk (F (pnorm lk pg)).

Lemma pres_peq : forall F lk a b, pres F -> peq lk a b -> peq lk (F a) (F b).
Proof. unfold peq. intros F lk a b HF H. rewrite (HF lk a), (HF lk b), H. reflexivity. Qed.

Lemma pres_upd_menu : forall f, mop f -> pres (upd_menu f).
Proof.
  intros f Hf [|] [mp sk [m|] [z|] er ex]; try reflexivity;
    unfold pnorm, upd_menu; cbn [p_map p_sink p_menu p_sizer p_err p_extra option_map mnorm]; rewrite (proj1 (Hf m)); reflexivity.
Qed.
Lemma pres_with_error : forall e, pres (fun pg => page_with_error pg e).
Proof. intros e [|] [mp sk [m|] [z|] er ex]; reflexivity. Qed.
Lemma pres_wreset : pres wreset.
Proof. intros [|] [mp sk [m|] [z|] er ex]; reflexivity. Qed.
Lemma pres_vm_reset : forall sep, pres (vm_reset sep).
Proof. intros sep [|] [mp sk [m|] [z|] er ex]; reflexivity. Qed.

Lemma peq_inv : forall lk a b, peq lk a b ->
  p_map a = p_map b /\ p_sink a = p_sink b /\ option_map (mnorm lk) (p_menu a) = option_map (mnorm lk) (p_menu b)
  /\ option_map znorm (p_sizer a) = option_map znorm (p_sizer b) /\ p_err a = p_err b /\ p_extra a = p_extra b.
Proof. intros lk a b H. unfold peq, pnorm in H. injection H as H1 H2 H3 H4 H5 H6. auto 10. Qed.

Lemma peq_page_map : forall lk ca a b k, peq lk a b ->
  match page_map ca a k, page_map ca b k with
  | Ok a', Ok b' => peq lk a' b'
  | Err e, Err e' => e = e'
  | Panic n, Panic n' => n = n'
  | _, _ => False
  end.
Proof.
  intros lk ca a b k H. destruct (peq_inv lk a b H) as [H1 [H2 [H3 [H4 [H5 H6]]]]].
  unfold page_map. destruct (cache_get ca k) as [v|e|n]; cbn [obind]; try reflexivity.
  destruct (cache_reserved ca k) as [l|e|n]; cbn [obind]; try reflexivity.
  rewrite H2.
  destruct (if l =? 0 then match p_sink b with Some s => negb (bytes_eqb s k) | None => false end else false); [reflexivity|].
  unfold peq, pnorm. cbn [p_map p_sink p_menu p_sizer p_err p_extra]. rewrite H1, H3, H5, H6. f_equal.
  destruct (p_sizer a) as [za|], (p_sizer b) as [zb|]; cbn [option_map] in *; try discriminate; [|reflexivity].
  injection H4 as Ho Hc Hs. unfold sizer_set, znorm. cbn [z_out z_crsrs z_sink]. rewrite Ho, Hc, Hs. reflexivity.
Qed.

Lemma pshape_upd_menu : forall f pg, mop f -> pshape (upd_menu f pg) = pshape pg.
Proof.
  intros f [mp sk [m|] z er ex] Hf; [|reflexivity]. unfold upd_menu, pshape. cbn [p_menu p_sizer option_map].
  f_equal. f_equal. exact (proj2 (Hf m)).
Qed.

Lemma pshape_with_error : forall pg e, pshape (page_with_error pg e) = pshape pg.
Proof. reflexivity. Qed.
Lemma pshape_wreset : forall pg, pshape (wreset pg) = pshape pg.
Proof. intros [mp sk [m|] [z|] er ex]; reflexivity. Qed.

Definition sep_eff (sep : bytes) : bytes := match sep with [] => vm_default_sep | _ => sep end.
Lemma pshape_vm_reset : forall sep pg, pshape (vm_reset sep pg) = (Some (sep_eff sep, true), snd (pshape pg)).
Proof. intros sep [mp sk m [z|] er ex]; reflexivity. Qed.
Lemma pshape_P0 : forall c, pshape (P0 c) = (Some (sep_eff (c_sep c), true), if 0 <? c_out c then Some (c_out c) else None).
Proof.
  intros c. unfold P0, new_vm_page. destruct (c_sep c) as [|x s]; destruct (0 <? c_out c); reflexivity.
Qed.

Lemma pshape_page_map : forall ca pg k pg', page_map ca pg k = Ok pg' -> pshape pg' = pshape pg.
Proof. intros ca pg k pg' H. exact (f_equal fst (page_map_kept H)). Qed.

(* rendering never reads the dead sizer fields: every step of Page.Render answers alike on zn pg and leaves zn of what it leaves on pg *)
Definition zn (pg : page) : page := page_set_sizer pg (option_map znorm (p_sizer pg)).

Lemma pnorm_false : forall pg, pnorm false pg = zn pg.
Proof. intros [mp sk [m|] z er ex]; reflexivity. Qed.

Lemma zn_idem : forall pg, zn (zn pg) = zn pg.
Proof. intros [mp sk m [z|] er ex]; reflexivity. Qed.
Lemma zn_set_menu : forall pg m, zn (page_set_menu pg m) = page_set_menu (zn pg) m.
Proof. reflexivity. Qed.
Lemma sizer_get_at_zn : forall z vals idx, sizer_get_at (znorm z) vals idx = sizer_get_at z vals idx.
Proof. reflexivity. Qed.

Lemma render_template_zn : forall gt pg sym vals idx,
  render_template gt (zn pg) sym vals idx = render_template gt pg sym vals idx.
Proof. intros gt [mp sk m [z|] er ex] sym vals idx; reflexivity. Qed.

Lemma inner_zn : forall gt gm pg sym vals idx,
  page_render_inner gt gm (zn pg) sym vals idx = on_page zn (page_render_inner gt gm pg sym vals idx).
Proof.
  intros gt gm pg sym vals idx. rewrite !inner_steps.
  apply sbind_on_page; [rewrite render_template_zn; reflexivity|intros pg0 s].
  apply sbind_on_page; [destruct pg0 as [mp sk [m|] z er ex]; reflexivity|intros [mp sk m [z|] er ex] mt; reflexivity].
Qed.

Lemma prep_menu_sink_zn : forall gm pg aliased nsv0 sink0 svs0,
  prep_menu_sink gm (zn pg) aliased nsv0 sink0 svs0 = on_page zn (prep_menu_sink gm pg aliased nsv0 sink0 svs0).
Proof.
  intros gm [mp sk [m|] z er ex] aliased nsv0 sink0 svs0; [|reflexivity]. unfold prep_menu_sink, zn, prep_write.
  cbn [p_menu page_set_sizer]. destruct (m_sink m); [|reflexivity]. destruct (negb aliased); [reflexivity|].
  destruct (menu_render_st gm _ 0) as [[s|e|n] m2]; try reflexivity. destruct aliased, z; reflexivity.
Qed.

Lemma place_sink_zn : forall aliased nsv sink svs pg3 s,
  place_sink aliased nsv sink svs (zn pg3) s = on_page zn (place_sink aliased nsv sink svs pg3 s).
Proof.
  intros aliased nsv sink svs [mp sk m [z|] er ex] s; [|reflexivity]. unfold place_sink, zn, prep_write.
  cbn [p_sizer p_menu page_set_sizer option_map]. change (sizer_check (znorm z)) with (sizer_check z).
  destruct (sizer_check z s) as [remaining ok]. destruct (negb ok); [reflexivity|].
  apply sbind_on_page; [reflexivity|intros pg ms]. change (z_crsrs (znorm z)) with (z_crsrs z).
  destruct (join_sink svs remaining ms (z_crsrs z)) as [jr crs'].
  apply sbind_on_page; [reflexivity|intros pg4 [r n]; destruct aliased; reflexivity].
Qed.

Lemma prepare_zn : forall c gt gm pg sym idx,
  page_prepare c gt gm (zn pg) sym idx = on_page zn (page_prepare c gt gm pg sym idx).
Proof.
  intros c gt gm pg sym idx. rewrite !page_prepare_steps. destruct pg as [mp sk m [z0|] er ex]; [|reflexivity].
  apply sbind_on_page; [reflexivity|intros pg0 [[nsv0 sink0] svs0]]. cbv zeta.
  apply sbind_on_page; [apply prep_menu_sink_zn|intros pg1 [[nsv sink] svs]].
  apply sbind_on_page; [|intros pg3 s; apply place_sink_zn].
  unfold pre_render. rewrite <- inner_zn. destruct pg1 as [mp1 sk1 m1 [z1|] er1 ex1]; reflexivity.
Qed.

Lemma render_zn : forall c gt gm pg sym idx,
  page_render c gt gm (zn pg) sym idx = on_page zn (page_render c gt gm pg sym idx).
Proof.
  intros c gt gm pg sym idx. rewrite !page_render_steps.
  apply sbind_on_page; [apply prepare_zn|intros pg1 vals; apply inner_zn].
Qed.

Lemma render_shape : forall c gt gm pg sym idx, pshape (snd (page_render c gt gm pg sym idx)) = pshape pg.
Proof. intros c gt gm pg sym idx. exact (f_equal fst (page_render_kept c gt gm pg sym idx)). Qed.

Lemma page_render_peq : forall c gt gm a b sym idx, peq false a b ->
  exists r a' b', page_render c gt gm a sym idx = (r, a') /\ page_render c gt gm b sym idx = (r, b') /\ peq false a' b'.
Proof.
  intros c gt gm a b sym idx H. unfold peq in H. rewrite !pnorm_false in H.
  pose proof (render_zn c gt gm a sym idx) as Ea. rewrite H, render_zn in Ea.
  exists (fst (page_render c gt gm a sym idx)), (snd (page_render c gt gm a sym idx)), (snd (page_render c gt gm b sym idx)).
  pose proof (f_equal fst Ea) as Hr. cbn [fst on_page] in Hr.
  split; [apply surjective_pairing|]. split; [rewrite <- Hr; apply surjective_pairing|].
  unfold peq. rewrite !pnorm_false. exact (eq_sym (f_equal snd Ea)).
Qed.

(* two machines that differ only in their pages (and taint) *)
Definition veq (lk : bool) (a b : vmst) : Prop :=
  v_st a = v_st b /\ v_ca a = v_ca b /\ v_w a = v_w b /\ v_log a = v_log b /\ peq lk (v_pg a) (v_pg b).
Definition heq (lk : bool) (x y : hres) : Prop :=
  veq lk (fst (fst x)) (fst (fst y)) /\ snd (fst x) = snd (fst y) /\ snd x = snd y.

Lemma veq_elim : forall lk a b, veq lk a b ->
  exists st ca pa pb w lg ta tb, a = mkVm st ca pa w lg ta /\ b = mkVm st ca pb w lg tb /\ peq lk pa pb.
Proof.
  intros lk [st ca pa w lg ta] [st' ca' pb w' lg' tb] [H1 [H2 [H3 [H4 H5]]]]. cbn in *. subst.
  exists st', ca', pa, pb, w', lg', ta, tb. auto.
Qed.
Lemma veq_mk : forall lk st ca pa pb w lg ta tb, peq lk pa pb -> veq lk (mkVm st ca pa w lg ta) (mkVm st ca pb w lg tb).
Proof. intros. unfold veq. cbn. auto. Qed.
Lemma heq_intro : forall lk a b bb s, veq lk a b -> heq lk (a, bb, s) (b, bb, s).
Proof. intros lk a b bb s H. split; [exact H|split; reflexivity]. Qed.
Lemma heq_inv : forall lk x y, heq lk x y -> exists a b bb s, x = (a, bb, s) /\ y = (b, bb, s) /\ veq lk a b.
Proof. intros lk [[a bb] s] [[b bb'] s'] [H1 [H2 H3]]. cbn [fst snd] in *. subst. eauto 8. Qed.
Lemma veq_refl : forall lk a, veq lk a a. Proof. intros. unfold veq. repeat split; reflexivity. Qed.
Lemma veq_sym : forall lk a b, veq lk a b -> veq lk b a.
Proof. unfold veq. intros lk a b [H1 [H2 [H3 [H4 H5]]]]. repeat split; try congruence; try (apply peq_sym; exact H5). Qed.
Lemma veq_trans : forall lk a b c, veq lk a b -> veq lk b c -> veq lk a c.
Proof. unfold veq. intros lk a b c [H1 [H2 [H3 [H4 H5]]]] [G1 [G2 [G3 [G4 G5]]]]. repeat split; try congruence; try (eapply peq_trans; eassumption). Qed.

(* vcbn: fields and setters of machines given by their constructor (cbv: with cbn the kernel re-checks the
   handlers' unfoldings very slowly); velim: two equivalent machines as constructors sharing all but page and taint *)
Ltac vcbn := cbv beta iota zeta delta [vset_st vset_ca vset_pg vset_w vlog vtaint v_st v_ca v_pg v_w v_log v_taint]; cbn [fst snd].
Ltac velim H := destruct (veq_elim _ _ _ H) as (st & ca & pa & pb & w & lg & ta & tb & -> & -> & Hp).

Definition st_keep (a b : state) : Prop :=
  s_code b = s_code a /\ List.length (s_flags b) = List.length (s_flags a).
Lemma st_keep_input : forall s x, st_keep s (set_input_raw s x).
Proof. intros; split; reflexivity. Qed.

(* what the instructions do to the page *)
Inductive pfun (sep : bytes) : (page -> page) -> Prop :=
| pf_id : pfun sep (fun pg => pg)
| pf_reset : pfun sep (vm_reset sep)
| pf_menu f : menu_op f -> pfun sep (upd_menu f)
| pf_err e : pfun sep (fun pg => page_with_error pg e).

Lemma pfun_peq : forall sep f lk a b, pfun sep f -> peq lk a b -> peq lk (f a) (f b).
Proof.
  intros sep f lk a b [| |g Hg|e] H; [exact H|apply pres_peq, H; apply pres_vm_reset|apply pres_peq, H; apply pres_upd_menu, menu_op_mop, Hg|apply (pres_peq _ _ _ _ (pres_with_error e) H)].
Qed.

(* Every instruction looks at state, cache, counters and log only, and then either applies one of these
   functions to the page, or ends like MAP. *)
Inductive acts (sep : bytes) (X : page -> bool -> hres) : Prop :=
| acts_fun st' ca' w' lg' f b s :
    (forall pg t, X pg t = (mkVm st' ca' (f pg) w' lg' t, b, s)) -> pfun sep f -> acts sep X
| acts_map st' ca' w' lg' k b :
    (forall pg t, X pg t = run_map k b (mkVm st' ca' pg w' lg' t)) -> acts sep X.

Lemma acts_same : forall sep st ca w lg b s, acts sep (fun pg t => (mkVm st ca pg w lg t, b, s)).
Proof. intros. eapply acts_fun; [reflexivity|apply pf_id]. Qed.

Lemma refresh_indep : forall rs lang key st ca w lg, exists st' w' lg' content s,
  forall pg t, refresh rs lang key (mkVm st ca pg w lg t) = (mkVm st' ca pg w' lg' t, content, s).
Proof.
  intros rs lang key st ca w lg. unfold refresh. vcbn.
  destruct (rs_func rs key) as [script|]; [|do 5 eexists; reflexivity].
  destruct (nth_fres script _) as [fr|]; [|do 5 eexists; reflexivity].
  destruct (fr_fail fr); [do 5 eexists; reflexivity|].
  destruct (apply_flags false (fr_reset fr) st) as [st1|e|n]; [|do 5 eexists; reflexivity..].
  destruct (apply_flags true (fr_set fr) st1) as [st2|e|n]; do 5 eexists; reflexivity.
Qed.

Lemma run_catch_acts : forall rs sep sym sig mode bb st ca w lg,
  acts sep (fun pg t => run_catch rs sym sig mode bb (mkVm st ca pg w lg t)).
Proof.
  intros. unfold run_catch, fetch_code. vcbn.
  destruct (match_flag st sig mode) as [[|]|e|n]; try apply acts_same.
  destruct (apply_target sym st ca) as [[[st' ca'] nsym] s].
  destruct s; [destruct (rs_observed rs), (rs_code rs nsym)|..]; vcbn; apply acts_same.
Qed.

Lemma run_croak_acts : forall sep sig mode bb st ca w lg,
  acts sep (fun pg t => run_croak sep sig mode bb (mkVm st ca pg w lg t)).
Proof.
  intros. unfold run_croak. vcbn.
  destruct (match_flag st sig mode) as [[|]|e|n]; try apply acts_same.
  eapply acts_fun; [reflexivity|apply pf_reset].
Qed.

Lemma run_load_acts : forall rs sep lang sym sz bb st ca w lg,
  acts sep (fun pg t => run_load rs lang sym sz bb (mkVm st ca pg w lg t)).
Proof.
  intros. destruct (refresh_indep rs lang sym st ca w lg) as (st' & w' & lg' & content & s & Hr).
  unfold run_load. vcbn.
  destruct (cache_get ca sym); try apply acts_same.
  destruct s; [destruct (cache_add ca sym content (w16 sz)) as [ca'|[]|n] eqn:Ea|..];
    (eapply acts_fun; [intros; rewrite Hr; vcbn; rewrite ?Ea; reflexivity|apply pf_id]).
Qed.

Lemma run_reload_acts : forall rs sep lang sym bb st ca w lg,
  acts sep (fun pg t => run_reload rs lang sym bb (mkVm st ca pg w lg t)).
Proof.
  intros. destruct (refresh_indep rs lang sym st ca w lg) as (st' & w' & lg' & content & s & Hr).
  unfold run_reload.
  destruct s; [|eapply acts_fun; [intros; rewrite Hr; reflexivity|apply pf_id]..].
  destruct (cache_update_raw ca sym content) as [ca' oe] eqn:Eu.
  eapply acts_map. intros; rewrite Hr; vcbn; rewrite Eu; reflexivity.
Qed.

Lemma run_move_acts : forall rs sep sym bb st ca w lg,
  acts sep (fun pg t => run_move rs sep sym bb (mkVm st ca pg w lg t)).
Proof.
  intros. unfold run_move, fetch_code. vcbn.
  destruct (apply_target sym st ca) as [[[st' ca'] nsym] s].
  destruct s; [destruct (rs_observed rs), (rs_code rs nsym)|..]; vcbn;
    (eapply acts_fun; [reflexivity|constructor]).
Qed.

Lemma run_incmp_acts : forall rs sep dest sel bb st ca w lg,
  acts sep (fun pg t => run_incmp rs sep dest sel bb (mkVm st ca pg w lg t)).
Proof.
  intros. unfold run_incmp, fetch_code. vcbn.
  destruct (getf st FLAG_INMATCH && getf st FLAG_READIN); [apply acts_same|].
  set (st1 := if getf st FLAG_INMATCH then st else setf st FLAG_READIN).
  destruct (s_input st1) as [input|]; [|apply acts_same].
  destruct (_ || _); [|apply acts_same].
  destruct (apply_target dest _ ca) as [[[st' ca'] nsym] s].
  destruct s as [|[] m|n|]; [destruct (rs_observed rs), (rs_code rs nsym)|..]; vcbn;
    (eapply acts_fun; [reflexivity|constructor]).
Qed.

Lemma exec_instr_acts : forall rs sep lang i bb st ca w lg,
  acts sep (fun pg t => exec_instr rs sep lang i bb (mkVm st ca pg w lg t)).
Proof.
  intros. destruct i; cbn [exec_instr]; vcbn; try apply acts_same;
    try (eapply acts_fun; [reflexivity|apply pf_menu; constructor]).
  - apply run_catch_acts.
  - apply run_croak_acts.
  - apply run_load_acts.
  - apply run_reload_acts.
  - eapply acts_map. reflexivity.
  - apply run_move_acts.
  - apply run_incmp_acts.
Qed.

Lemma dead_check_acts : forall sep st ca w lg, acts sep (fun pg t => dead_check (mkVm st ca pg w lg t)).
Proof.
  intros. unfold dead_check. vcbn.
  destruct (negb (getf st FLAG_READIN)); [apply acts_same|].
  destruct (getf st FLAG_TERMINATE); [apply acts_same|].
  destruct (where_sym st) as [|x r]; [apply acts_same|].
  destruct (bytes_eqb (x :: r) catch_sym); [apply acts_same|].
  eapply acts_fun; [reflexivity|apply pf_err].
Qed.

Lemma run_map_heq : forall lk sym bb st ca pa pb w lg ta tb, peq lk pa pb ->
  heq lk (run_map sym bb (mkVm st ca pa w lg ta)) (run_map sym bb (mkVm st ca pb w lg tb)).
Proof.
  intros lk sym bb st ca pa pb w lg ta tb Hp. unfold run_map. vcbn.
  pose proof (peq_page_map lk ca pa pb sym Hp) as Hm.
  destruct (page_map ca pa sym) as [pa'|e|n], (page_map ca pb sym) as [pb'|e'|n']; try contradiction; subst;
    apply heq_intro, veq_mk; assumption.
Qed.

Lemma acts_heq : forall lk sep X pa pb ta tb, acts sep X -> peq lk pa pb -> heq lk (X pa ta) (X pb tb).
Proof.
  intros lk sep X pa pb ta tb [st' ca' w' lg' f b s E Hf|st' ca' w' lg' k b E] Hp; rewrite !E.
  - apply heq_intro, veq_mk. exact (pfun_peq sep f lk pa pb Hf Hp).
  - apply run_map_heq. exact Hp.
Qed.

Lemma exec_instr_veq : forall lk rs sep lang i bb a b, veq lk a b ->
  heq lk (exec_instr rs sep lang i bb a) (exec_instr rs sep lang i bb b).
Proof.
  intros lk rs sep lang i bb a b H. velim H.
  exact (acts_heq lk sep _ pa pb ta tb (exec_instr_acts rs sep lang i bb st ca w lg) Hp).
Qed.

(* One iteration of `run` in the pieces by which MANIFEST.json describes the proof of C07 (run_S: pre_step / step_instr /
   err_check / after_check).  pre_step is (VmProofs.loop_pre, loop_lang) by conversion; err_check and after_check agree
   with loop_errcheck and loop_after on every argument but not by conversion (those return their argument where
   these rebuild the triple), so run_S is proved from `run` itself.  The lemmas after it relate the runs of TWO
   machines (heq), piece by piece along run_S. *)
Definition pre_step (v : vmst) (lang : option bytes) : vmst * option bytes :=
  let st := v_st v in
  let change := getf st FLAG_LANG in
  let st := resetf st FLAG_LANG in
  let lang := if change then match s_lang st with Some l => Some l | None => lang end else lang in
  let wait := getf st FLAG_WAIT in
  let st := resetf st FLAG_WAIT in
  let st := if wait then resetf st FLAG_INMATCH else st in
  let pg := if wait then wreset (v_pg v) else v_pg v in
  let st := setf st FLAG_DIRTY in
  (vset_pg (vset_st v st) pg, lang).

Definition step_instr (rs : rsrc) (sep : bytes) (lang : option bytes) (op : N) (b1 : bytes) (v : vmst) : hres :=
  match parse_args op b1 with
  | Ok (i, b2) => exec_instr rs sep lang i b2 (vlog v (EvInstr op))
  | _ => (v, b1, SErr EGen None)
  end.

Definition err_check (x : hres) : hres :=
  let '(v1, b2, s) := x in
  match s with
  | SErr e msg =>
    let v2 := set_page_err v1 msg in
    if getf (v_st v2) FLAG_LOADFAIL && negb (bytes_eqb (where_sym (v_st v2)) catch_sym)
    then (v2, move_catch_code, SOk) else (v2, b2, s)
  | _ => (v1, b2, s)
  end.

Definition after_check (k : bytes -> vmst -> hres) (x : hres) : hres :=
  let '(v2, b3, s2) := x in
  match s2 with
  | SOk =>
    match b3 with
    | [] =>
      let '(v3, b4, s3) := dead_check v2 in
      match s3 with
      | SOk => match b4 with [] => (v3, [], SOk) | _ => k b4 v3 end
      | _ => (v3, b4, s3)
      end
    | _ => k b3 v2
    end
  | _ => (v2, b3, s2)
  end.

Lemma run_S : forall f rs sep lang b v,
  run (S f) rs sep lang b v =
  if getf (v_st v) FLAG_TERMINATE then (v, [], SOk) else
  match op_split b with
  | Err e => (fst (pre_step v lang), b, SErr e None)
  | Panic n => (fst (pre_step v lang), b, SPanic n)
  | Ok (op, b1) =>
    match parse_args op b1 with
    | Panic n => (fst (pre_step v lang), b1, SPanic n)
    | _ =>
      let x := step_instr rs sep (snd (pre_step v lang)) op b1 (fst (pre_step v lang)) in
      if op =? op_HALT then x else after_check (run f rs sep (snd (pre_step v lang))) (err_check x)
    end
  end.
Proof.
  intros f rs sep lang b v. cbn [run]. unfold pre_step, step_instr, err_check, after_check, wreset. cbn [fst snd].
  destruct (getf (v_st v) FLAG_TERMINATE); [reflexivity|].
  destruct (op_split b) as [[op b1]|e|n]; try reflexivity.
  destruct (parse_args op b1) as [[i b2]|e|n]; try reflexivity.
  - destruct (exec_instr _ _ _ i b2 _) as [[v1 b2'] s]. reflexivity.
Qed.

(* two machines about to run: when WAIT is set the pages need only agree after the reset that comes first *)
Definition pre_pg (lk : bool) (st : state) (pa pb : page) : Prop :=
  if getf st FLAG_WAIT then peq lk (wreset pa) (wreset pb) else peq lk pa pb.
Definition veq_pre (lk : bool) (a b : vmst) : Prop :=
  v_st a = v_st b /\ v_ca a = v_ca b /\ v_w a = v_w b /\ v_log a = v_log b /\ pre_pg lk (v_st a) (v_pg a) (v_pg b).

Lemma veq_to_pre : forall lk a b, veq lk a b -> veq_pre lk a b.
Proof.
  intros lk a b [H1 [H2 [H3 [H4 H5]]]]. unfold veq_pre, pre_pg. repeat (split; [assumption|]).
  destruct (getf (v_st a) FLAG_WAIT); [apply (pres_peq _ _ _ _ pres_wreset)|]; exact H5.
Qed.

Lemma vlog_veq : forall lk a b e, veq lk a b -> veq lk (vlog a e) (vlog b e).
Proof. intros lk a b e H. velim H. apply veq_mk. exact Hp. Qed.
Lemma set_page_err_veq : forall lk a b m, veq lk a b -> veq lk (set_page_err a m) (set_page_err b m).
Proof. intros lk a b [m|] H; velim H; apply veq_mk, (pres_peq _ _ _ _ (pres_with_error _) Hp). Qed.

Lemma pre_step_veq : forall lk a b lang, veq_pre lk a b ->
  veq lk (fst (pre_step a lang)) (fst (pre_step b lang)) /\ snd (pre_step a lang) = snd (pre_step b lang).
Proof.
  intros lk [st ca pa w lg ta] [st' ca' pb w' lg' tb] lang [H1 [H2 [H3 [H4 H5]]]]. cbn [v_st v_ca v_pg v_w v_log] in *. subst.
  unfold pre_step. vcbn. split; [|reflexivity].
  rewrite (getf_resetf_other st' FLAG_WAIT FLAG_LANG) by discriminate.
  apply veq_mk. unfold pre_pg in H5. destruct (getf st' FLAG_WAIT); exact H5.
Qed.

Lemma step_instr_veq : forall lk rs sep lang op b1 a b, veq lk a b ->
  heq lk (step_instr rs sep lang op b1 a) (step_instr rs sep lang op b1 b).
Proof.
  intros lk rs sep lang op b1 a b H. unfold step_instr.
  destruct (parse_args op b1) as [[i b2]|e|n]; [apply exec_instr_veq, vlog_veq|apply heq_intro..]; exact H.
Qed.

Lemma err_check_heq : forall lk x y, heq lk x y -> heq lk (err_check x) (err_check y).
Proof.
  intros lk x y H. destruct (heq_inv _ _ _ H) as (a & b & bb & s & -> & -> & Hv). unfold err_check.
  destruct s as [|e msg|n|]; try (apply heq_intro; exact Hv).
  pose proof (set_page_err_veq lk a b msg Hv) as Hv'. cbv zeta. rewrite <- (proj1 Hv').
  destruct (_ && _); apply heq_intro; exact Hv'.
Qed.

Lemma dead_check_veq : forall lk a b, veq lk a b -> heq lk (dead_check a) (dead_check b).
Proof.
  intros lk a b H. velim H. exact (acts_heq lk [] _ pa pb ta tb (dead_check_acts [] st ca w lg) Hp).
Qed.

Lemma after_check_heq : forall lk k x y,
  (forall bb a b, veq lk a b -> heq lk (k bb a) (k bb b)) ->
  heq lk x y -> heq lk (after_check k x) (after_check k y).
Proof.
  intros lk k x y Hk H. destruct (heq_inv _ _ _ H) as (a & b & bb & s & -> & -> & Hv). unfold after_check.
  destruct s; try (apply heq_intro; exact Hv).
  destruct bb as [|b0 br]; [|apply Hk; exact Hv].
  destruct (heq_inv _ _ _ (dead_check_veq lk a b Hv)) as (a' & b' & bb' & s' & -> & -> & Hv').
  destruct s'; try (apply heq_intro; exact Hv'). destruct bb'; [apply heq_intro|apply Hk]; exact Hv'.
Qed.

Lemma run_step_veq : forall lk f rs sep,
  (forall lang bb a b, veq lk a b -> heq lk (run f rs sep lang bb a) (run f rs sep lang bb b)) ->
  forall lang bb a b, veq_pre lk a b -> getf (v_st a) FLAG_TERMINATE = false ->
  heq lk (run (S f) rs sep lang bb a) (run (S f) rs sep lang bb b).
Proof.
  intros lk f rs sep IH lang bb a b H Et. rewrite !run_S.
  destruct (pre_step_veq lk a b lang H) as [Hv Hl]. rewrite <- Hl, <- (proj1 H), Et.
  pose proof (fun op b1 => step_instr_veq lk rs sep (snd (pre_step a lang)) op b1 _ _ Hv) as Hs.
  destruct (op_split bb) as [[op b1]|e|n]; [|apply heq_intro; exact Hv..].
  destruct (parse_args op b1) as [[i b2]|e|n]; cbv zeta; [| |apply heq_intro; exact Hv];
    (destruct (op =? op_HALT); [apply Hs|]; apply after_check_heq; [apply IH|]; apply err_check_heq, Hs).
Qed.

Lemma run_veq : forall lk f rs sep lang bb a b, veq lk a b ->
  heq lk (run f rs sep lang bb a) (run f rs sep lang bb b).
Proof.
  induction f as [|f IH]; intros rs sep lang bb a b H; [apply heq_intro; exact H|].
  destruct (getf (v_st a) FLAG_TERMINATE) eqn:Et.
  - rewrite !run_S, <- (proj1 H), Et. apply heq_intro. exact H.
  - apply run_step_veq; [apply IH|apply veq_to_pre; exact H|exact Et].
Qed.

Definition rel1 {A B : Type} (Q : A -> A -> Prop) (x y : A * B) : Prop := Q (fst x) (fst y) /\ snd x = snd y.
Lemma rel1_intro : forall A B (Q : A -> A -> Prop) a b (z : B), Q a b -> rel1 Q (a, z) (b, z).
Proof. intros. split; [assumption|reflexivity]. Qed.
Lemma rel1_inv : forall A B (Q : A -> A -> Prop) (x y : A * B), rel1 Q x y -> exists a b z, x = (a, z) /\ y = (b, z) /\ Q a b.
Proof. intros A B Q [a z] [b z'] [H1 H2]. cbn [fst snd] in *. subst. eauto 6. Qed.

Lemma vm_render_veq : forall fuel rs sep lang a b, veq false a b ->
  rel1 (veq false) (vm_render fuel rs sep lang a) (vm_render fuel rs sep lang b).
Proof.
  intros fuel rs sep lang a b H. velim H. unfold vm_render. vcbn.
  destruct (negb (getf st FLAG_DIRTY)); [apply rel1_intro, veq_mk; exact Hp|].
  destruct (where_sym (resetf st FLAG_DIRTY)) as [|x r]; [apply rel1_intro, veq_mk; exact Hp|].
  destruct (page_render_peq ca (rs_tpl rs lang) (rs_menu rs lang) pa pb (x :: r) (s_idx (resetf st FLAG_DIRTY)) Hp)
    as (ra & pa' & pb' & -> & -> & Hq).
  destruct ra as [out|[]|n]; try (apply rel1_intro, veq_mk; exact Hq).
  (* BrowseError: reset, MOVE _catch, render again.  The two machines after Vm.Reset, then the recovery runs from them *)
  pose proof (veq_mk false (resetf st FLAG_DIRTY) ca _ _ w (EvRender (x :: r) (s_idx (resetf st FLAG_DIRTY)) lang :: lg) ta tb
                (pfun_peq sep _ false pa' pb' (pf_reset sep) Hq)) as Hv1.
  destruct (heq_inv _ _ _ (run_veq false fuel rs sep lang move_catch_code _ _ Hv1)) as (a2 & b2 & bb2 & s2 & -> & -> & Hv2).
  destruct (veq_elim _ _ _ Hv2) as (st2 & ca2 & pa2 & pb2 & w2 & lg2 & ta2 & tb2 & -> & -> & Hp2). vcbn.
  destruct s2; try (apply rel1_intro, veq_mk; exact Hp2);
    destruct (page_render_peq ca2 (rs_tpl rs lang) (rs_menu rs lang) pa2 pb2 (where_sym st2) (s_idx st2) Hp2)
      as (r1 & p1 & p1' & -> & -> & Hq2); apply rel1_intro, veq_mk; exact Hq2.
Qed.

Definition pg_ok (c : config) (pg : page) : Prop := pshape pg = pshape (P0 c).
Definition vkeep (c : config) (a b : vmst) : Prop :=
  st_keep (v_st a) (v_st b) /\ (pg_ok c (v_pg a) -> pg_ok c (v_pg b)).

Lemma vm_ops_keep : forall c fail v v', vm_ops fail False (c_sep c) v v' -> vkeep c v v'.
Proof.
  intros c fail v v' H. split; [destruct (vm_ops_shape _ _ _ _ _ H) as (_ & Hl & Hc & _); split; assumption|].
  (* vo_clean and vo_render (the last two constructors of vm_ops) ask for rd, here False; of the others only vo_pg
     (the fifth) touches the page, and vo_target (the ninth) leaves a match on its status *)
  unfold pg_ok. induction H as [| | | |v pg' H| | | |v k t st' ca' nsym s H|v []|v ? ? ? ? []]; auto.
  - (* vo_pg *) cbn [v_pg vset_pg]. intros Hp. destruct H as [|f Hf|e| |k pg' Em].
    + (* po_reset *) rewrite pshape_vm_reset, Hp, pshape_P0. reflexivity.
    + (* po_menu *) rewrite (pshape_upd_menu _ _ (menu_op_mop _ Hf)). exact Hp.
    + (* po_err *) rewrite pshape_with_error. exact Hp.
    + (* po_resume *) fold (wreset (v_pg v)). rewrite pshape_wreset. exact Hp.
    + (* po_map *) rewrite (pshape_page_map _ _ _ _ Em). exact Hp.
  - (* vo_target *) destruct s; auto.
Qed.

Lemma run_keep : forall c f rs lang bb v, vkeep c v (fst (fst (run f rs (c_sep c) lang bb v))).
Proof. intros. eapply vm_ops_keep, run_vm_ops. Qed.

Definition flags_ok (st : state) : Prop := (8 <= List.length (s_flags st))%nat.

Lemma getf_resetf_same : forall st i, (N.to_nat i < List.length (s_flags st))%nat -> getf (resetf st i) i = false.
Proof. intros st i _. apply VmProofs.getf_resetf_same. Qed.

Lemma flags_ok_keep : forall c a b, vkeep c a b -> flags_ok (v_st a) -> flags_ok (v_st b).
Proof. intros c a b [[_ H] _] Hf. unfold flags_ok in *. lia. Qed.

Lemma after_check_inv : forall k x v' b',
  after_check k x = (v', b', SOk) -> b' <> [] -> exists bb2 v2, k bb2 v2 = (v', b', SOk).
Proof.
  intros k [[v2 b3] s2] v' b' H Hb. unfold after_check in H.
  destruct s2; try discriminate.
  destruct b3 as [|b0 br]; [|eauto].
  destruct (dead_check v2) as [[v3 b4] s3]. destruct s3; try discriminate.
  destruct b4 as [|b40 b4r]; [injection H as _ <-; congruence|eauto].
Qed.

(* a run that returns pending code without error stopped at a HALT: WAIT is set.  No invariant is needed on
   the way: the flag field has the size it has at the end *)
Lemma run_halt_wait : forall f rs sep lang bb v v' b',
  run f rs sep lang bb v = (v', b', SOk) -> b' <> [] -> flags_ok (v_st v') -> getf (v_st v') FLAG_WAIT = true.
Proof.
  induction f as [|f IH]; intros rs sep lang bb v v' b' Hr Hb Hf; [discriminate|].
  rewrite run_S in Hr.
  destruct (getf (v_st v) FLAG_TERMINATE); [injection Hr as _ <-; congruence|].
  destruct (pre_step v lang) as [v0 lang']. cbn [fst snd] in Hr.
  destruct (op_split bb) as [[op b1]|e|n]; try discriminate.
  assert (Hgo : (let x := step_instr rs sep lang' op b1 v0 in
                 if op =? op_HALT then x else after_check (run f rs sep lang') (err_check x)) = (v', b', SOk)
                -> getf (v_st v') FLAG_WAIT = true).
  { cbv zeta. intros Hx. destruct (op =? op_HALT) eqn:Eh.
    - apply N.eqb_eq in Eh. subst op.
      unfold step_instr in Hx. rewrite parse_halt in Hx. cbn [exec_instr] in Hx. injection Hx as <- _.
      destruct v0 as [st ca pg w lg t]. cbn [v_st vset_st] in *. apply getf_setf_same.
      destruct (flagish_setf st FLAG_WAIT) as (_ & _ & _ & Hl & _). unfold flags_ok in Hf. unfold FLAG_WAIT. lia.
    - destruct (after_check_inv _ _ _ _ Hx Hb) as (bb2 & v2 & Hk). exact (IH _ _ _ _ _ _ _ Hk Hb Hf). }
  destruct (parse_args op b1) as [[i b2]|e|n]; try discriminate; exact (Hgo Hr).
Qed.

(* two idle initialised engines that differ in page, taint and the unexported input, about to run *)
Inductive erel : engine -> engine -> Prop :=
| erel_intro st y ca pa pb w lg ta tb : pre_pg false st pa pb -> getf st FLAG_TERMINATE = false ->
    erel (mkEng (mkVm st ca pa w lg ta) true [] false false) (mkEng (mkVm (set_input_raw st y) ca pb w lg tb) true [] false false).

Lemma reset_opt_rel : forall c input A B, erel A B -> erel (reset_opt c input A) (reset_opt c input B).
Proof.
  intros c input A B [st y ca pa pb w lg ta tb Hp Ht]. unfold reset_opt, forced. cbn [e_v v_st s_path set_input_raw].
  destruct (c_reset_empty c && (len input =? 0)); [|constructor; assumption].
  destruct (s_path st) as [|p0 pr]; [constructor; assumption|]. vcbn. cbn [eset_v e_initd e_exit e_exiting e_execd].
  change (reset_state (set_code (set_input_raw st y) (encode (IMove (cfg_root c)))))
    with (set_input_raw (reset_state (set_code st (encode (IMove (cfg_root c))))) y).
  constructor; [|apply getf_reset_state_term].
  unfold pre_pg in *. rewrite getf_reset_state by discriminate. exact Hp.
Qed.

(* what Finish saves and what the world shows *)
Definition sview (a b : engine) : Prop :=
  e_initd a = e_initd b /\ snap_of (v_st (e_v a)) (v_ca (e_v a)) = snap_of (v_st (e_v b)) (v_ca (e_v b))
  /\ v_w (e_v a) = v_w (e_v b) /\ v_log (e_v a) = v_log (e_v b).
(* Flush gives the same output and leaves the same to save *)
Definition flush_alike (fuel : nat) (rs : rsrc) (c : config) (A B : engine) : Prop :=
  rel1 (rel1 sview) (eng_flush fuel rs c A) (eng_flush fuel rs c B).

Lemma sview_mk : forall st y ca pa pb w lg ta tb i x q d,
  sview (mkEng (mkVm st ca pa w lg ta) i x q d) (mkEng (mkVm (set_input_raw st y) ca pb w lg tb) i x q d).
Proof. intros. repeat split. Qed.
Lemma veq_sview : forall va vb i x q d, veq false va vb -> sview (mkEng va i x q d) (mkEng vb i x q d).
Proof. intros va vb i x q d H. velim H. exact (sview_mk st (s_input st) ca pa pb w lg ta tb i x q d). Qed.

Lemma flush_idle : forall fuel rs c A B, e_execd A = false -> e_execd B = false -> sview A B -> flush_alike fuel rs c A B.
Proof. intros. unfold flush_alike. rewrite !flush_before_exec by assumption. apply rel1_intro, rel1_intro. assumption. Qed.

Lemma reset_inner_veq : forall a b, veq false a b -> rel1 (veq false) (eng_reset_inner a) (eng_reset_inner b).
Proof.
  intros a b H. velim H. rewrite !eng_reset_inner_sc. vcbn.
  destruct (reset_sc st ca) as [[st' ca'] s]. apply rel1_intro, veq_mk. exact Hp.
Qed.

Lemma flush_sim : forall fuel rs c va vb i x q d, veq false va vb ->
  flush_alike fuel rs c (mkEng va i x q d) (mkEng vb i x q d).
Proof.
  intros fuel rs c va vb i x q d Hv. destruct d; [|apply flush_idle; [reflexivity..|apply veq_sview; exact Hv]].
  unfold flush_alike. rewrite !eng_flush_unfold. cbn [e_execd e_v negb]. rewrite <- (proj1 Hv).
  destruct (rel1_inv _ _ _ _ _ (vm_render_veq fuel rs (c_sep c) (s_lang (v_st va)) va vb Hv)) as (va' & vb' & r & -> & -> & Hv').
  unfold flush_tail. cbn [eset_v e_exit e_exiting e_initd e_execd e_v].
  destruct (rel1_inv _ _ _ _ _ (reset_inner_veq va' vb' Hv')) as (ra & rb & s & -> & -> & Hrv).
  assert (L : forall v v' i' x' q' d' (out : bytes) (f : fstat), veq false v v' ->
            rel1 (rel1 sview) (mkEng v i' x' q' d', out, f) (mkEng v' i' x' q' d', out, f))
    by (intros; apply rel1_intro, rel1_intro, veq_sview; assumption).
  destruct r as [out|er|n|]; [| |apply L, Hv'..]; (destruct (_ && _); [destruct q; apply L; assumption|]).
  - destruct q; [destruct s|]; apply L; assumption.
  - destruct x; [apply L, Hv'|]. destruct q; [destruct s|]; apply L; assumption.
Qed.

Lemma exec_inner_sim : forall fuel rs c st ca pa pb w lg ta tb,
  pre_pg false st pa pb -> getf st FLAG_TERMINATE = false ->
  rel1 (rel1 (flush_alike fuel rs c)) (eng_exec_inner fuel rs c (mkEng (mkVm st ca pa w lg ta) true [] false false))
                                      (eng_exec_inner fuel rs c (mkEng (mkVm st ca pb w lg tb) true [] false false)).
Proof.
  intros fuel rs c st ca pa pb w lg ta tb Hp Ht. unfold eng_exec_inner. cbn [e_v eset_v e_initd e_exit e_exiting e_execd]. vcbn.
  assert (Hidle : flush_alike fuel rs c (mkEng (mkVm (set_code st []) ca pa w lg ta) true [] false false)
                                        (mkEng (mkVm (set_code st []) ca pb w lg tb) true [] false false)).
  { apply flush_idle; [reflexivity..|]. exact (sview_mk (set_code st []) (s_input st) ca pa pb w lg ta tb true [] false false). }
  destruct (s_code st) as [|c0 cr]; [apply rel1_intro, rel1_intro, Hidle|].
  destruct fuel as [|f]; [apply rel1_intro, rel1_intro, Hidle|].
  destruct (heq_inv _ _ _ (run_step_veq false f rs (c_sep c) (run_veq false f rs (c_sep c))
                            (s_lang (set_code st [])) (c0 :: cr)
                            (mkVm (set_code st []) ca pa w lg ta) (mkVm (set_code st []) ca pb w lg tb)
                            (conj eq_refl (conj eq_refl (conj eq_refl (conj eq_refl Hp)))) Ht))
    as (a2 & b2 & bb2 & s2 & -> & -> & Hv2).
  destruct (veq_elim _ _ _ Hv2) as (st2 & ca2 & pa2 & pb2 & w2 & lg2 & ta2 & tb2 & -> & -> & Hp2).
  destruct s2; try (apply rel1_intro, rel1_intro, flush_sim, veq_mk; exact Hp2). cbn [v_st].
  destruct (getf st2 FLAG_TERMINATE); [apply rel1_intro, rel1_intro, flush_sim, veq_mk; exact Hp2|].
  unfold set_code_eng. cbn [e_v e_initd e_exit e_exiting e_execd eset_v]. vcbn.
  destruct bb2 as [|b0 br]; [destruct (getf (set_code st2 []) FLAG_DIRTY); [destruct (cache_last ca2) as [last ca']|]|];
    apply rel1_intro, rel1_intro, flush_sim, veq_mk; exact Hp2.
Qed.

Lemma exec_tail_sim : forall fuel rs c input A B, erel A B ->
  rel1 (rel1 (flush_alike fuel rs c)) (exec_tail fuel rs c A input) (exec_tail fuel rs c B input).
Proof.
  intros fuel rs c input A B Hrel. rewrite !exec_tail_cases. cbv zeta.
  destruct (reset_opt_rel c input A B Hrel) as [st y ca pa pb w lg ta tb Hp Ht].
  assert (Hidle : flush_alike fuel rs c (mkEng (mkVm st ca pa w lg ta) true [] false false)
                                        (mkEng (mkVm (set_input_raw st y) ca pb w lg tb) true [] false false)).
  { apply flush_idle; [reflexivity..|apply sview_mk]. }
  destruct (_ && negb _); [apply rel1_intro, rel1_intro, Hidle|].
  destruct (INPUT_LIMIT <? len input); [apply rel1_intro, rel1_intro, Hidle|].
  exact (exec_inner_sim fuel rs c (set_input_raw st (Some input)) ca pa pb w lg ta tb Hp Ht).
Qed.

(* the long-lived side: what holds between two requests *)
Definition Linv (c : config) (e : engine) : Prop :=
  e_initd e = true /\ e_exit e = [] /\ e_exiting e = false
  /\ s_code (v_st (e_v e)) <> [] /\ getf (v_st (e_v e)) FLAG_DIRTY = false
  /\ getf (v_st (e_v e)) FLAG_TERMINATE = false /\ flags_ok (v_st (e_v e))
  /\ pg_ok c (v_pg (e_v e))
  /\ (getf (v_st (e_v e)) FLAG_WAIT = false -> peq false (v_pg (e_v e)) (P0 c)).

Lemma Linv_inv : forall c e, Linv c e -> exists st ca pg w lg t d,
  e = mkEng (mkVm st ca pg w lg t) true [] false d /\ s_code st <> [] /\ getf st FLAG_DIRTY = false
  /\ getf st FLAG_TERMINATE = false /\ flags_ok st /\ pg_ok c pg /\ (getf st FLAG_WAIT = false -> peq false pg (P0 c)).
Proof.
  intros c [[st ca pg w lg t] i x q d] (H1 & H2 & H3 & H). cbn [e_initd e_exit e_exiting] in *. subst.
  exists st, ca, pg, w, lg, t, d. split; [reflexivity|exact H].
Qed.

Lemma Linv_cleared : forall c e, Linv c e -> Linv c (cleared e).
Proof. intros c e (H1 & H2 & H3 & H4). unfold Linv, cleared. cbn [e_initd e_exit e_exiting e_v]. auto. Qed.

Lemma Linv_delivered : forall c e, Linv c e -> delivered e.
Proof. intros c e (H1 & H2 & H3 & H4 & H5 & _). right. auto. Qed.

Lemma flags_ok_reset_state : forall st, flags_ok st -> flags_ok (reset_state st).
Proof.
  intros st H. unfold flags_ok, reset_state, resetf. cbn [s_flags set_flags]. rewrite !length_set_nth_bit. exact H.
Qed.

Lemma reset_opt_Linv : forall c input e, Linv c e -> Linv c (reset_opt c input e).
Proof.
  intros c input e H. unfold reset_opt, forced. destruct (_ && _); [|exact H].
  destruct (Linv_inv c e H) as (st & ca & pg & w & lg & t & d & -> & Hc & Hd & Ht & Hf & Hp & Hw). cbn [e_v v_st].
  destruct (s_path st); [exact H|].
  repeat (split; [reflexivity|]). cbn [eset_v e_v]. vcbn.
  split; [exact (encode_nonempty _)|]. split; [apply VmProofs.getf_resetf_same|]. split; [apply getf_reset_state_term|].
  split; [apply flags_ok_reset_state; exact Hf|]. split; [exact Hp|].
  rewrite getf_reset_state by discriminate. exact Hw.
Qed.

Lemma reset_opt_execd : forall c input e, e_execd (reset_opt c input e) = e_execd e.
Proof.
  intros c input e. unfold reset_opt, forced. destruct (_ && _); [|reflexivity].
  destruct (s_path (v_st (e_v e))); destruct e; reflexivity.
Qed.

(* Exec returned "continue" without error: the run stopped at a HALT with code pending *)
Inductive ran_ok (c : config) : engine -> Prop :=
| ran_intro st ca pg w lg t : s_code st <> [] -> getf st FLAG_TERMINATE = false -> flags_ok st -> pg_ok c pg ->
    getf st FLAG_WAIT = true -> ran_ok c (mkEng (mkVm st ca pg w lg t) true [] false true).

Lemma exec_inner_cont : forall fuel rs c st ca pg w lg t A' s,
  eng_exec_inner fuel rs c (mkEng (mkVm st ca pg w lg t) true [] false false) = (A', true, s) ->
  flags_ok st -> pg_ok c pg -> ran_ok c A'.
Proof.
  intros fuel rs c st ca pg w lg t A' s H Hf Hpg. revert H.
  apply (eng_exec_inner_cases (fun x => x = (A', true, s) -> ran_ok c A')); [discriminate|].
  intros v1 b s1 _ Er. cbv zeta. epose proof (run_keep c fuel rs _ _ _) as Hk. rewrite Er in Hk. cbn [fst] in Hk.
  destruct s1; try discriminate. destruct (getf (v_st v1) FLAG_TERMINATE) eqn:Et; [discriminate|].
  destruct b as [|b0 br]; [unfold set_code_eng; destruct (getf _ FLAG_DIRTY); [destruct (cache_last _)|]; discriminate|].
  pose proof (flags_ok_keep c _ _ Hk Hf) as Hf1.
  pose proof (run_halt_wait _ _ _ _ _ _ _ _ Er ltac:(discriminate) Hf1) as Hw.
  rewrite set_code_eng_cons by discriminate. intros [= <- _]. destruct v1 as [st1 ca1 pg1 w1 lg1 t1].
  constructor; [discriminate|exact Et|exact Hf1|exact (proj2 Hk Hpg)|exact Hw].
Qed.

Lemma exec_tail_cont : forall fuel rs c A input A' s,
  Linv c A -> e_execd A = false -> exec_tail fuel rs c A input = (A', true, s) ->
  ran_ok c A' \/ A' = reset_opt c input A.
Proof.
  intros fuel rs c A input A' s HL Hx H. rewrite exec_tail_cases in H. cbv zeta in H.
  pose proof (reset_opt_Linv c input A HL) as HL2. pose proof (reset_opt_execd c input A) as Hx2. rewrite Hx in Hx2.
  destruct (_ && negb _); [injection H as <- _; right; reflexivity|].
  destruct (INPUT_LIMIT <? len input); [discriminate|].
  destruct (Linv_inv c _ HL2) as (st & ca & pg & w & lg & t & d & E & Hc & Hd & Ht & Hf & Hp & Hw). rewrite E in *.
  cbn [e_execd] in Hx2. subst d. left. exact (exec_inner_cont fuel rs c _ ca pg w lg t A' s H Hf Hp).
Qed.

(* the render of a Flush raised a BrowseError (the page index is past the last page) *)
Definition browse_err (rs : rsrc) (e : engine) : bool :=
  let v := e_v e in
  let st := v_st v in
  e_execd e && getf st FLAG_DIRTY &&
  match where_sym st with
  | [] => false
  | sym =>
    match fst (page_render (v_ca v) (rs_tpl rs (s_lang st)) (rs_menu rs (s_lang st)) (v_pg v) sym (s_idx st)) with
    | Err EBrowse => true
    | _ => false
    end
  end.

Lemma vm_render_plain : forall fuel rs sep st ca pg w lg t,
  browse_err rs (mkEng (mkVm st ca pg w lg t) true [] false true) = false ->
  exists pg' lg' r,
    vm_render fuel rs sep (s_lang st) (mkVm st ca pg w lg t)
    = (mkVm (if getf st FLAG_DIRTY then resetf st FLAG_DIRTY else st) ca pg' w lg' t, r)
    /\ pshape pg' = pshape pg.
Proof.
  intros fuel rs sep st ca pg w lg t Hb. unfold browse_err in Hb. cbn [e_execd e_v v_st v_ca v_pg andb] in Hb.
  unfold vm_render. vcbn.
  destruct (getf st FLAG_DIRTY); cbn [negb]; [|do 3 eexists; split; reflexivity].
  change (where_sym (resetf st FLAG_DIRTY)) with (where_sym st).
  destruct (where_sym st) as [|x r]; [do 3 eexists; split; reflexivity|].
  change (s_idx (resetf st FLAG_DIRTY)) with (s_idx st).
  pose proof (render_shape ca (rs_tpl rs (s_lang st)) (rs_menu rs (s_lang st)) pg (x :: r) (s_idx st)) as Hsh.
  destruct (page_render ca _ _ pg (x :: r) (s_idx st)) as [rr pg'].
  cbn [fst snd andb] in *.
  destruct rr as [out|[]|n]; try discriminate; (do 3 eexists; split; [reflexivity|exact Hsh]).
Qed.

Lemma flush_ran_Linv : forall fuel rs c A',
  ran_ok c A' -> browse_err rs A' = false -> Linv c (fst (fst (eng_flush fuel rs c A'))).
Proof.
  intros fuel rs c A' [st ca pg w lg t H5 H6 H7 H8 H9] Hb. rewrite eng_flush_plain by reflexivity. cbn [e_v v_st].
  destruct (vm_render_plain fuel rs (c_sep c) st ca pg w lg t Hb) as (pg' & lg' & r & -> & Hsh).
  repeat (split; [reflexivity|]). cbn [fst eset_v e_v v_st v_pg]. unfold pg_ok. rewrite Hsh.
  destruct (getf st FLAG_DIRTY) eqn:Ed.
  - split; [exact H5|]. split; [apply VmProofs.getf_resetf_same|]. rewrite !getf_resetf_other by discriminate.
    split; [exact H6|]. split; [|split; [exact H8|congruence]].
    destruct (flagish_resetf st FLAG_DIRTY) as (_ & _ & _ & Hl & _). unfold flags_ok in *. rewrite Hl. exact H7.
  - split; [exact H5|]. split; [exact Ed|]. split; [exact H6|]. split; [exact H7|]. split; [exact H8|congruence].
Qed.

(* Menu.Reset erases everything but separator and resource, Sizer.Reset everything but the output size (and
   the dead fields): after the reset that resumes execution after a HALT, two pages of the same shape are
   equivalent *)
Lemma wreset_shape : forall lk a b, pshape a = pshape b -> peq lk (wreset a) (wreset b).
Proof.
  intros lk [mpa ska [ma|] [za|] era exa] [mpb skb [mb|] [zb|] erb exb] H; try discriminate;
    destruct lk; unfold peq, pshape, wreset, pnorm, mnorm, scrub_menu, menu_reset, sizer_reset, znorm in *; cbn in *; congruence.
Qed.

(* an over-long input that also fails the input pattern (K-C07-longbad) *)
Definition input_ok_b (i : bytes) : bool := negb ((INPUT_LIMIT <? len i) && negb (valid_input_b i)).
Definition no_browse_err_b (fuel : nat) (rs : rsrc) (c : config) (e : engine) (i : bytes) : bool :=
  negb (browse_err rs (fst (fst (eng_exec fuel rs c e i)))).

Lemma exec_tail_over_long : forall fuel rs c e i, input_ok_b i = true -> (INPUT_LIMIT <? len i) = true ->
  exec_tail fuel rs c e i = (e, false, SErr EGen None).
Proof.
  intros fuel rs c e i Hin El. rewrite exec_tail_refused by (left; apply N.ltb_lt; exact El).
  unfold input_ok_b in Hin. rewrite El in Hin. destruct (valid_input_b i); [reflexivity|discriminate].
Qed.

(* the simulation relation of C07: the long-lived engine e is between two requests (Linv) and the world of
   persisted operation p stores exactly e's session (state and cache) and has e's world counters and log *)
Definition R (c : config) (e : engine) (p : pworld) : Prop :=
  Linv c e /\ pw_store p = Some (snap_of (v_st (e_v e)) (v_ca (e_v e)))
  /\ pw_w p = v_w (e_v e) /\ pw_log p = v_log (e_v e).

Lemma eng_exec_Linv : forall fuel rs c e i, Linv c e ->
  eng_exec fuel rs c e i = exec_tail fuel rs c (cleared e) i.
Proof.
  intros fuel rs c e i H. pose proof (Linv_delivered c e H) as Hd.
  rewrite eng_exec_initd; [|destruct H as [H _]; exact H|apply delivered_settled; exact Hd].
  rewrite delivered_not_stuck by exact Hd. reflexivity.
Qed.

Lemma request_persisted_R : forall fuel rs c p i st ca,
  c_first c = None -> pw_store p = Some (snap_of st ca) -> s_code st <> [] ->
  request_persisted fuel rs c p i =
  pers_of (pw_store p) (pw_taint p) (long_finish fuel rs c
    (if INPUT_LIMIT <? len i
     then (mkEng (mkVm (set_input_raw st None) ca (P0 c) (pw_w p) (pw_log p) false) false [] false false, false, SErr EGen None)
     else exec_tail fuel rs c (mkEng (mkVm (set_input_raw st None) ca (P0 c) (pw_w p) (pw_log p) false) true [] false false) i)).
Proof.
  intros fuel rs c p i st ca Hf Hs Hc.
  rewrite request_persisted_fresh by exact Hf.
  rewrite Hs. cbn [store0_of sess fst snd snap_of].
  rewrite init_sc_nonempty by (cbn [s_code set_input_raw]; exact Hc). reflexivity.
Qed.

Definition flush_alive (f : fstat) : Prop := match f with FPanic _ | FFuel => False | _ => True end.

Lemma finish_sim : forall fuel rs c t o x y,
  rel1 (rel1 (flush_alike fuel rs c)) x y ->
  let '(eL, rl) := long_finish fuel rs c x in
  let '(p', rp) := pers_of o t (long_finish fuel rs c y) in
  rl = rp /\
  (flush_alive (r_flush rl) -> e_initd eL = true ->
   pw_store p' = Some (snap_of (v_st (e_v eL)) (v_ca (e_v eL))) /\ pw_w p' = v_w (e_v eL) /\ pw_log p' = v_log (e_v eL)).
Proof.
  intros fuel rs c t o x y H.
  destruct (rel1_inv _ _ _ _ _ H) as (x1 & y1 & sa & -> & -> & H1).
  destruct (rel1_inv _ _ _ _ _ H1) as (A' & B' & ka & -> & -> & Hfl).
  destruct (rel1_inv _ _ _ _ _ Hfl) as (ao & bo & fa & Ea & Eb & Ho).
  destruct (rel1_inv _ _ _ _ _ Ho) as (A2 & B2 & out & -> & -> & (I & S & W & L)).
  unfold long_finish. rewrite Ea, Eb.
  (* by the status of Exec and, where Flush is called, of Flush: the responses are one term; where Flush is alive
     Finish saves snap_of of an initialised engine, and sview says the two engines agree on it, the counters and the log *)
  destruct sa; try destruct fa; cbn [pers_of saved r_flush]; unfold eng_finish; rewrite <- ?W, <- ?L, <- ?I, <- ?S;
    (split; [reflexivity|]); cbn [flush_alive]; intros Ha Hi; try contradiction; rewrite Hi; cbn [pw_store pw_w pw_log]; auto.
Qed.

Lemma long_finish_spec : forall fuel rs c x eL rl, long_finish fuel rs c x = (eL, rl) ->
  r_cont rl = snd (fst x) /\ (flush_alive (r_flush rl) -> eL = fst (fst (eng_flush fuel rs c (fst (fst x))))).
Proof.
  intros fuel rs c [[e1 k] s] eL rl H. unfold long_finish in H. cbn [fst snd].
  (* by the status of Exec: after a panic or without fuel Flush is not called, and the response's r_flush is not alive *)
  destruct s; try destruct (eng_flush fuel rs c e1) as [[e2 out] f]; injection H as <- <-;
    (split; [reflexivity|]); cbn [r_flush flush_alive]; intros; try contradiction; reflexivity.
Qed.

Lemma request_sim : forall fuel rs c t o A i y,
  Linv c A -> e_execd A = false -> rel1 (rel1 (flush_alike fuel rs c)) (exec_tail fuel rs c A i) y ->
  let '(eL, rl) := long_finish fuel rs c (exec_tail fuel rs c A i) in
  let '(p', rp) := pers_of o t (long_finish fuel rs c y) in
  rl = rp /\
  (r_cont rl = true -> flush_alive (r_flush rl) -> negb (browse_err rs (fst (fst (exec_tail fuel rs c A i)))) = true -> R c eL p').
Proof.
  intros fuel rs c t o A i y HL Hx Hrel. pose proof (finish_sim fuel rs c t o _ _ Hrel) as Hfin. clear Hrel.
  destruct (long_finish fuel rs c _) as [eL rl] eqn:EL. destruct (pers_of o t _) as [p' rp].
  destruct Hfin as [Hresp Hstore]. split; [exact Hresp|]. intros Hc Ha Hb. apply negb_true_iff in Hb.
  assert (HLf : Linv c eL); [|split; [exact HLf|exact (Hstore Ha (proj1 HLf))]].
  destruct (long_finish_spec fuel rs c _ eL rl EL) as [Hk HeL]. rewrite (HeL Ha). rewrite Hc in Hk.
  destruct (exec_tail fuel rs c A i) as [[A' ka] sa] eqn:EA. cbn [fst snd] in *. subst ka.
  destruct (exec_tail_cont fuel rs c A i A' sa HL Hx EA) as [Hran| ->].
  - apply flush_ran_Linv; assumption.
  - rewrite flush_before_exec by (rewrite reset_opt_execd; exact Hx). apply reset_opt_Linv. exact HL.
Qed.

(* the long-lived engine between two requests (what Linv says of its state and page) and the new engine around its session *)
Lemma erel_of_R : forall c st ca pg w lg t,
  getf st FLAG_TERMINATE = false -> pg_ok c pg -> (getf st FLAG_WAIT = false -> peq false pg (P0 c)) ->
  erel (mkEng (mkVm st ca pg w lg t) true [] false false) (mkEng (mkVm (set_input_raw st None) ca (P0 c) w lg false) true [] false false).
Proof.
  intros c st ca pg w lg t Ht Hp Hw. constructor; [|exact Ht].
  unfold pre_pg. destruct (getf st FLAG_WAIT); [apply wreset_shape; exact Hp|auto].
Qed.

Lemma step_simulation : forall fuel rs c e p i,
  c_first c = None -> R c e p -> input_ok_b i = true ->
  let '(e', rl) := request_long fuel rs c e i in
  let '(p', rp) := request_persisted fuel rs c p i in
  rl = rp /\
  (r_cont rl = true -> flush_alive (r_flush rl) -> no_browse_err_b fuel rs c e i = true -> R c e' p').
Proof.
  intros fuel rs c e p i Hf (HL & Hst & Hw & Hlg) Hin. unfold no_browse_err_b.
  rewrite request_long_finish, !(eng_exec_Linv fuel rs c e i HL).
  pose proof (Linv_cleared c e HL) as HLc.
  destruct (Linv_inv c e HL) as (st & ca & pg & w & lg & t & d & -> & Hcode & _ & Hterm & _ & Hpg & Hwait).
  cbn [e_v v_st v_ca v_w v_log] in Hst, Hw, Hlg.
  rewrite (request_persisted_R fuel rs c p i st ca Hf Hst Hcode), Hw, Hlg.
  pose proof (erel_of_R c st ca pg w lg t Hterm Hpg Hwait) as Hab.
  change (cleared (mkEng (mkVm st ca pg w lg t) true [] false d)) with (mkEng (mkVm st ca pg w lg t) true [] false false) in *.
  destruct (INPUT_LIMIT <? len i) eqn:Elim.
  - (* over-long: refused on both sides *)
    rewrite exec_tail_over_long by assumption.
    unfold long_finish. rewrite !flush_before_exec by reflexivity.
    split; [reflexivity|]. intros; discriminate.
  - exact (request_sim fuel rs c (pw_taint p) (pw_store p) _ i _ HLc eq_refl (exec_tail_sim fuel rs c i _ _ Hab)).
Qed.

Definition stat_alive (s : stat) : Prop := match s with SPanic _ | SFuel => False | _ => True end.

Lemma sview_refl : forall a, sview a a. Proof. intros. repeat split. Qed.
Lemma rel1_refl : forall A B (Q : A -> A -> Prop) (x : A * B), (forall a, Q a a) -> rel1 Q x x.
Proof. intros. split; [apply H|reflexivity]. Qed.

(* the configured flag count leaves room for the eight built-in flags in the flag field *)
Definition cfg_flags_ok (c : config) : Prop := flags_ok (fresh_state c).

Definition e_init (c : config) (w : list (bytes * N)) (lg : list ev) : engine :=
  mkEng (mkVm (set_input_raw (set_code (fresh_state c) (encode (IMove (cfg_root c)))) None) (fresh_cache c) (P0 c) w lg false)
        true [] false false.

Lemma init_sc_fresh : forall c,
  init_sc c (fresh_state c) (fresh_cache c)
  = (set_input_raw (set_code (fresh_state c) (encode (IMove (cfg_root c)))) None, fresh_cache c).
Proof.
  intros c. unfold init_sc, stale. destruct (fresh_state_flagish c) as (Hp & _ & _ & _ & Hc & Hi). rewrite Hc, Hp, Hi.
  reflexivity.
Qed.

Lemma Linv_e_init : forall c w lg, cfg_flags_ok c -> Linv c (e_init c w lg).
Proof.
  intros c w lg Hf. unfold Linv, e_init. cbn [e_initd e_exit e_exiting e_v v_st v_pg].
  repeat (split; [reflexivity|]).
  split; [cbn [s_code set_input_raw set_code]; apply encode_nonempty|].
  split; [apply (getf_fresh c FLAG_DIRTY); unfold FLAG_DIRTY, FLAG_LANG; lia|].
  split; [apply (getf_fresh c FLAG_TERMINATE); unfold FLAG_TERMINATE, FLAG_LANG; lia|].
  split; [exact Hf|]. split; [reflexivity|]. intros _. apply peq_refl.
Qed.

Lemma first_exec : forall fuel rs c w lg i, c_first c = None ->
  eng_exec fuel rs c (new_engine c None w lg) i =
  if INPUT_LIMIT <? len i then (new_engine c None w lg, false, SErr EGen None)
  else exec_tail fuel rs c (e_init c w lg) i.
Proof.
  intros fuel rs c w lg i Hf. unfold new_engine. rewrite eng_exec_fresh by exact Hf.
  rewrite init_sc_fresh. reflexivity.
Qed.

Lemma first_step : forall fuel rs c w lg t i,
  c_first c = None -> cfg_flags_ok c ->
  let '(e', rl) := request_long fuel rs c (new_engine c None w lg) i in
  let '(p', rp) := request_persisted fuel rs c (mkPw None w lg t) i in
  rl = rp /\
  (r_cont rl = true -> flush_alive (r_flush rl) -> no_browse_err_b fuel rs c (new_engine c None w lg) i = true -> R c e' p').
Proof.
  intros fuel rs c w lg t i Hf Hfl. unfold no_browse_err_b.
  rewrite request_persisted_long. cbn [pw_store pw_w pw_log]. rewrite !request_long_finish.
  rewrite (first_exec fuel rs c w lg i Hf). destruct (INPUT_LIMIT <? len i).
  - unfold long_finish. rewrite !flush_before_exec by reflexivity. split; [reflexivity|]. intros; discriminate.
  - apply (request_sim fuel rs c _ _ _ i _ (Linv_e_init c w lg Hfl) eq_refl).
    repeat (apply rel1_refl; intros). apply sview_refl.
Qed.

(* whole histories, up to and including the first response that ends the session *)
Definition alive_b (r : response) : bool :=
  r_cont r && match r_flush r with FPanic _ | FFuel => false | _ => true end.
Fixpoint upto_stop (l : list response) : list response :=
  match l with
  | [] => []
  | r :: rest => if alive_b r then r :: upto_stop rest else [r]
  end.

(* the guards, along the long-lived run, as long as the session goes on *)
Fixpoint c07_guard_b (fuel : nat) (rs : rsrc) (c : config) (e : engine) (h : list bytes) : bool :=
  match h with
  | [] => true
  | i :: h' =>
    input_ok_b i &&
    (if alive_b (snd (request_long fuel rs c e i))
     then no_browse_err_b fuel rs c e i && c07_guard_b fuel rs c (fst (request_long fuel rs c e i)) h'
     else true)
  end.

Lemma alive_b_spec : forall r, alive_b r = true -> r_cont r = true /\ flush_alive (r_flush r).
Proof. intros r H. unfold alive_b in H. apply andb_true_iff in H as [H1 H2]. split; [exact H1|]. destruct (r_flush r); try discriminate; exact I. Qed.

(* between two requests, or before the first *)
Definition sim (c : config) (e : engine) (p : pworld) : Prop :=
  R c e p \/ (cfg_flags_ok c /\ exists w lg t, e = new_engine c None w lg /\ p = mkPw None w lg t).

Lemma history_from_sim : forall fuel rs c h e p,
  c_first c = None -> sim c e p -> c07_guard_b fuel rs c e h = true ->
  upto_stop (snd (serve_long fuel rs c e h)) = upto_stop (snd (serve_pers fuel rs c p h)).
Proof.
  induction h as [|i h IH]; intros e p Hf Hsim Hg; [reflexivity|].
  cbn [c07_guard_b] in Hg. apply andb_true_iff in Hg as [G1 G3].
  assert (Hs : let '(e', rl) := request_long fuel rs c e i in
               let '(p', rp) := request_persisted fuel rs c p i in
               rl = rp /\ (r_cont rl = true -> flush_alive (r_flush rl) -> no_browse_err_b fuel rs c e i = true -> R c e' p')).
  { destruct Hsim as [HR|(Hfl & w & lg & t & -> & ->)]; [apply step_simulation|apply first_step]; assumption. }
  cbn [serve_long serve_pers].
  destruct (request_long fuel rs c e i) as [e1 rl]. destruct (request_persisted fuel rs c p i) as [p1 rp].
  destruct Hs as [<- HR1]. cbn [fst snd] in G3. specialize (IH e1 p1 Hf).
  destruct (serve_long fuel rs c e1 h) as [e2 rr]. destruct (serve_pers fuel rs c p1 h) as [p2 rr'].
  cbn [snd upto_stop] in *.
  destruct (alive_b rl) eqn:Ea; [|reflexivity].
  apply andb_true_iff in G3 as [G4 G5]. destruct (alive_b_spec rl Ea) as [Hc Hfa].
  rewrite (IH (or_introl (HR1 Hc Hfa G4)) G5). reflexivity.
Qed.

Definition cfg_flags_ok_b (c : config) : bool := Nat.leb 8 (List.length (s_flags (fresh_state c))).
Lemma cfg_flags_ok_b_spec : forall c, cfg_flags_ok_b c = true -> cfg_flags_ok c.
Proof. intros c H. unfold cfg_flags_ok_b in H. apply PeanoNat.Nat.leb_le in H. exact H. Qed.

Theorem history_simulation : forall fuel rs c h w lg t,
  c_first c = None -> cfg_flags_ok_b c = true ->
  c07_guard_b fuel rs c (new_engine c None w lg) h = true ->
  upto_stop (snd (serve_long fuel rs c (new_engine c None w lg) h))
  = upto_stop (snd (serve_pers fuel rs c (mkPw None w lg t) h)).
Proof.
  intros fuel rs c h w lg t Hf Hfl. apply history_from_sim; [exact Hf|]. right. split; [apply cfg_flags_ok_b_spec; exact Hfl|eauto].
Qed.

(* C17, long-lived engine: the refused input is the very first request of the session *)
Lemma first_refused_long : forall fuel rs c w lg bad,
  c_first c = None -> refused bad ->
  request_long fuel rs c (new_engine c None w lg) bad =
  (if INPUT_LIMIT <? len bad then new_engine c None w lg else e_init c w lg,
   mkResp (if INPUT_LIMIT <? len bad then false else true) (SErr EGen None) [] (FErr EFlushNoExec)).
Proof.
  intros fuel rs c w lg bad Hf Hr. rewrite request_long_finish, first_exec by exact Hf.
  destruct (INPUT_LIMIT <? len bad) eqn:El.
  - unfold long_finish. rewrite flush_before_exec by reflexivity. reflexivity.
  - rewrite exec_tail_refused by exact Hr.
    rewrite (refused_short bad Hr El). unfold long_finish. rewrite flush_before_exec by reflexivity. reflexivity.
Qed.

Lemma e_init_next : forall fuel rs c w lg j,
  c_first c = None -> input_ok_b j = true ->
  snd (request_long fuel rs c (e_init c w lg) j) = snd (request_long fuel rs c (new_engine c None w lg) j)
  /\ (if INPUT_LIMIT <? len j
      then fst (request_long fuel rs c (e_init c w lg) j) = e_init c w lg
           /\ fst (request_long fuel rs c (new_engine c None w lg) j) = new_engine c None w lg
      else fst (request_long fuel rs c (e_init c w lg) j) = fst (request_long fuel rs c (new_engine c None w lg) j)).
Proof.
  intros fuel rs c w lg j Hf Hin. rewrite !request_long_finish, first_exec by exact Hf.
  rewrite eng_exec_initd by (try reflexivity; intros H; discriminate).
  change (stuck c (e_init c w lg)) with false. cbv iota. change (cleared (e_init c w lg)) with (e_init c w lg).
  destruct (INPUT_LIMIT <? len j) eqn:El; [|split; reflexivity].
  rewrite exec_tail_over_long by assumption.
  unfold long_finish. rewrite !flush_before_exec by reflexivity. cbn [fst snd]. auto.
Qed.

Lemma serve_long_e_init : forall fuel rs c w lg h,
  c_first c = None -> forallb input_ok_b h = true ->
  snd (serve_long fuel rs c (e_init c w lg) h) = snd (serve_long fuel rs c (new_engine c None w lg) h).
Proof.
  intros fuel rs c w lg h Hf. induction h as [|j h IH]; intros Hall; [reflexivity|].
  cbn [forallb] in Hall. apply andb_true_iff in Hall as [Hj Hall].
  destruct (e_init_next fuel rs c w lg j Hf Hj) as [Hr He].
  cbn [serve_long].
  destruct (request_long fuel rs c (e_init c w lg) j) as [e1 r1].
  destruct (request_long fuel rs c (new_engine c None w lg) j) as [e2 r2]. cbn [fst snd] in *. subst r2.
  destruct (INPUT_LIMIT <? len j).
  - destruct He as [-> ->]. specialize (IH Hall).
    destruct (serve_long fuel rs c (e_init c w lg) h) as [? rr]. destruct (serve_long fuel rs c (new_engine c None w lg) h) as [? rr'].
    cbn [snd] in *. congruence.
  - subst e2. destruct (serve_long fuel rs c e1 h) as [? rr]. reflexivity.
Qed.

(* The applications, configurations and histories of props/C07.v (w_app, w_cfg, w_long and w_longbad are EngineProofs'). *)
Definition w_lines (l : list string) : bytes := join_with [10] (map s2b l).

(* C07_ex_guards, C07_ex_step, C07_ex_R: a paginated node (sink symbol of 8 rows, next/previous entries), a plain node, _catch *)
Definition w_root_code : bytes :=
  encode_prog [ILoad (s2b "aa"%string) 0; IMap (s2b "aa"%string); IMNext (s2b "nxt"%string) (s2b "11"%string);
               IMPrev (s2b "prv"%string) (s2b "22"%string); IHalt;
               IInCmp (s2b ">"%string) (s2b "11"%string); IInCmp (s2b "<"%string) (s2b "22"%string);
               IInCmp (s2b "foo"%string) (s2b "1"%string)].
Definition w_app_pages : app :=
  mkApp [(s2b "root"%string, w_root_code);
         (s2b "foo"%string, encode_prog [IMOut (s2b "back"%string) (s2b "0"%string); IHalt; IInCmp (s2b "_"%string) (s2b "0"%string)]);
         (s2b "_catch"%string, encode_prog [IMOut (s2b "back"%string) (s2b "0"%string); IHalt; IInCmp (s2b "_"%string) (s2b "0"%string)])]
        [(s2b "root"%string, s2b "r {{.aa}}"%string); (s2b "foo"%string, s2b "foo"%string); (s2b "_catch"%string, s2b "catch"%string)] []
        [(s2b "aa"%string, [mkFres (w_lines ["one"; "two"; "three"; "four"; "five"; "six"; "seven"; "eight"]%string) false 0 [] [] false])].
Definition w_cfg28 : config := mkCfg 28 [] 1 0 [] [] false None.
(* forward, forward, back, a malformed input, an unknown selector, up, down, up, an over-long input *)
Definition w_hist_pages : list bytes :=
  [[]; s2b "11"%string; s2b "11"%string; s2b "22"%string; s2b "!x"%string; s2b "zz"%string; s2b "0"%string;
   s2b "1"%string; s2b "0"%string; w_long].

(* C07_refuted_first (K-C07-first): the entry function runs once per ENGINE (corpus case first-terminate) *)
Definition w_cfg_term : config :=
  mkCfg 0 [] 1 0 [] [] false
    (Some [mkFres (s2b "hello"%string) false 0 [] [] false; mkFres (s2b "blocked"%string) false 0 [6] [] false;
           mkFres (s2b "again"%string) false 0 [] [] false]).
(* C07_browse_regression (K-C07-browse).  A node that sets a "next" entry, halts, and then builds a paginated page
   WITHOUT moving: Menu.Reset erases the browse configuration (go-vise c373f7d), so both drivers answer "root"; a Reset
   that kept it would show the entry in the long-lived engine only ("root\n11:nx") *)
Definition w_app_leak : app :=
  mkApp [(s2b "root"%string,
          encode_prog [IMNext (s2b "nx"%string) (s2b "11"%string); IHalt; ILoad (s2b "sk"%string) 0; IMap (s2b "sk"%string); IHalt;
                       IInCmp (s2b "_"%string) (s2b "0"%string)]);
         (s2b "_catch"%string, encode_prog [IHalt; IInCmp (s2b "_"%string) (s2b "*"%string)])]
        [(s2b "root"%string, s2b "root"%string); (s2b "_catch"%string, s2b "catch"%string)] []
        [(s2b "sk"%string, [mkFres (w_lines ["one"; "two"; "three"; "four"; "five"; "six"]%string) false 0 [] [] false])].
Definition w_cfg20 : config := mkCfg 20 [] 1 0 [] [] false None.
