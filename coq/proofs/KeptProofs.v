(* the kept-state serving mode (corr/EngineKeptCorr.v): a new engine object per request around the SAME
   State and Cache *)
From Coq Require Import List NArith Bool.
From Vise Require Import Bytes Errors Consts Codec CacheModel StateModel NavModel RenderModel VmModel EngineModel CorrBase EngineCorr EngineMon EngineKeptCorr.
Import ListNotations.
Local Open Scope N_scope.

(* kept_state is the state adjusted by ensureState; the four equations before the last are its projections *)
Lemma kept_engine_shape : forall c st ca w lg,
  let e := kept_engine c (st, ca) w lg in
  v_st (e_v e) = kept_state c st /\ v_ca (e_v e) = ca /\ v_w (e_v e) = w /\ v_log (e_v e) = lg
  /\ e = new_engine c (Some (kept_state c st, ca)) w lg.
Proof. intros. unfold e, kept_engine. cbn [fst snd]. unfold new_engine. cbn. repeat split. Qed.
