(* C01 at engine level: whatever Flush hands to the client fits the configured output size.
   Every page operation, every handler, `run`, `vm_render` and every operation of the engine keeps the
   output size of the page's sizer (on the page-level lemmas of RenderProofs) and an invariant about the
   exit value; what Vm.Render and Flush write fits, in the uint32 arithmetic of the code's check and,
   below 4 GiB, in absolute terms; what Flush writes is all or nothing.  Then histories of both request
   drivers (responses_all), and the fixtures of props/C01.v. *)
From Coq Require Import Lia ZifyN ZifyNat ZifyBool.
From Vise Require Import Bytes Errors Consts EngConsts Codec CacheModel StateModel NavModel RenderModel VmModel EngineModel
  BytesProofs CodecProofs RenderProofs VmProofs.
From Vise Require Import EngineProofs.
Local Open Scope N_scope.

Lemma page_out_reset pg : page_out (page_reset pg) = page_out pg.
Proof. unfold page_out, page_reset. cbn [p_sizer]. destruct (p_sizer pg); reflexivity. Qed.

Lemma page_out_with_menu pg m : page_out (page_with_menu pg m) = page_out pg.
Proof. reflexivity. Qed.

Lemma page_out_with_error pg e : page_out (page_with_error pg e) = page_out pg.
Proof. reflexivity. Qed.

Lemma page_out_upd_menu f pg : page_out (upd_menu f pg) = page_out pg.
Proof. unfold upd_menu. destruct (p_menu pg); reflexivity. Qed.

Lemma page_out_vm_reset sep pg : page_out (vm_reset sep pg) = page_out pg.
Proof. unfold vm_reset. rewrite page_out_with_menu. apply page_out_reset. Qed.

Lemma page_out_with_sizer pg z : page_out (page_with_sizer pg z) = Some (z_out z).
Proof. reflexivity. Qed.

Lemma page_map_out ca pg k pg' : page_map ca pg k = Ok pg' -> page_out pg' = page_out pg.
Proof. intros H. apply pkept_out, (page_map_kept H). Qed.

Lemma page_render_out c gt gm pg sym idx :
  page_out (snd (page_render c gt gm pg sym idx)) = page_out pg.
Proof. apply pkept_out, page_render_kept. Qed.

Lemma w32_nil : w32 (len (@nil N)) = 0.
Proof. reflexivity. Qed.

Definition vout (v : vmst) : option N := page_out (v_pg v).

Lemma page_op_out sep ca pg pg' : page_op sep ca pg pg' -> page_out pg' = page_out pg.
Proof.
  destruct 1; [apply page_out_vm_reset|apply page_out_upd_menu|reflexivity| |eapply page_map_out; eassumption].
  rewrite page_out_upd_menu, page_out_reset. reflexivity.
Qed.
Lemma vm_ops_out fail rd sep v v' : vm_ops fail rd sep v v' -> vout v' = vout v.
Proof.
  induction 1; try reflexivity; [congruence|eapply page_op_out; eassumption|destruct s; reflexivity|apply page_render_out].
Qed.

Lemma exec_instr_out rs sep lang i b v : vout (fst (fst (exec_instr rs sep lang i b v))) = vout v.
Proof. eapply vm_ops_out, exec_instr_vm_ops. Qed.
Lemma run_out fuel rs sep lang b v : vout (fst (fst (run fuel rs sep lang b v))) = vout v.
Proof. eapply vm_ops_out, run_vm_ops. Qed.

(* One iteration of Run in a spelling of this file: `run_errcheck`, `run_post`, `run_lang`, `run_pre` are
   `loop_errcheck`, `loop_tail`, `loop_lang`, `loop_pre` of VmProofs (`run_post_tail`; the other two by
   `reflexivity`) and `run_S` is VmProofs.run_S written with them, one of the per-file decompositions that
   DESIGN.md section 6 lists.  Nothing below goes through them: `run_out` is `vm_ops_out` over
   VmProofs.run_vm_ops.  (`run_S`, and `run_inv` further down, are not VmProofs' lemmas of these names.) *)
Definition run_errcheck (v1 : vmst) (b2 : bytes) (s : stat) : hres :=
  match s with
  | SErr e msg =>
    let v2 := set_page_err v1 msg in
    if getf (v_st v2) FLAG_LOADFAIL && negb (bytes_eqb (where_sym (v_st v2)) catch_sym)
    then (v2, move_catch_code, SOk) else (v2, b2, s)
  | _ => (v1, b2, s)
  end.
Definition run_post (rec : bytes -> vmst -> hres) (op : N) (r : hres) : hres :=
  let '(v1, b2, s) := r in
  if op =? op_HALT then (v1, b2, s) else
  let '(v2, b3, s2) := run_errcheck v1 b2 s in
  match s2 with
  | SOk =>
    match b3 with
    | [] =>
      let '(v3, b4, s3) := dead_check v2 in
      match s3 with
      | SOk => match b4 with [] => (v3, [], SOk) | _ => rec b4 v3 end
      | _ => (v3, b4, s3)
      end
    | _ => rec b3 v2
    end
  | _ => (v2, b3, s2)
  end.

Definition run_lang (lang : option bytes) (v : vmst) : option bytes :=
  if getf (v_st v) FLAG_LANG
  then match s_lang (resetf (v_st v) FLAG_LANG) with Some l => Some l | None => lang end
  else lang.
Definition run_pre (v : vmst) : vmst :=
  let st := resetf (v_st v) FLAG_LANG in
  let wait := getf st FLAG_WAIT in
  let st := resetf st FLAG_WAIT in
  let st := if wait then resetf st FLAG_INMATCH else st in
  let pg := if wait then upd_menu menu_reset (page_reset (page_with_error (v_pg v) None)) else v_pg v in
  vset_pg (vset_st v (setf st FLAG_DIRTY)) pg.

Lemma run_post_tail rec op r : run_post rec op r = loop_tail rec op r.
Proof.
  destruct r as [[v1 b2] s]. unfold run_post, loop_tail, loop_errcheck, run_errcheck.
  destruct (op =? op_HALT); [reflexivity|]. destruct s; try reflexivity.
  cbv zeta. destruct (_ && _); reflexivity.
Qed.

Lemma run_S fuel rs sep lang b v :
  run (S fuel) rs sep lang b v =
  if getf (v_st v) FLAG_TERMINATE then (v, [], SOk) else
  let lang' := run_lang lang v in
  let v0 := run_pre v in
  match op_split b with
  | Err e => (v0, b, SErr e None)
  | Panic n => (v0, b, SPanic n)
  | Ok (op, b1) =>
    match parse_args op b1 with
    | Panic n => (v0, b1, SPanic n)
    | Ok (i, b2) => run_post (run fuel rs sep lang') op (exec_instr rs sep lang' i b2 (vlog v0 (EvInstr op)))
    | Err _ => run_post (run fuel rs sep lang') op (v0, b1, SErr EGen None)
    end
  end.
Proof.
  rewrite VmProofs.run_S. destruct (getf (v_st v) FLAG_TERMINATE); [reflexivity|].
  destruct (op_split b) as [[op b1]|e|n]; try reflexivity.
  destruct (parse_args op b1) as [[i b2]|e|n]; try reflexivity; symmetry; apply run_post_tail.
Qed.

(* Vm.Render ends in one of four ways: nothing to render (not DIRTY); no position; a page rendered,
   on the machine as it stands or, after a BrowseError, as `MOVE _catch` left it; or that run
   panicked or ran out of fuel.  The machine rendered on has the output size of the one given.
   P relates the result to that machine, which vm_render_fits32 needs; VmProofs.vm_render_keeps, with one
   predicate on machines and one on results, cannot say that. *)
Lemma vm_render_cases (P : vmst -> rres -> Prop) fuel rs sep lang v :
  (getf (v_st v) FLAG_DIRTY = false -> P v (RROk [])) ->
  (where_sym (v_st v) = [] -> P (vset_st v (resetf (v_st v) FLAG_DIRTY)) (RROk [])) ->
  (forall v1 r pg, getf (v_st v) FLAG_DIRTY = true -> where_sym (v_st v) <> [] -> vout v1 = vout v ->
     page_render (v_ca v1) (rs_tpl rs lang) (rs_menu rs lang) (v_pg v1) (where_sym (v_st v1)) (s_idx (v_st v1)) = (r, pg) ->
     P (vlog (vset_pg v1 pg) (EvRender (where_sym (v_st v1)) (s_idx (v_st v1)) lang)) (rres_of r)) ->
  (forall v1 r, getf (v_st v) FLAG_DIRTY = true -> where_sym (v_st v) <> [] -> vout v1 = vout v ->
     r = RRFuel \/ (exists n, r = RRPanic n) -> P v1 r) ->
  P (fst (vm_render fuel rs sep lang v)) (snd (vm_render fuel rs sep lang v)).
Proof.
  intros Hclean Hnowhere Hpage Hstop. unfold vm_render.
  destruct (getf (v_st v) FLAG_DIRTY) eqn:Hd; [|apply Hclean; reflexivity]. cbn [negb].
  set (v0 := vset_st v (resetf (v_st v) FLAG_DIRTY)).
  destruct (where_sym (v_st v0)) as [|x l] eqn:Hw; [apply Hnowhere; exact Hw|]. rewrite <- Hw.
  assert (Hne : where_sym (v_st v) <> []) by (change (where_sym (v_st v0) <> []); rewrite Hw; discriminate).
  pose proof (page_render_out (v_ca v0) (rs_tpl rs lang) (rs_menu rs lang) (v_pg v0) (where_sym (v_st v0)) (s_idx (v_st v0))) as Ho.
  destruct (page_render _ _ _ (v_pg v0) _ _) as [r pg'] eqn:Hr. cbn [snd] in Ho.
  pose proof (Hpage v0 r pg' eq_refl Hne eq_refl Hr) as H0.
  destruct r as [o|e|n]; try exact H0. destruct e; try exact H0.
  match goal with |- context [run fuel rs sep lang move_catch_code ?V] =>
    pose proof (run_out fuel rs sep lang move_catch_code V) as Hrun;
    destruct (run fuel rs sep lang move_catch_code V) as [[v1 b1] s] end.
  assert (Hv1 : vout v1 = vout v).
  { cbn [fst] in Hrun. rewrite Hrun. unfold vout. cbn [v_pg vset_pg vlog]. rewrite page_out_vm_reset. exact Ho. }
  destruct s as [|e m|n|]; cbn [fst snd]; [| |apply Hstop; eauto|apply Hstop; auto];
    match goal with |- context [page_render ?a ?b ?c ?d ?e ?f] => destruct (page_render a b c d e f) as [r1 pg1] eqn:Hr1 end;
    exact (Hpage _ _ _ eq_refl Hne Hv1 Hr1).
Qed.

Lemma vm_render_out fuel rs sep lang v : vout (fst (vm_render fuel rs sep lang v)) = vout v.
Proof. eapply vm_ops_out, vm_render_vm_ops. Qed.

Lemma vm_render_idle fuel rs sep lang v :
  getf (v_st v) FLAG_DIRTY = false \/ s_path (v_st v) = [] ->
  snd (vm_render fuel rs sep lang v) = RROk []
  /\ getf (v_st (fst (vm_render fuel rs sep lang v))) FLAG_DIRTY = false
  /\ s_path (v_st (fst (vm_render fuel rs sep lang v))) = s_path (v_st v).
Proof.
  intros H.
  assert (Hno : getf (v_st v) FLAG_DIRTY = true -> where_sym (v_st v) <> [] -> False).
  { intros Hd Hw. destruct H as [H|H]; [congruence|]. apply Hw. unfold where_sym. rewrite H. reflexivity. }
  apply vm_render_cases with
    (P := fun v' r => r = RROk [] /\ getf (v_st v') FLAG_DIRTY = false /\ s_path (v_st v') = s_path (v_st v)).
  - auto.
  - intros _. split; [reflexivity|]. split; [apply getf_resetf_same|reflexivity].
  - intros v1 r pg Hd Hw. destruct (Hno Hd Hw).
  - intros v1 r Hd Hw. destruct (Hno Hd Hw).
Qed.

Definition eout (e : engine) : option N := vout (e_v e).

Definition PgInv (c : config) (v : vmst) : Prop :=
  vout v = if 0 <? c_out c then Some (c_out c) else None.

Lemma PgInv_spec c v :
  PgInv c v <->
  (0 < c_out c -> exists z, p_sizer (v_pg v) = Some z /\ z_out z = c_out c)
  /\ (c_out c = 0 -> p_sizer (v_pg v) = None).
Proof.
  unfold PgInv, vout, page_out. destruct (0 <? c_out c) eqn:E.
  - split.
    + intros H. split; [|lia]. intros _. destruct (p_sizer (v_pg v)) as [z|]; [|discriminate].
      exists z. cbn [option_map] in H. split; congruence.
    + intros [H _]. destruct H as [z [-> <-]]; [lia|reflexivity].
  - split.
    + intros H. split; [lia|]. intros _. destruct (p_sizer (v_pg v)); [discriminate|reflexivity].
    + intros [_ H]. rewrite H by lia. reflexivity.
Qed.

Lemma PgInv_eq c v v' : vout v' = vout v -> PgInv c v -> PgInv c v'.
Proof. unfold PgInv. congruence. Qed.

Lemma run_inv fuel rs sep lang b c v : PgInv c v -> PgInv c (fst (fst (run fuel rs sep lang b v))).
Proof. apply PgInv_eq. apply run_out. Qed.
Lemma vm_render_inv fuel rs sep lang c v : PgInv c v -> PgInv c (fst (vm_render fuel rs sep lang v)).
Proof. apply PgInv_eq. apply vm_render_out. Qed.

Lemma new_vm_page_out out sep : page_out (new_vm_page out sep) = if 0 <? out then Some out else None.
Proof.
  unfold new_vm_page. destruct sep; [|rewrite page_out_upd_menu]; destruct (0 <? out); reflexivity.
Qed.

Lemma new_engine_inv c snap w lg : PgInv c (e_v (new_engine c snap w lg)).
Proof.
  unfold new_engine, PgInv, vout. destruct snap as [[s ca]|]; cbn [e_v v_pg]; apply new_vm_page_out.
Qed.

(* the exit invariant: an exit value outside an exiting engine exists only with nothing left to
   render.  It rules out situation A of eng_flush_err_cases below. *)
Definition ExitInv (e : engine) : Prop :=
  e_exit e = [] \/ e_exiting e = true
  \/ getf (v_st (e_v e)) FLAG_DIRTY = false \/ s_path (v_st (e_v e)) = [].

Lemma exitinv_none e : e_exit e = [] -> ExitInv e.
Proof. intros H. left. exact H. Qed.
Lemma exitinv_exiting e : e_exiting e = true -> ExitInv e.
Proof. intros H. right. left. exact H. Qed.
Lemma exitinv_idle e : getf (v_st (e_v e)) FLAG_DIRTY = false \/ s_path (v_st (e_v e)) = [] -> ExitInv e.
Proof. intros H. right. right. exact H. Qed.

Lemma new_engine_exitinv c snap w lg : ExitInv (new_engine c snap w lg).
Proof. apply exitinv_none. unfold new_engine. destruct snap as [[s ca]|]; reflexivity. Qed.

Definition keeps (e e' : engine) : Prop := eout e' = eout e /\ (ExitInv e -> ExitInv e').

Lemma keeps_refl e : keeps e e.
Proof. split; auto. Qed.
Lemma keeps_trans e1 e2 e3 : keeps e1 e2 -> keeps e2 e3 -> keeps e1 e3.
Proof. intros [H1 H1'] [H2 H2']. split; [congruence|auto]. Qed.
Lemma keeps_inv c e e' : keeps e e' -> PgInv c (e_v e) -> PgInv c (e_v e').
Proof. intros [H _]. apply PgInv_eq, H. Qed.
Lemma keeps_exit e e' : keeps e e' -> ExitInv e -> ExitInv e'.
Proof. intros [_ H]. exact H. Qed.
Lemma keeps_pg e e' : v_pg (e_v e') = v_pg (e_v e) -> (ExitInv e -> ExitInv e') -> keeps e e'.
Proof. intros Hp Hi. unfold keeps, eout, vout. rewrite Hp. auto. Qed.

(* the status of the final reset as Flush reports it (EngineModel.stat_of_f goes the other way) *)
Definition f_of_stat (s : stat) : fstat :=
  match s with SOk => FOk | SErr er _ => FErr er | SPanic n => FPanic n | SFuel => FFuel end.

Lemma eng_reset_inner_pg v : v_pg (fst (eng_reset_inner v)) = v_pg v.
Proof. rewrite eng_reset_inner_sc. destruct (reset_sc _ _) as [[st ca] s]. reflexivity. Qed.

Lemma eng_reset_inner_stat v :
  snd (eng_reset_inner v) = SOk
  \/ (snd (eng_reset_inner v) = SErr EGen None /\ s_path (v_st v) = []
      /\ v_st (fst (eng_reset_inner v)) = v_st v /\ v_ca (fst (eng_reset_inner v)) = v_ca v).
Proof.
  rewrite eng_reset_inner_sc, reset_sc_eq.
  destruct (s_path (v_st v)); [right; repeat split|left; reflexivity].
Qed.

Lemma eng_reset_inner_clean v :
  getf (v_st (fst (eng_reset_inner v))) FLAG_DIRTY = false \/ s_path (v_st (fst (eng_reset_inner v))) = [].
Proof.
  rewrite eng_reset_inner_sc, reset_sc_eq.
  destruct (s_path (v_st v)) eqn:Ep; [right; exact Ep|left; apply getf_resetf_same].
Qed.

Definition flush_page (r : rres) : bytes := match r with RROk o => o | _ => [] end.
Definition flush_over (c : config) (exit : bytes) (r : rres) : bool :=
  (0 <? c_out c) && (0 <? len exit) && (c_out c <? w32 (len exit + len (flush_page r))).

Lemma flush_over_false c exit r :
  0 < c_out c -> exit <> [] -> flush_over c exit r = false -> w32 (len exit + len (flush_page r)) <= c_out c.
Proof.
  unfold flush_over. intros Hpos Hne H.
  assert (E1 : 0 <? c_out c = true) by lia.
  assert (E2 : 0 <? len exit = true) by (destruct exit; [congruence|rewrite len_cons; lia]).
  rewrite E1, E2 in H. cbn [andb] in H. lia.
Qed.

(* Flush, in the terms of the theorems below: `kept` is the engine around the VM as Render left it,
   `after` the engine Flush leaves (after the final reset, when the engine is exiting).
   `EngineProofs.eng_flush_unfold` is the same function by its control flow; here the size check is
   folded into `flush_over` and the page written into `flush_page`, which the statements of C01 use. *)
Lemma eng_flush_eq fuel rs c e :
  let vr := vm_render fuel rs (c_sep c) (s_lang (v_st (e_v e))) (e_v e) in
  let kept := eset_v e (fst vr) in
  let after := if e_exiting e then mkEng (fst (eng_reset_inner (fst vr))) (e_initd e) (e_exit e) false (e_execd e) else kept in
  eng_flush fuel rs c e =
  if negb (e_execd e) then (e, [], FErr EFlushNoExec) else
  match snd vr with
  | RRPanic n => (kept, [], FPanic n)
  | RRFuel => (kept, [], FFuel)
  | r =>
    if flush_over c (e_exit e) r then (after, [], FErr EGen) else
    match r, e_exit e with
    | RRErr er, [] => (kept, [], FErr er)
    | _, _ => (after, flush_page r ++ e_exit e,
               if e_exiting e then f_of_stat (snd (eng_reset_inner (fst vr)))
               else match r with RRErr er => FErr er | _ => FOk end)
    end
  end.
Proof.
  cbv zeta. rewrite eng_flush_unfold. unfold flush_tail, flush_over. destruct (negb (e_execd e)); [reflexivity|].
  destruct (vm_render fuel rs (c_sep c) (s_lang (v_st (e_v e))) (e_v e)) as [v r].
  cbn [fst snd e_exit e_exiting e_v eset_v e_initd e_execd].
  (* a panic, no fuel: by computation.  A page or a render error: first the size check, the same test on both sides *)
  destruct r as [o|er|n|]; try reflexivity; cbn [flush_page]; change (len (@nil N)) with 0.
  all: destruct (_ && _); [destruct (e_exiting e); [destruct (eng_reset_inner v)|]; reflexivity|].
  - destruct (e_exiting e); [destruct (eng_reset_inner v) as [v' s]; destruct s|]; reflexivity.
  - destruct (e_exit e); [reflexivity|].
    destruct (e_exiting e); [destruct (eng_reset_inner v) as [v' s]; destruct s|]; reflexivity.
Qed.

(* everything Flush can write: nothing, or the whole rendered page followed by the exit
   value (the page being empty when its render failed and an exit value exists) *)
Lemma eng_flush_output fuel rs c e e' out f :
  eng_flush fuel rs c e = (e', out, f) ->
  let vr := vm_render fuel rs (c_sep c) (s_lang (v_st (e_v e))) (e_v e) in
  (out = [] /\ (forall er, f = FErr er -> e_execd e = false \/ flush_over c (e_exit e) (snd vr) = true
                                          \/ (snd vr = RRErr er /\ e_exit e = [])))
  \/ (e_execd e = true /\ flush_over c (e_exit e) (snd vr) = false
      /\ out = flush_page (snd vr) ++ e_exit e
      /\ ((exists page, snd vr = RROk page) \/ (exists er, snd vr = RRErr er /\ e_exit e <> []))
      /\ f = (if e_exiting e then f_of_stat (snd (eng_reset_inner (fst vr)))
              else match snd vr with RRErr er => FErr er | _ => FOk end)).
Proof.
  intros Hf. rewrite eng_flush_eq in Hf. cbv zeta in *.
  destruct (vm_render fuel rs (c_sep c) (s_lang (v_st (e_v e))) (e_v e)) as [v r]. cbn [fst snd] in *.
  destruct (e_execd e); cbn [negb] in Hf; [|left; injection Hf as <- <- <-; auto].
  destruct r as [o|er|n|]; try (left; injection Hf as <- <- <-; split; [reflexivity|discriminate]);
    (destruct (flush_over c (e_exit e) _) eqn:Hover; [left; injection Hf as <- <- <-; split; auto|]).
  - right. injection Hf as <- <- <-. repeat split; eauto.
  - destruct (e_exit e) as [|x ex] eqn:Ee.
    + left. injection Hf as <- <- <-. split; [reflexivity|]. intros er' [= <-]. auto.
    + right. injection Hf as <- <- <-. repeat split; try reflexivity. right. exists er. split; [reflexivity|discriminate].
Qed.

Lemma eng_flush_keeps fuel rs c e : keeps e (fst (fst (eng_flush fuel rs c e))).
Proof.
  pose proof (vm_render_out fuel rs (c_sep c) (s_lang (v_st (e_v e))) (e_v e)) as Ho.
  destruct (proj1 (eng_flush_cases fuel rs c e)) as [->|[->|[Hq ->]]]; [apply keeps_refl| |].
  - split; [exact Ho|]. intros [Hi|[Hi|Hi]]; [apply exitinv_none, Hi|apply exitinv_exiting, Hi|].
    apply exitinv_idle. left. apply (vm_render_idle fuel rs (c_sep c) (s_lang (v_st (e_v e))) (e_v e) Hi).
  - (* the reset after the final flush *)
    split; [|intros _; apply exitinv_idle, eng_reset_inner_clean].
    unfold eout, vout. cbn [e_v]. rewrite eng_reset_inner_pg. exact Ho.
Qed.

(* runFirst runs on a private page without sizer and hands back the main VM's page untouched; its
   deferred calls leave DIRTY clear; the exit value it may take comes with r = false *)
Lemma run_first_spec fuel c lang e :
  let r := run_first fuel c lang e in
  v_pg (e_v (fst (fst r))) = v_pg (e_v e) /\ (ExitInv e -> ExitInv (fst (fst r)))
  /\ (snd (fst r) = true -> e_exit (fst (fst r)) = e_exit e).
Proof.
  cbv zeta. unfold run_first. destruct (c_first c) as [script|]; [|auto].
  destruct (st_down (v_st (e_v e)) first_sym) as [st1|er|n]; auto.
  match goal with |- context [run fuel ?a ?b ?c0 ?d ?v1] => destruct (run fuel a b c0 d v1) as [[v2 b2] s] end.
  set (st3 := resetf (resetf (v_st v2) FLAG_DIRTY) FLAG_TERMINATE).
  assert (H4 : getf (match st_up st3 with Ok (_, st') => st' | _ => st3 end) FLAG_DIRTY = false).
  { assert (H3 : getf st3 FLAG_DIRTY = false).
    { unfold st3. rewrite getf_resetf_other by discriminate. apply getf_resetf_same. }
    destruct (st_up st3) as [[x st']|er|n] eqn:Eu; try exact H3.
    apply NavProofs.st_up_flags in Eu. unfold getf in *. rewrite Eu. exact H3. }
  unfold cache_last.
  (* whatever the status of the run, the code it leaves and TERMINATE: the main page is put back, DIRTY is clear,
     and r = true comes without an exit value taken *)
  destruct s; [destruct b2; [destruct (getf (v_st v2) FLAG_TERMINATE)|]|..];
    (split; [reflexivity|split; [intros _; apply exitinv_idle; left; exact H4|try discriminate; reflexivity]]).
Qed.

Lemma set_code_eng_spec e code :
  keeps e (fst (set_code_eng e code)) /\ (snd (set_code_eng e code) = true -> e_exit (fst (set_code_eng e code)) = e_exit e).
Proof.
  rewrite set_code_eng_eq. cbv zeta. destruct code as [|x code].
  - destruct (getf (v_st (e_v e)) FLAG_DIRTY) eqn:Hd; (split; [|discriminate]);
      (apply keeps_pg; [reflexivity|intros _]).
    + apply exitinv_exiting. reflexivity.
    + apply exitinv_idle. left. exact Hd.
  - split; [|reflexivity]. apply keeps_pg; [reflexivity|exact (fun H => H)].
Qed.

(* steps of Init and Exec that leave the page and the exit value alone *)
Definition same_out (e e' : engine) : Prop := v_pg (e_v e') = v_pg (e_v e) /\ e_exit e' = e_exit e.
Lemma same_out_keeps e e' : e_exit e = [] -> same_out e e' -> keeps e e' /\ e_exit e' = [].
Proof. intros He [Hp Hx]. split; [apply keeps_pg; [exact Hp|intros _; apply exitinv_none; congruence]|congruence]. Qed.

Lemma take_input_out i e : same_out e (fst (take_input i e)).
Proof. rewrite take_input_eq. destruct (_ <? _); split; reflexivity. Qed.
Lemma unstale_out e : same_out e (fst (unstale e)).
Proof. apply (unstale_cases (fun x => same_out e (fst x))); split; try reflexivity. apply eng_reset_inner_pg. Qed.
Lemma reset_empty_out c i e : same_out e (fst (reset_empty c i e)).
Proof. apply (reset_empty_cases (fun x => same_out e (fst x))); split; try reflexivity. exact (eng_reset_inner_pg _). Qed.

Lemma prepare_keeps fuel rs c e : keeps e (fst (prepare fuel rs c e)).
Proof. apply (prepare_cases (fun x => keeps e (fst x))); intros _; [apply keeps_refl|apply eng_flush_keeps]. Qed.

(* init: after it has succeeded with cont = true there is no exit value; runFirst may take one, and then
   init does not go on *)
Lemma init_new_keeps fuel c e input : e_exit e = [] ->
  let r := init_new fuel c e input in
  keeps e (fst (fst r)) /\ (snd r = SOk -> snd (fst r) = true -> e_exit (fst (fst r)) = []).
Proof.
  intros He. cbv zeta. unfold init_new. destruct (same_out_keeps _ _ He (take_input_out input e)) as [K3 X3].
  apply then_ok_cases; [intros _|intros _; split; [exact K3|intros _ H; discriminate H]].
  destruct (run_first_spec fuel c (s_lang (v_st (e_v e))) (fst (take_input input e))) as (Hp & Hi & Hx). cbv zeta in Hp, Hi, Hx.
  pose proof (keeps_trans _ _ _ K3 (keeps_pg _ _ Hp Hi)) as K4.
  apply then_go_cases; [intros _ Hr|intros _; split; [exact K4|intros _ H; discriminate H]].
  rewrite X3 in Hx. destruct (same_out_keeps _ _ (Hx Hr) (unstale_out _)) as [K5 X5].
  apply then_ok_cases; [intros _|intros _; split; [exact (keeps_trans _ _ _ K4 K5)|intros _ H; discriminate H]].
  split; [|intros _ _; exact X5]. eapply keeps_trans; [exact (keeps_trans _ _ _ K4 K5)|].
  apply keeps_pg; [reflexivity|intros _; apply exitinv_none, X5].
Qed.

Lemma eng_init_keeps fuel rs c e input :
  let r := eng_init fuel rs c e input in
  keeps e (fst (fst r)) /\ (snd r = SOk -> snd (fst r) = true -> e_exit (fst (fst r)) = []).
Proof.
  cbv zeta. rewrite eng_init_steps. pose proof (prepare_keeps fuel rs c e) as K1.
  apply then_ok_cases; [intros _|intros _; split; [exact K1|intros _ H; discriminate H]].
  (* the exit value is dropped *)
  assert (K2 : keeps e (cleared (fst (prepare fuel rs c e))))
    by (eapply keeps_trans; [exact K1|apply keeps_pg; [reflexivity|intros _; apply exitinv_none; reflexivity]]).
  destruct (e_initd _); [split; [exact K2|reflexivity]|].
  destruct (init_new_keeps fuel c (cleared (fst (prepare fuel rs c e))) input eq_refl) as [K3 X3].
  split; [exact (keeps_trans _ _ _ K2 K3)|exact X3].
Qed.

(* exec: the code runs; nothing is claimed of an engine that enters with an exit value *)
Lemma eng_exec_inner_keeps fuel rs c e : e_exit e = [] -> keeps e (fst (fst (eng_exec_inner fuel rs c e))).
Proof.
  intros He. apply (eng_exec_inner_cases (fun x => keeps e (fst (fst x))));
    [intros _; apply keeps_pg; [reflexivity|intros _; apply exitinv_none, He]|].
  intros v1 b s _ Hrun. epose proof (run_out fuel rs _ _ _ _) as Hr. rewrite Hrun in Hr.
  assert (H1 : forall d, keeps e (mkEng v1 (e_initd e) (e_exit e) (e_exiting e) d)) by (intros d; split; [exact Hr|intros _; apply exitinv_none, He]).
  destruct s; try apply H1. destruct (getf (v_st v1) FLAG_TERMINATE); [apply H1|].
  exact (keeps_trans _ _ _ (H1 true) (proj1 (set_code_eng_spec _ b))).
Qed.

Lemma eng_exec_keeps fuel rs c e input : keeps e (fst (fst (eng_exec fuel rs c e input))).
Proof.
  rewrite eng_exec_steps. destruct (eng_init_keeps fuel rs c e input) as [K1 X1]. cbv zeta in K1, X1.
  apply then_go_fst; [exact K1|intros Hs Hc].
  unfold exec_tail. destruct (same_out_keeps _ _ (X1 Hs Hc) (reset_empty_out c input _)) as [K2 X2].
  pose proof (keeps_trans _ _ _ K1 K2) as K12. apply then_ok_fst; [exact K12|intros _].
  destruct (_ && negb _); [exact K12|]. destruct (same_out_keeps _ _ X2 (take_input_out input _)) as [K3 X3].
  pose proof (keeps_trans _ _ _ K12 K3) as K13. apply then_ok_fst; [exact K13|intros _].
  exact (keeps_trans _ _ _ K13 (eng_exec_inner_keeps fuel rs c _ X3)).
Qed.

Lemma request_long_keeps fuel rs c e input : keeps e (fst (request_long fuel rs c e input)).
Proof.
  rewrite request_long_finish. pose proof (eng_exec_keeps fuel rs c e input) as H1.
  apply long_finish_fst; [exact H1|exact (keeps_trans _ _ _ H1 (eng_flush_keeps fuel rs c _))].
Qed.

Inductive long_reach (rs : rsrc) (c : config) : engine -> Prop :=
| LReach0 snap w lg : long_reach rs c (new_engine c snap w lg)
| LReachS e fuel input : long_reach rs c e -> long_reach rs c (fst (request_long fuel rs c e input)).

(* Vm.Render: also when the first render raised BrowseError and the page of `_catch` is
   rendered instead, after arbitrary code ran *)
Lemma vm_render_fits32 fuel rs sep lang v v' out z :
  vout v = Some z -> 0 < z ->
  vm_render fuel rs sep lang v = (v', RROk out) -> w32 (len out) <= z.
Proof.
  intros Hz Hpos Hr.
  assert (H : forall o, snd (vm_render fuel rs sep lang v) = RROk o -> w32 (len o) <= z);
    [|apply H; rewrite Hr; reflexivity].
  apply vm_render_cases with (P := fun _ r => forall o, r = RROk o -> w32 (len o) <= z).
  - intros _ o [= <-]. apply N.le_0_l.
  - intros _ o [= <-]. apply N.le_0_l.
  - intros v1 r pg _ _ Hv1 Hp o Ho. destruct r; try discriminate Ho. injection Ho as ->.
    eapply page_render_fits32; [exact (eq_trans Hv1 Hz)|exact Hpos|exact Hp].
  - intros v1 r _ _ _ [->|[n ->]] o; discriminate.
Qed.

Lemma eng_flush_fits32 fuel rs c e e' out f :
  PgInv c (e_v e) -> 0 < c_out c ->
  eng_flush fuel rs c e = (e', out, f) -> w32 (len out) <= c_out c.
Proof.
  intros Hinv Hpos Hf. apply eng_flush_output in Hf. cbv zeta in Hf.
  destruct Hf as [[-> _]|[_ [Hover [-> [Hr _]]]]]; [rewrite w32_nil; lia|].
  destruct (vm_render fuel rs (c_sep c) (s_lang (v_st (e_v e))) (e_v e)) as [v r] eqn:Hv. cbn [snd] in *.
  assert (Hz : vout (e_v e) = Some (c_out c)).
  { unfold PgInv in Hinv. rewrite Hinv. assert (E : 0 <? c_out c = true) by lia. rewrite E. reflexivity. }
  assert (Hpage : w32 (len (flush_page r)) <= c_out c).
  { destruct Hr as [[page ->]|[er [-> _]]]; cbn [flush_page]; [|rewrite w32_nil; lia].
    eapply vm_render_fits32; [exact Hz|exact Hpos|exact Hv]. }
  destruct (e_exit e) as [|x ex] eqn:Ee; [rewrite app_nil_r; exact Hpage|].
  rewrite len_app, N.add_comm. apply flush_over_false; [exact Hpos|discriminate|exact Hover].
Qed.

Lemma request_long_fits32 fuel rs c e input :
  PgInv c (e_v e) -> 0 < c_out c ->
  w32 (len (r_out (snd (request_long fuel rs c e input)))) <= c_out c.
Proof.
  intros Hinv Hpos. unfold request_long.
  pose proof (keeps_inv c _ _ (eng_exec_keeps fuel rs c e input) Hinv) as H1.
  destruct (eng_exec fuel rs c e input) as [[e1 cont] s]. cbn [fst] in H1.
  destruct s; try apply N.le_0_l;
    destruct (eng_flush fuel rs c e1) as [[e2 out] f] eqn:Hf; cbn [snd r_out];
    eapply eng_flush_fits32; eassumption.
Qed.

(* Flush reports an error with a NON-EMPTY output only in two situations, and in neither is
   anything shortened:
     A. the page's render failed, an exit value exists and the engine is not exiting: the
        exit value alone is written and the render error returned;
     B. the engine is exiting, page ++ exit was written in full and the final reset failed —
        which happens exactly when the session has no position left (empty path). *)
Lemma eng_flush_err_cases fuel rs c e e' out er :
  eng_flush fuel rs c e = (e', out, FErr er) ->
  let vr := vm_render fuel rs (c_sep c) (s_lang (v_st (e_v e))) (e_v e) in
  out = []
  \/ (e_exiting e = false /\ snd vr = RRErr er /\ e_exit e <> [] /\ out = e_exit e)
  \/ (e_exiting e = true /\ er = EGen /\ s_path (v_st (fst vr)) = []
      /\ flush_over c (e_exit e) (snd vr) = false /\ out = flush_page (snd vr) ++ e_exit e).
Proof.
  intros Hf. apply eng_flush_output in Hf. cbv zeta in *.
  destruct Hf as [[-> _]|[_ [Hover [-> [Hr Hst]]]]]; [left; reflexivity|]. right.
  destruct (vm_render fuel rs (c_sep c) (s_lang (v_st (e_v e))) (e_v e)) as [v r]. cbn [fst snd] in *.
  destruct (e_exiting e).
  - right. destruct (eng_reset_inner_stat v) as [H|[H [Hp _]]]; rewrite H in Hst; cbn [f_of_stat] in Hst; [discriminate|].
    injection Hst as ->. auto.
  - left. destruct Hr as [[page ->]|[er' [-> Hne]]]; [discriminate|]. injection Hst as ->.
    cbn [flush_page List.app]. auto.
Qed.

Lemma eng_flush_err_empty fuel rs c e e' out er :
  ExitInv e ->
  eng_flush fuel rs c e = (e', out, FErr er) ->
  let vr := vm_render fuel rs (c_sep c) (s_lang (v_st (e_v e))) (e_v e) in
  out = []
  \/ (e_exiting e = true /\ er = EGen /\ s_path (v_st (fst vr)) = []
      /\ flush_over c (e_exit e) (snd vr) = false /\ out = flush_page (snd vr) ++ e_exit e).
Proof.
  intros Hi Hf. apply eng_flush_err_cases in Hf. cbv zeta in *.
  destruct Hf as [H|[[Hq [Hr [Hne _]]]|H]]; [left; exact H| |right; exact H].
  exfalso. destruct Hi as [Hi|[Hi|Hi]]; [congruence|congruence|].
  destruct (vm_render_idle fuel rs (c_sep c) (s_lang (v_st (e_v e))) (e_v e) Hi) as [Hidle _].
  rewrite Hidle in Hr. discriminate Hr.
Qed.

Lemma request_long_err fuel rs c e input er :
  ExitInv e ->
  r_flush (snd (request_long fuel rs c e input)) = FErr er ->
  r_out (snd (request_long fuel rs c e input)) = []
  \/ (er = EGen /\ e_exiting (fst (fst (eng_exec fuel rs c e input))) = true).
Proof.
  intros Hi. unfold request_long.
  pose proof (keeps_exit _ _ (eng_exec_keeps fuel rs c e input) Hi) as H1.
  destruct (eng_exec fuel rs c e input) as [[e1 cont] s]. cbn [fst] in *.
  destruct s; try (cbn [snd r_out]; left; reflexivity);
    destruct (eng_flush fuel rs c e1) as [[e2 out] f] eqn:Hf; cbn [snd r_out r_flush]; intros ->;
    (destruct (eng_flush_err_empty _ _ _ _ _ _ _ H1 Hf) as [H|[Hq [He _]]]; [left; exact H|right; split; assumption]).
Qed.

(* an exit value that does not fit is never dropped by a long-lived engine: every later request fails in prepare *)
Lemma exit_overflow_sticks fuel rs c e input :
  e_execd e = true -> e_exiting e = false -> getf (v_st (e_v e)) FLAG_DIRTY = false ->
  0 < c_out c -> 0 < len (e_exit e) -> c_out c < w32 (len (e_exit e)) ->
  exists cont, request_long fuel rs c e input = (e, mkResp cont (SErr EGen None) [] (FErr EGen)).
Proof.
  intros Hx Hq Hd Hpos Hex Hover. exists false. apply request_long_stuck; [intros _; auto|].
  unfold stuck, exit_over. rewrite N.add_0_r, Hx. lia.
Qed.

(* a history: for every request the fuel granted to the model's run loop and the client input *)
Fixpoint long_responses (rs : rsrc) (c : config) (e : engine) (h : list (nat * bytes)) : list response :=
  match h with
  | [] => []
  | (fuel, input) :: h' =>
    let '(e', r) := request_long fuel rs c e input in r :: long_responses rs c e' h'
  end.
Fixpoint pers_responses (rs : rsrc) (c : config) (p : pworld) (h : list (nat * bytes)) : list response :=
  match h with
  | [] => []
  | (fuel, input) :: h' =>
    let '(p', r) := request_persisted fuel rs c p input in r :: pers_responses rs c p' h'
  end.

Lemma request_persisted_resp fuel rs c p input :
  snd (request_persisted fuel rs c p input)
  = snd (request_long fuel rs c (new_engine c (pw_store p) (pw_w p) (pw_log p)) input).
Proof. rewrite request_persisted_long. destruct (request_long fuel rs c _ input). reflexivity. Qed.

Lemma responses_all rs c (I : engine -> Prop) (Q : response -> Prop) :
  (forall snap w lg, I (new_engine c snap w lg)) ->
  (forall fuel e input, I e -> I (fst (request_long fuel rs c e input)) /\ Q (snd (request_long fuel rs c e input))) ->
  forall h r, (forall e, I e -> In r (long_responses rs c e h) -> Q r)
              /\ (forall p, In r (pers_responses rs c p h) -> Q r).
Proof.
  intros Hnew Hreq. induction h as [|[fuel input] h IH]; intros r; [split; [intros e _ []|intros p []]|].
  destruct (IH r) as [IHl IHp]. split.
  - intros e Hi Hin. cbn [long_responses] in Hin. destruct (Hreq fuel e input Hi) as [Hi' Hq].
    destruct (request_long fuel rs c e input) as [e' r0]. destruct Hin as [<-|Hin]; [exact Hq|exact (IHl e' Hi' Hin)].
  - intros p Hin. cbn [pers_responses] in Hin. pose proof (request_persisted_resp fuel rs c p input) as Hr.
    destruct (request_persisted fuel rs c p input) as [p' r0]. destruct Hin as [<-|Hin]; [|exact (IHp p' Hin)].
    cbn [snd] in Hr. rewrite Hr. apply Hreq, Hnew.
Qed.

(* C01 over histories: from any engine satisfying the page invariant, and from any store *)
Lemma every_response_fits_from rs c h r :
  0 < c_out c ->
  (forall e, PgInv c (e_v e) -> In r (long_responses rs c e h) -> w32 (len (r_out r)) <= c_out c)
  /\ (forall p, In r (pers_responses rs c p h) -> w32 (len (r_out r)) <= c_out c).
Proof.
  intros Hpos. apply (responses_all rs c (fun e => PgInv c (e_v e)) (fun r => w32 (len (r_out r)) <= c_out c)).
  - apply new_engine_inv.
  - intros fuel e input Hinv.
    split; [exact (keeps_inv c _ _ (request_long_keeps fuel rs c e input) Hinv)|apply request_long_fits32; assumption].
Qed.

Lemma long_responses_fit32 rs c : forall h e r,
  PgInv c (e_v e) -> 0 < c_out c -> In r (long_responses rs c e h) -> w32 (len (r_out r)) <= c_out c.
Proof. intros h e r Hinv Hpos. exact (proj1 (every_response_fits_from rs c h r Hpos) e Hinv). Qed.

Lemma every_response_fits32 rs c h r :
  0 < c_out c ->
  In r (long_responses rs c (new_engine c None [] []) h) \/ In r (pers_responses rs c (mkPw None [] [] false) h) ->
  w32 (len (r_out r)) <= c_out c.
Proof.
  intros Hpos. destruct (every_response_fits_from rs c h r Hpos) as [Hl Hp].
  intros [Hin|Hin]; [exact (Hl _ (new_engine_inv c None [] []) Hin)|exact (Hp _ Hin)].
Qed.

Lemma every_response_fits rs c h r :
  0 < c_out c -> len (r_out r) < 4294967296 ->
  In r (long_responses rs c (new_engine c None [] []) h) \/ In r (pers_responses rs c (mkPw None [] [] false) h) ->
  len (r_out r) <= c_out c.
Proof.
  intros Hpos Hlen Hin. rewrite <- (w32_small (len (r_out r))) by exact Hlen.
  eapply every_response_fits32; eassumption.
Qed.

(* Fixtures of the Examples of props/C01.v (LoopProofs builds those of props/C20loop.v on them).  Every request
   gets fuel 3000, which none of them exhausts. *)
Definition wit_cfg30 : config := mkCfg 30 [] 1 0 [] [] false None.
Definition wit_hist (l : list string) : list (nat * bytes) := map (fun s => (3000%nat, s2b s)) l.
Definition wit_catch : bytes * bytes := (s2b "_catch", encode_prog [IHalt; IInCmp (s2b "_") (s2b "*")]).

(* corpus case menu-sink (go/cmd/vh/engine.go): five menu entries, MSINK, browse labels, size 30:
   C01_nonvacuous_menu_sink, C20loop_nonvacuous_flush_error *)
Definition wit_menu_sink : app :=
  mkApp
    [ (s2b "root", encode_prog [IMOut (s2b "aaa") (s2b "1"); IMOut (s2b "bbb") (s2b "2"); IMOut (s2b "ccc") (s2b "3");
                                IMOut (s2b "ddd") (s2b "4"); IMOut (s2b "eee") (s2b "5"); IMSink;
                                IMNext (s2b "nxt") (s2b "11"); IMPrev (s2b "prv") (s2b "22"); IHalt;
                                IInCmp (s2b ">") (s2b "11"); IInCmp (s2b "<") (s2b "22"); IInCmp (s2b "foo") (s2b "*")]);
      (s2b "foo", encode_prog [IHalt; IInCmp (s2b "_") (s2b "0")]);
      wit_catch ]
    [ (s2b "root", s2b "root"); (s2b "foo", s2b "foo"); (s2b "_catch", s2b "catch") ]
    [] [].
Definition wit_menu_sink_inputs : list (nat * bytes) := wit_hist [""; "11"; "11"; "22"; "11"; "11"; "11"]%string.

(* corpus case exit-overflow: the end node loads a value and halts; the value becomes the exit
   value.  50 bytes with the 3-byte page "bye" exceed 30; " see you" fits: C01_nonvacuous_exit_value,
   C01_exit_value_unchecked_would_exceed *)
Definition wit_exit_app (value : bytes) : app :=
  mkApp
    [ (s2b "root", encode_prog [IHalt; IInCmp (s2b "end1") (s2b "1")]);
      (s2b "end1", encode_prog [ILoad (s2b "bye") 0; IHalt]);
      wit_catch ]
    [ (s2b "root", s2b "root"); (s2b "end1", s2b "bye"); (s2b "_catch", s2b "catch") ]
    [] [ (s2b "bye", [mkFres value false 0 [] [] false]) ].
Definition wit_exit_inputs : list (nat * bytes) := wit_hist [""; "1"; ""; "1"]%string.
(* the engine of the second request between Exec and Flush *)
Definition wit_exit_engine (value : bytes) : engine :=
  let rs := app_rsrc (wit_exit_app value) in
  let e := fst (request_long 3000 rs wit_cfg30 (new_engine wit_cfg30 None [] []) []) in
  fst (fst (eng_exec 3000 rs wit_cfg30 e (s2b "1"))).

(* situation B of eng_flush_err_cases: code stored under the EMPTY symbol lets a session ascend
   out of its entry node and halt there; the exit value is written, the final reset fails:
   C01_reset_failure_reachable *)
Definition wit_nowhere : app :=
  mkApp
    [ (s2b "root", encode_prog [ILoad (s2b "val") 0; IHalt; IInCmp (s2b "_") (s2b "*")]);
      ([], encode_prog [IHalt]);
      wit_catch ]
    [ (s2b "root", s2b "root"); (s2b "_catch", s2b "catch") ]
    [] [ (s2b "val", [mkFres (s2b "bye") false 0 [] [] false]) ].

Definition resp_lens (l : list response) : list N := map (fun r => len (r_out r)) l.
Definition resp_flush (l : list response) : list fstat := map r_flush l.
Definition all_fit (c : config) (l : list response) : bool := forallb (fun r => len (r_out r) <=? c_out c) l.
