(* The engine model's resource tables (VmModel.app_rsrc) are the DbResource model over
   the memory store that buildResource loads, and that store answers as the C10 reference map. *)
From Coq Require Import Lia ZArith.
From Coq Require Import ZifyN ZifyNat ZifyBool.
From Vise Require Import Bytes Errors Consts VmModel DbKey DbModel BytesProofs DbProofs ResModel.
Local Open Scope N_scope.

Definition puts (t : N) (l : list (bytes * bytes)) (s : list (bytes * bytes)) : list (bytes * bytes) :=
  fold_left (fun s kv => aset (hex_enc (t :: fst kv)) (snd kv) s) l s.

Definition put_ctx (t : N) (st : dbstate) : Prop :=
  b_pfx (d_base st) = t /\ t <> 0 /\ sessioned t = false /\ check_put (d_base st) = true.

Lemma put_unsessioned t st k v : put_ctx t st ->
  db_step BMem st (OPut k v)
  = (with_store st (aset (hex_enc (t :: k ++ lang_suffix t (b_lang (d_base st)))) v (d_store st)), DOk).
Proof.
  intros (Hp & H0 & Hs & Hc). cbn [db_step]. unfold kv_put. rewrite Hc. cbn [negb].
  unfold to_key. rewrite Hp, (eqb_unknown _ H0).
  unfold to_session_key. rewrite Hs. cbn [lk_translation lk_default]. unfold to_db_key.
  destruct (lang_type t) eqn:Ht.
  - destruct (b_lang (d_base st)); reflexivity.
  - rewrite (lang_suffix_not_lang _ (b_lang (d_base st)) Ht). reflexivity.
Qed.

Lemma run_puts t l : forall st, put_ctx t st -> b_lang (d_base st) = None ->
  fst (db_run BMem st (map put_op l)) = with_store st (puts t l (d_store st)).
Proof.
  induction l as [|[k v] l IH]; intros st H Hl.
  - cbn. destruct st; reflexivity.
  - cbn [map]. rewrite db_run_cons. unfold put_op at 1. cbn [fst snd].
    rewrite (put_unsessioned t st k v H), Hl. cbn [fst lang_suffix]. rewrite app_nil_r, IH; [|exact H|exact Hl].
    cbn [with_store d_base d_store d_dir puts fold_left fst snd]. reflexivity.
Qed.

Lemma hex_cons_inj t k t' k' : hex_enc (t :: k) = hex_enc (t' :: k') -> t = t' /\ k = k'.
Proof. intros E. apply hex_enc_inj in E. injection E as -> ->. auto. Qed.

Lemma nodup_keys_cons x r : nodup_keys (x :: r) = true -> mem_bytes x r = false /\ nodup_keys r = true.
Proof. cbn [nodup_keys]. intros H. apply andb_true_iff in H as [H1 H2]. apply negb_true_iff in H1. auto. Qed.
Lemma mem_bytes_alookup k (l : list (bytes * bytes)) : mem_bytes k (map fst l) = false -> alookup k l = None.
Proof.
  induction l as [|[k' v'] l IH]; [reflexivity|]. cbn [map fst mem_bytes alookup]. intros H.
  apply orb_false_iff in H as [H1 H2]. rewrite H1. apply IH. exact H2.
Qed.

Lemma lookup_puts_same t l : nodup_keys (map fst l) = true -> forall s k,
  alookup (hex_enc (t :: k)) (puts t l s)
  = match alookup k l with Some v => Some v | None => alookup (hex_enc (t :: k)) s end.
Proof.
  induction l as [|[k0 v0] l IH]; intros Hn s k; [reflexivity|].
  cbn [map fst] in Hn. apply nodup_keys_cons in Hn as [Hm Hn].
  unfold puts. cbn [fold_left fst snd alookup]. fold (puts t l (aset (hex_enc (t :: k0)) v0 s)).
  rewrite (IH Hn). destruct (bytes_eqb k k0) eqn:E.
  - apply bytes_eqb_eq in E. subst k0. rewrite (mem_bytes_alookup _ _ Hm). apply alookup_aset_same.
  - destruct (alookup k l); [reflexivity|]. apply alookup_aset_other.
    intros H. apply hex_cons_inj in H as [_ H]. subst k0. rewrite bytes_eqb_refl in E. discriminate.
Qed.
Lemma lookup_puts_other t t' l : t <> t' -> forall s k,
  alookup (hex_enc (t' :: k)) (puts t l s) = alookup (hex_enc (t' :: k)) s.
Proof.
  intros Hne. induction l as [|[k0 v0] l IH]; intros s k; [reflexivity|].
  unfold puts. cbn [fold_left fst snd]. fold (puts t l (aset (hex_enc (t :: k0)) v0 s)).
  rewrite IH. apply alookup_aset_other. intros H. apply hex_cons_inj in H as [H _]. congruence.
Qed.

Definition loaded_store (a : app) : list (bytes * bytes) :=
  puts DATATYPE_MENU (a_menu a) (puts DATATYPE_TEMPLATE (a_tpl a) (puts DATATYPE_BIN (a_code a) [])).
Definition loaded_base : base := mkBase DATATYPE_MENU [] None safe_lock true.

Lemma run_table t l rest st : put_ctx t (with_base st (set_prefix (d_base st) t)) -> b_lang (d_base st) = None ->
  fst (db_run BMem st (OSetPrefix t :: map put_op l ++ rest))
  = fst (db_run BMem (with_store (with_base st (set_prefix (d_base st) t)) (puts t l (d_store st))) rest).
Proof.
  intros H Hl. rewrite db_run_cons. cbn [db_step fst]. rewrite db_run_app. cbn [fst].
  rewrite (run_puts t l _ H Hl). reflexivity.
Qed.

Lemma unlock4_run : fst (db_run BMem (db_init []) unlock4) = mkDb (mkBase 0 [] None 0 false) [] [].
Proof. reflexivity. Qed.

Lemma load_app_eq a : load_app a = mkDb loaded_base (loaded_store a) [].
Proof.
  unfold load_app, load_ops. rewrite db_run_app. cbn [fst].
  rewrite unlock4_run.
  rewrite !run_table; [reflexivity|..]; repeat split; try reflexivity; discriminate.
Qed.

Lemma wf_res_keys_spec a : wf_res_keys a = true ->
  nodup_keys (map fst (a_code a)) = true /\ nodup_keys (map fst (a_tpl a)) = true /\ nodup_keys (map fst (a_menu a)) = true.
Proof. unfold wf_res_keys. rewrite !andb_true_iff. intros [[H1 H2] H3]. auto. Qed.

Lemma loaded_lookup a : wf_res_keys a = true ->
  (forall k, alookup (hex_enc (DATATYPE_BIN :: k)) (loaded_store a) = alookup k (a_code a))
  /\ (forall k, alookup (hex_enc (DATATYPE_TEMPLATE :: k)) (loaded_store a) = alookup k (a_tpl a))
  /\ (forall k, alookup (hex_enc (DATATYPE_MENU :: k)) (loaded_store a) = alookup k (a_menu a)).
Proof.
  intros H. apply wf_res_keys_spec in H as [Hc [Ht Hm]]. unfold loaded_store. repeat split; intros k.
  - rewrite lookup_puts_other by discriminate. rewrite lookup_puts_other by discriminate.
    rewrite (lookup_puts_same _ _ Hc). destruct (alookup k (a_code a)); reflexivity.
  - rewrite lookup_puts_other by discriminate. rewrite (lookup_puts_same _ _ Ht).
    destruct (alookup k (a_tpl a)); [reflexivity|]. apply lookup_puts_other. discriminate.
  - rewrite (lookup_puts_same _ _ Hm). destruct (alookup k (a_menu a)); [reflexivity|].
    rewrite lookup_puts_other by discriminate. apply lookup_puts_other. discriminate.
Qed.

(* a language-scoped type outside the sessions whose table the store holds under its type byte: the
   templates and the menu labels of the loaded store *)
Definition scoped_table (store : list (bytes * bytes)) (t : N) (tbl : list (bytes * bytes)) : Prop :=
  lang_type t = true /\ sessioned t = false /\ t <> 0
  /\ forall k, alookup (hex_enc (t :: k)) store = alookup k tbl.
Lemma tpl_table a : wf_res_keys a = true -> scoped_table (loaded_store a) DATATYPE_TEMPLATE (a_tpl a).
Proof. intros H. repeat split; [discriminate|apply (loaded_lookup a H)]. Qed.
Lemma menu_table a : wf_res_keys a = true -> scoped_table (loaded_store a) DATATYPE_MENU (a_menu a).
Proof. intros H. repeat split; [discriminate|apply (loaded_lookup a H)]. Qed.

Definition found (o : option bytes) : dbres := match o with Some v => DVal v | None => DErr ENotFound end.
Lemma found_inj o o' : found o = found o' -> o = o'.
Proof. destruct o, o'; intros H; inversion H; reflexivity. Qed.

Lemma kv_get_table store dir t lock seal (tbl : list (bytes * bytes)) lang key :
  res_lang_ok lang = true -> scoped_table store t tbl ->
  kv_get hex_enc (mkDb (mkBase t [] lang lock seal) store dir) key = found (lookup_lang tbl key lang).
Proof.
  intros Hl (Ht & Hs & H0 & Hlk). unfold kv_get, to_key. cbn [d_base d_store b_pfx b_lang b_sid].
  rewrite (eqb_unknown _ H0). unfold to_session_key. rewrite Hs, Ht. cbn [lk_translation lk_default]. unfold to_db_key. cbn [lang_suffix]. rewrite app_nil_r.
  destruct lang as [l|]; [|rewrite Hlk; reflexivity].
  cbn [res_lang_ok] in Hl. apply N.eqb_eq in Hl. destruct l as [|x l]; [cbn in Hl; discriminate|].
  cbn [lang_suffix lookup_lang]. rewrite Ht, !Hlk. change (key ++ us ++ x :: l) with (key ++ ch_us :: x :: l).
  destruct (alookup (key ++ ch_us :: x :: l) tbl); reflexivity.
Qed.

(* DbResource.fn on the loaded store (sealed, so mustSafe passes): a Get under the type asked for, with
   the language from the context *)
Lemma res_fn_loaded a t lang key :
  res_fn (res_prefix (mkDb loaded_base (loaded_store a) []) t) lang key
  = res_of (kv_get hex_enc (mkDb (mkBase t [] lang safe_lock true) (loaded_store a) []) key).
Proof. destruct lang; reflexivity. Qed.

Lemma res_fn_lang a t (tbl : list (bytes * bytes)) lang key :
  res_lang_ok lang = true -> scoped_table (loaded_store a) t tbl ->
  res_fn (res_prefix (mkDb loaded_base (loaded_store a) []) t) lang key
  = match lookup_lang tbl key lang with Some v => Ok v | None => Err ENotFound end.
Proof.
  intros Hl T. rewrite res_fn_loaded, (kv_get_table _ _ t safe_lock true tbl lang key Hl T).
  destruct (lookup_lang tbl key lang); reflexivity.
Qed.

Lemma skipn_nth {A} (d : A) : forall i (l : list A), (i < List.length l)%nat -> skipn i l = nth i l d :: skipn (S i) l.
Proof.
  induction i as [|i IH]; intros [|x l] H; cbn [List.length] in H; try lia; [reflexivity|].
  cbn [skipn nth]. apply IH. lia.
Qed.

Lemma split_key_spec k :
  match snd (split_key k) with
  | Some c => k = fst (split_key k) ++ ch_us :: c /\ len c = 3
  | None => fst (split_key k) = k
  end.
Proof.
  unfold split_key. destruct ((4 <=? len k) && (nth (N.to_nat (len k - 4)) k 0 =? ch_us)) eqn:E; [|reflexivity].
  cbn [fst snd]. apply andb_true_iff in E as [E1 E2]. apply N.leb_le in E1. apply N.eqb_eq in E2.
  split.
  - unfold take, drop. rewrite <- (firstn_skipn (N.to_nat (len k - 4)) k) at 1. f_equal.
    rewrite (skipn_nth 0) by (unfold len in *; lia). rewrite E2. f_equal. f_equal. unfold len in *. lia.
  - rewrite len_drop. lia.
Qed.

(* load_ops_tr writes the same tables through the language-scoped API (SetLanguage + Put of the bare symbol)
   where load_ops Puts the raw key "sym_lng": the lemmas below redo run_puts / run_table / load_app_eq for it and
   arrive at the same handle (load_tr_eq).  Both are needed: load_ops is what buildResource does, load_ops_tr is the
   history the C10 reference map is stated over (lookup_hist) *)
Lemma put_tr_step t st k v : put_ctx t st -> lang_type t = true ->
  fst (db_run BMem st (put_tr (k, v)))
  = mkDb (set_language (d_base st) (snd (split_key k))) (aset (hex_enc (t :: k)) v (d_store st)) (d_dir st).
Proof.
  intros H Ht. unfold put_tr. cbn [fst snd].
  rewrite db_run_cons. cbn [db_step fst]. rewrite db_run_cons. cbn [db_run fst].
  rewrite (put_unsessioned t (with_base st (set_language (d_base st) (snd (split_key k)))) _ v H).
  cbn [fst with_base with_store d_base d_store d_dir set_language b_lang].
  pose proof (split_key_spec k) as Hk. destruct (snd (split_key k)) as [c|].
  - destruct Hk as [Hk Hlen]. rewrite (lang_suffix_some _ _ Ht Hlen), <- Hk. reflexivity.
  - cbn [lang_suffix]. rewrite app_nil_r, Hk. reflexivity.
Qed.

(* the language the handle is left with *)
Definition last_lang (l : list (bytes * bytes)) (lg : option bytes) : option bytes :=
  fold_left (fun _ kv => snd (split_key (fst kv))) l lg.

Lemma run_puts_tr t l : lang_type t = true -> forall st, put_ctx t st ->
  fst (db_run BMem st (flat_map put_tr l))
  = mkDb (set_language (d_base st) (last_lang l (b_lang (d_base st)))) (puts t l (d_store st)) (d_dir st).
Proof.
  intros Ht. induction l as [|[k v] l IH]; intros st H.
  - cbn. destruct st as [[p s lg lk sl] store dir]. reflexivity.
  - cbn [flat_map]. rewrite db_run_app. cbn [fst]. rewrite (put_tr_step t st k v H Ht), IH; [reflexivity|exact H].
Qed.

Lemma run_table_tr t l rest st : lang_type t = true -> put_ctx t (with_base st (set_prefix (d_base st) t)) ->
  fst (db_run BMem st (OSetPrefix t :: flat_map put_tr l ++ rest))
  = fst (db_run BMem (mkDb (set_language (set_prefix (d_base st) t) (last_lang l (b_lang (d_base st))))
                           (puts t l (d_store st)) (d_dir st)) rest).
Proof.
  intros Ht H. rewrite db_run_cons. cbn [db_step fst]. rewrite db_run_app. cbn [fst].
  rewrite (run_puts_tr t l Ht _ H). reflexivity.
Qed.

Lemma load_tr_eq a : fst (db_run BMem (db_init []) (load_ops_tr a)) = mkDb loaded_base (loaded_store a) [].
Proof.
  unfold load_ops_tr. rewrite db_run_app. cbn [fst].
  rewrite unlock4_run.
  rewrite run_table, !run_table_tr; [reflexivity|..]; repeat split; try reflexivity; discriminate.
Qed.

Lemma last3 {A} (l : list A) a b c d : last (l ++ [a; b; c]) d = c.
Proof. replace (l ++ [a; b; c]) with ((l ++ [a; b]) ++ [c]) by (rewrite <- app_assoc; reflexivity). apply last_last. Qed.

Lemma db_lookup_hist a t lang key :
  last (db_results BMem [] (lookup_hist a t lang key)) DOk
  = kv_get hex_enc (mkDb (mkBase t [] lang safe_lock true) (loaded_store a) []) key.
Proof.
  unfold db_results, lookup_hist. rewrite db_run_app. cbn [snd]. rewrite load_tr_eq.
  cbn [db_run db_step snd]. rewrite last3. reflexivity.
Qed.
Lemma spec_lookup_hist h t lang key :
  last (spec_results (h ++ [OSetPrefix t; OSetLanguage lang; OGet key])) DOk
  = spec_get (mkSpec (set_language (set_prefix (sp_base (ref_state h)) t) lang) (sp_map (ref_state h))) key.
Proof.
  unfold spec_results, ref_state. rewrite spec_run_app. cbn [snd spec_run spec_step sp_base sp_map].
  rewrite last3. reflexivity.
Qed.

Definition tpl_key (l : option bytes) (sym : bytes) : akey := mkAkey DATATYPE_TEMPLATE None l sym.
Definition menu_key (l : option bytes) (sym : bytes) : akey := mkAkey DATATYPE_MENU None l sym.

(* translation if one was stored, else the default-language entry, else not found *)
Definition ref_lookup (m : list (akey * bytes)) (t : N) (lang : option bytes) (key : bytes) : option bytes :=
  match match lang with Some l => slookup (mkAkey t None (Some l) key) m | None => None end with
  | Some v => Some v
  | None => slookup (mkAkey t None None key) m
  end.

Lemma spec_get_lang b m t lang key :
  res_lang_ok lang = true -> lang_type t = true -> sessioned t = false -> t <> 0 ->
  spec_get (mkSpec (set_language (set_prefix b t) lang) m) key = found (ref_lookup m t lang key).
Proof.
  intros Hl Ht Hs H0. unfold spec_get, ref_lookup, eff_lang, ctx_akey. cbn [sp_base sp_map set_language set_prefix b_pfx b_lang].
  rewrite (eqb_unknown _ H0), Ht, Hs.
  destruct lang as [l|]; [|reflexivity].
  cbn [res_lang_ok] in Hl. apply N.eqb_eq in Hl. destruct l as [|x l]; [cbn in Hl; discriminate|].
  destruct (slookup (mkAkey t None (Some (x :: l)) key) m); reflexivity.
Qed.

Lemma lookup_via_reference a t (tbl : list (bytes * bytes)) lang key :
  res_lang_ok lang = true -> scoped_table (loaded_store a) t tbl ->
  hist_ok spec_init (lookup_hist a t lang key) = true ->
  lookup_lang tbl key lang = ref_lookup (sp_map (ref_state (load_ops_tr a))) t lang key.
Proof.
  intros Hl T Hok. pose proof T as (Ht & Hs & H0 & _).
  pose proof (kv_refines_spec BMem [] _ eq_refl Hok) as E. apply (f_equal (fun r => last r DOk)) in E.
  rewrite db_lookup_hist in E. unfold lookup_hist in E.
  rewrite spec_lookup_hist, (kv_get_table _ _ t safe_lock true tbl lang key Hl T), (spec_get_lang _ _ t lang key Hl Ht Hs H0) in E.
  exact (found_inj _ _ E).
Qed.
