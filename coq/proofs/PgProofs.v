(* The Postgres backend model (C13): for ALL operation sequences, ALL
   initial contents and ALL fault oracles.
   Method: whenever an operation returns, the store is described by five things: pdb.tx with its
   pending writes (then the only open transaction), pdb.multi, the language, the committed data and
   whether the pool is closed (settled). Each operation is walked through once, one oracle bit per driver
   call, and what comes out is recorded as its outcome in these terms (put_out ... dump_out, step_out).
   The per-step facts (shape, faults reported, the invariant Inv between the store and the client's
   bookkeeping) are read off the outcomes; the history-level theorems follow by induction over the
   operation list. *)
From Vise Require Import Bytes Errors Consts PgTx BytesProofs.
Local Open Scope N_scope.

Definition kv_equiv (a b : list (bytes * bytes)) : Prop := forall k, alookup k a = alookup k b.

Lemma alookup_apply_kv p b k : alookup k (apply_kv p b) = read_kv p b k.
Proof.
  unfold read_kv. induction p as [|[k' v] p IH]; cbn; [now destruct (alookup k b)|].
  destruct (bytes_eqb k k') eqn:E.
  - apply bytes_eqb_eq in E. subst. apply alookup_aset_same.
  - apply beqb_false in E. rewrite alookup_aset_other by assumption. exact IH.
Qed.

Lemma read_kv_equiv p a b k : kv_equiv a b -> read_kv p a k = read_kv p b k.
Proof. intros H. unfold read_kv. now rewrite H. Qed.

Lemma kv_equiv_apply p a b : kv_equiv a b -> kv_equiv (apply_kv p a) (apply_kv p b).
Proof. intros H k. rewrite !alookup_apply_kv. apply read_kv_equiv, H. Qed.

Lemma alookup_ainsert k k' (v : bytes) l :
  alookup k (ainsert k' v l) = if bytes_eqb k k' then Some v else alookup k l.
Proof.
  induction l as [|[k2 v2] l IH]; cbn; [reflexivity|].
  destruct (bytes_leb k' k2) eqn:L; cbn; [reflexivity|].
  rewrite IH. destruct (bytes_eqb k k2) eqn:E2; [|reflexivity].
  apply bytes_eqb_eq in E2. subst k2.
  destruct (bytes_eqb k k') eqn:E; [|reflexivity].
  apply bytes_eqb_eq in E. subst k'. rewrite bytes_leb_refl in L. discriminate.
Qed.

Lemma alookup_asort k (l : list (bytes * bytes)) : alookup k (asort l) = alookup k l.
Proof.
  unfold asort. induction l as [|[k' v] l IH]; cbn; [reflexivity|].
  rewrite alookup_ainsert. now rewrite IH.
Qed.

Lemma opt_bytes_eqb_refl o : opt_bytes_eqb o o = true.
Proof. destruct o; cbn; [apply bytes_eqb_refl|reflexivity]. Qed.

Lemma kv_agree_sorted a b : kv_equiv b a -> kv_agree a (asort b) = true.
Proof.
  intros H. apply forallb_forall. intros k _. rewrite alookup_asort, H. apply opt_bytes_eqb_refl.
Qed.

Lemma existsb_rev {A} (f : A -> bool) l : existsb f (rev l) = existsb f l.
Proof.
  induction l as [|a l IH]; [reflexivity|]. cbn. rewrite existsb_app, IH. cbn. rewrite orb_false_r. apply orb_comm.
Qed.

Lemma to_key_no_panic [c k n] : to_key c k <> Panic n.
Proof. unfold to_key. destruct (c_pfx c =? DATATYPE_UNKNOWN); discriminate. Qed.

Lemma iter_no_done c id base : forall rest orc, has_done (fst (fst (dump_iter c id base rest orc))) = false.
Proof.
  induction rest as [|[kk vv] rest IH]; intros orc; cbn [dump_iter]; [destruct (hd false orc); reflexivity|].
  destruct (hd false orc); [reflexivity|]. destruct (hd false (tl orc)); [reflexivity|].
  destruct (negb (is_prefix base kk)); [reflexivity|]. destruct (decode_key c kk); [|reflexivity].
  specialize (IH (tl (tl orc))). destruct (dump_iter c id base rest (tl (tl orc))) as [[evs orc'] rows].
  unfold has_done in *. cbn [fst] in *. rewrite existsb_app, IH. reflexivity.
Qed.

(* the driver calls, on the newest open transaction: pg.go only ever calls into the transaction it began
   last (pdb.tx, or Dump's own next to it), so every lookup in the store's list of open transactions hits its head. srv_begin, srv_next, srv_scan and
   srv_close look nothing up and are used as they are defined. *)
Lemma srv_exec_hd s t p l k v : s_open s = (t, p) :: l ->
  srv_exec s t k v = if hd false (s_orc s) then (emit (snd (tick s)) KExec t 1, Err EFault)
                     else (emit (set_open (snd (tick s)) ((t, aset k v p) :: l)) KExec t 0, Ok tt).
Proof. intros H. unfold srv_exec. cbn. rewrite H. cbn. rewrite N.eqb_refl. reflexivity. Qed.

Lemma srv_query_hd s t p l k : s_open s = (t, p) :: l ->
  srv_query s t k = if hd false (s_orc s) then (emit (snd (tick s)) KQuery t 1, Err EFault)
                    else (emit (snd (tick s)) KQuery t 0, Ok (read_kv p (s_comm s) k)).
Proof. intros H. unfold srv_query. cbn. rewrite H. cbn. rewrite N.eqb_refl. reflexivity. Qed.

Lemma srv_dquery_hd s t p l k : s_open s = (t, p) :: l ->
  srv_dquery s t k = if hd false (s_orc s) then (emit (snd (tick s)) KQuery t 1, Err EFault)
                     else (emit (snd (tick s)) KQuery t 0, Ok (rows_from k (apply_kv p (s_comm s)))).
Proof. intros H. unfold srv_dquery. cbn. rewrite H. cbn. rewrite N.eqb_refl. reflexivity. Qed.

Lemma srv_commit_hd s t p l : s_open s = (t, p) :: l ->
  srv_commit s t = if hd false (s_orc s) then (emit (set_open (snd (tick s)) l) KCommit t 1, Err EFault)
                   else (emit (set_comm (set_open (snd (tick s)) l) (apply_kv p (s_comm s))) KCommit t 0, Ok tt).
Proof. intros H. unfold srv_commit. cbn. rewrite H. cbn. rewrite N.eqb_refl. reflexivity. Qed.

Lemma srv_rollback_hd s t p l : s_open s = (t, p) :: l ->
  srv_rollback s t = (emit (set_open (snd (tick s)) l) KRollback t (if hd false (s_orc s) then 1 else 0),
                      if hd false (s_orc s) then Err EFault else Ok tt).
Proof.
  intros H. unfold srv_rollback. cbn. rewrite H. cbn. rewrite N.eqb_refl. destruct (hd false (s_orc s)); reflexivity.
Qed.

Definition olist (x : option (N * kv)) : list (N * kv) := match x with Some e => [e] | None => [] end.
Definition st_of (x : option (N * kv)) (multi : bool) (lang : option bytes) (comm : kv) (closed : bool)
    (next : N) (log : list pev) (orc : list bool) : pg :=
  mkPg (option_map fst x) multi lang (mkSrv comm (olist x) next closed log orc).
Definition settled (st : pg) x multi lang comm closed : Prop :=
  exists next log orc, st = st_of x multi lang comm closed next log orc.

(* where an operation ends, having made no call on a finished transaction; no fault fired in it *)
Definition lands (st : pg) x multi lang comm closed : Prop :=
  settled st x multi lang comm closed /\ has_done (s_log (p_srv st)) = false.
Definition quiet (st : pg) : Prop := has_fault (s_log (p_srv st)) = false.

(* a Put or Get can get a transaction: it has one, or the pool is open *)
Definition pending (x : option (N * kv)) : kv := match x with Some e => snd e | None => [] end.
Definition usable (x : option (N * kv)) (closed : bool) : bool := match x with Some _ => true | None => negb closed end.

(* Walking through an operation from a settled state: unglue unfolds the glue between the driver calls;
   call L rewrites the next call by its lemma L above and splits on its oracle bit, bit does so for a
   call that looks nothing up. At the end of a path state and result are explicit, and landed_at closes
   the claimed outcome by computation, side (left or right) choosing in `failed`: a path that fails
   before any call on a transaction (lock, key, Begin) leaves things as they were and ends in landed;
   ends L is call L on the last call of a path, after which a failed Put or Get has lost its transaction
   (rolled back, or in a failed Commit). stop_single is pg_stop_single, where a successful Put or Get
   ends: nothing to do under pdb.multi, else Commit.
   landed_at goes by the head of the claim. A defined notion (a *_post of the explicit pair, failed, kept,
   lands, quiet) is opened by hnf, which also picks the case of the result at hand, `progress` stopping
   the recursion at a claim this path does not meet. A premise of the claim (no fault logged, the
   transaction usable, a fault after Commit) is false on a path where it does not apply: discriminate
   refutes it, after cbn where it is a test over the explicit log; otherwise it is kept for the
   `assumption` at the end. What is left are equations between explicit terms. *)
Ltac unglue :=
  cbv beta iota zeta delta [pg_begin_if pg_abort pg_stop_single pg_stop_ dump_commit srv_begin srv_next srv_scan srv_close
    tick emit set_open set_comm set_srv clear_log res_unit res_val st_of olist pending option_map negb fst snd
    p_tx p_multi p_lang p_srv s_comm s_open s_next s_closed s_log s_orc].
Ltac bit := destruct (hd false _); unglue.
Ltac call L := erewrite L by reflexivity; bit.
Ltac landed_at side :=
  lazymatch goal with
  | |- _ \/ _ => side; landed_at side
  | |- _ /\ _ => split; landed_at side
  | |- exists _, _ => eexists; landed_at side
  | |- settled _ _ _ _ _ _ => do 3 eexists; reflexivity
  | |- _ -> _ => let H := fresh in intro H; first [discriminate H | cbn in H; discriminate H | landed_at side]
  | _ => first [reflexivity | assumption | progress hnf; cbn [fst snd]; landed_at side]
  end.
Ltac landed := landed_at ltac:(left).
Ltac ends L := call L; landed_at ltac:(right).
Ltac stop_single multi := destruct multi; unglue; [landed | ends srv_commit_hd].

(* A Put or Get that fails leaves things as they were or, once it has a transaction, with that rolled
   back or lost in a failed Commit. One that succeeds met no fault and has its transaction, with the
   writes p, kept open (pdb.multi) or committed. *)
Definition failed x multi lang comm closed (st : pg) : Prop :=
  lands st x multi lang comm closed \/ lands st None multi lang comm closed.
Definition kept x (multi : bool) lang comm closed (p : kv) (st : pg) : Prop :=
  quiet st /\ usable x closed = true /\
  if multi then exists t, lands st (Some (t, p)) multi lang comm closed
  else lands st None multi lang (apply_kv p comm) closed.

Definition put_post x multi lang comm closed (key : option bytes) v (sr : pg * pres) : Prop :=
  match snd sr with
  | PErr _ => failed x multi lang comm closed (fst sr)
  | POk => key <> None /\
      kept x multi lang comm closed (match key with Some ak => aset ak v (pending x) | None => pending x end) (fst sr)
  | _ => False
  end.

Lemma put_out ce x multi lang comm closed next orc k v :
  put_post x multi lang comm closed (put_key ce k) v (pg_put ce (st_of x multi lang comm closed next [] orc) k v).
Proof.
  unfold pg_put, put_key. destruct (check_put ce); unglue; [|landed].
  destruct (to_key ce k) as [[def [tk|]]|e|n] eqn:K; [| |landed|destruct (to_key_no_panic K)].
  all: destruct x as [[t p]|]; unglue.
  (* goals 2 and 4 have no transaction yet (x = None, key translated or not): Begin first *)
  2,4: bit; [landed|destruct closed; [landed|]]; unglue.
  all: call srv_exec_hd; [ends srv_rollback_hd|]; stop_single multi.
Qed.

Definition get_post x multi lang comm closed (spec : pres) (sr : pg * pres) : Prop :=
  (quiet (fst sr) -> usable x closed = true -> snd sr = spec) /\
  match snd sr with
  | PErr _ => failed x multi lang comm closed (fst sr)
  | PVal _ => kept x multi lang comm closed (pending x) (fst sr)
  | _ => False
  end.

(* the lookup of the default key, first or after the translated key was not found *)
Lemma getd_out x t multi lang comm closed next log orc def :
  has_done log = false -> has_fault log = false -> usable x closed = true ->
  get_post x multi lang comm closed (match read_kv (pending x) comm def with Some v => PVal v | None => PErr ENotFound end)
    (pg_get_default (st_of (Some (t, pending x)) multi lang comm closed next log orc) t def).
Proof.
  intros Hd Hf Hu. unfold pg_get_default. unglue.
  call srv_query_hd; [ends srv_rollback_hd|]. bit; [ends srv_rollback_hd|].
  destruct (read_kv _ _ def); unglue; [|ends srv_rollback_hd]. bit; [ends srv_rollback_hd|stop_single multi].
Qed.

Definition get_spec (ce : pcfg) (x : option (N * kv)) (comm : kv) (k : bytes) : pres :=
  match to_key ce k with
  | Ok (def, tr) => spec_get (read_kv (pending x) comm) def tr
  | Err e => PErr e
  | Panic _ => PPanic
  end.

Lemma get_out ce x multi lang comm closed next orc k :
  get_post x multi lang comm closed (get_spec ce x comm k) (pg_get ce (st_of x multi lang comm closed next [] orc) k).
Proof.
  unfold pg_get, get_spec, spec_get.
  destruct (to_key ce k) as [[def tr]|e|n] eqn:K; [|landed|destruct (to_key_no_panic K)].
  destruct x as [[t p]|]; unglue.
  (* x = None: Begin first *)
  2: bit; [landed|destruct closed; [landed|]]; unglue.
  all: destruct tr as [tk|]; [|apply getd_out; reflexivity].
  all: call srv_query_hd; [ends srv_rollback_hd|]; bit; [ends srv_rollback_hd|].
  all: destruct (read_kv _ _ tk); unglue; [|apply getd_out; reflexivity]. 
  all: bit; [ends srv_rollback_hd|stop_single multi].
Qed.

Definition start_post x multi lang comm closed (sr : pg * pres) : Prop :=
  match snd sr with
  | PErr _ => lands (fst sr) x multi lang comm closed
  | POk => quiet (fst sr) /\ x = None /\ closed = false /\ exists t, lands (fst sr) (Some (t, [])) true lang comm closed
  | _ => False
  end.

Lemma start_out x multi lang comm closed next orc :
  start_post x multi lang comm closed (pg_start (st_of x multi lang comm closed next [] orc)).
Proof.
  unfold pg_start. destruct x as [[t p]|]; unglue; [landed|]. bit; [landed|]. destruct closed; unglue; landed.
Qed.

(* Stop and Close (closed' = is the pool closed afterwards): with pdb.multi the transaction is gone
   whatever Commit returned *)
Definition stop_post x (multi : bool) lang comm closed' (sr : pg * pres) : Prop :=
  lands (fst sr) (if multi then None else x) multi lang (if pres_eqb (snd sr) POk then apply_kv (pending x) comm else comm) closed' /\
  match snd sr with
  | POk => quiet (fst sr) /\ multi = true
  | PErr _ => True
  | _ => False
  end.

Lemma stop_out x multi lang comm closed next orc :
  let st := st_of x multi lang comm closed next [] orc in
  stop_post x multi lang comm closed (pg_stop st) /\ stop_post x multi lang comm true (pg_close st).
Proof.
  unfold pg_close, pg_stop. destruct multi; unglue; [|landed]. destruct x as [[t p]|]; unglue; [call srv_commit_hd|]; landed.
Qed.

Lemma abort_out x multi lang comm closed next orc :
  lands (pg_abort (st_of x multi lang comm closed next [] orc)) None multi lang comm closed.
Proof. destruct x as [[t p]|]; unglue; [call srv_rollback_hd|]; landed. Qed.

(* Dump ends its own transaction on every path and leaves pdb.tx and the data alone; it resets the
   language once it has begun; rows are delivered only if Commit was reached, and a fault before that
   is an error *)
Definition dump_post x multi lang comm closed (sr : pg * pres) : Prop :=
  let evs := rev (s_log (p_srv (fst sr))) in
  lands (fst sr) x multi (if dump_began evs then None else lang) comm closed /\
  match snd sr with
  | PErr _ => True
  | PRows _ => dump_began evs = true /\ (has_fault evs = true -> has_fault (from_commit evs) = true)
  | _ => False
  end.

Lemma dump_out c x multi lang comm closed next orc k :
  dump_post x multi lang comm closed (pg_dump c (st_of x multi lang comm closed next [] orc) k).
Proof.
  unfold pg_dump, eff. unglue. bit; [landed|]. destruct closed; unglue; [landed|].
  destruct (to_key _ k) as [[def tr]|e|n] eqn:K; [|ends srv_rollback_hd|destruct (to_key_no_panic K)].
  call srv_dquery_hd; [ends srv_rollback_hd|]. bit; [ends srv_commit_hd|].
  destruct (rows_from _ _) as [|[kk vv] rest]; unglue; [ends srv_commit_hd|]. bit; [ends srv_commit_hd|].
  destruct (is_prefix def kk); unglue; [|ends srv_commit_hd]. destruct (decode_key c kk); unglue; [|ends srv_commit_hd].
  call srv_commit_hd.
  (* five oracle bits are gone: Begin, the query, Next, Scan of the first row, Commit *)
  all: pose proof (iter_no_done c next def rest (tl (tl (tl (tl (tl orc)))))) as D.
  all: destruct (dump_iter _ _ _ _ _) as [[evs orc'] rows]; unfold dump_post, lands, has_done in *; cbn [fst snd p_srv s_log] in *.
  all: rewrite rev_app_distr, existsb_app, D; landed.
Qed.

Definition step_post c x multi lang comm closed (o : pop) (sr : pg * pres) : Prop :=
  match o with
  | PPut k v => put_post x multi lang comm closed (put_key (set_lang c lang) k) v sr
  | PGet k => get_post x multi lang comm closed (get_spec (set_lang c lang) x comm k) sr
  | PStart => start_post x multi lang comm closed sr
  | PStop => stop_post x multi lang comm closed sr
  | PAbort => snd sr = POk /\ lands (fst sr) None multi lang comm closed
  | PClose => stop_post x multi lang comm true sr
  | PDump _ => dump_post x multi lang comm closed sr
  | PConnect => snd sr = POk /\ quiet (fst sr) /\ lands (fst sr) x multi lang comm closed
  end.

Lemma step_out c st o [x multi lang comm closed] :
  settled st x multi lang comm closed -> step_post c x multi lang comm closed o (pg_step c st o).
Proof.
  intros (next & log & orc & ->). destruct o.
  - apply put_out.
  - apply get_out.
  - apply start_out.
  - apply stop_out.
  - split; [reflexivity|apply abort_out].
  - apply stop_out.
  - apply dump_out.
  - landed.
Qed.

(* spell out in H what step_out says of the operation at hand *)
Ltac outcome H :=
  cbn [step_post] in H; unfold put_post, get_post, start_post, stop_post, dump_post, kept, failed in H; cbn [fst snd] in H.

Definition shape (st : pg) : Prop := exists x multi lang comm closed, settled st x multi lang comm closed.

Definition shape_post (sr : pg * pres) : Prop :=
  shape (fst sr) /\ snd sr <> PPanic /\ has_done (rev (s_log (p_srv (fst sr)))) = false.

Lemma lands_shape [st r x multi lang comm closed] : lands st x multi lang comm closed -> r <> PPanic -> shape_post (st, r).
Proof.
  intros [Ha Hd] Hr. split; [do 5 eexists; exact Ha|]. split; [exact Hr|]. unfold has_done. rewrite existsb_rev. exact Hd.
Qed.

Lemma step_shape c st o : shape st -> shape_post (pg_step c st o).
Proof.
  intros (x & multi & lang & comm & closed & Ha). pose proof (step_out c st o Ha) as H.
  destruct (pg_step c st o) as [st' r].
  destruct o; outcome H.
  (* a result the outcome rules out makes H hold a False; otherwise H, taken apart into its cases, holds
     an equation that cannot be (discriminate) or a lands fact, and any lands fact gives the shape *)
  all: destruct r; try (decompose [and] H; contradiction); destruct multi; decompose [and or ex] H.
  all: try discriminate.
  all: match goal with L : lands _ _ _ _ _ _ |- _ => apply (lands_shape L); discriminate end.
Qed.

Definition fault_post (o : pop) (sr : pg * pres) : Prop :=
  o = PAbort \/
  dump_late_fault o (rev (s_log (p_srv (fst sr)))) = true \/
  has_fault (rev (s_log (p_srv (fst sr)))) = false \/
  is_perr (snd sr) = true.

Lemma step_fault_reported c st o : shape st -> fault_post o (pg_step c st o).
Proof.
  intros (x & multi & lang & comm & closed & Ha). pose proof (step_out c st o Ha) as H.
  destruct (pg_step c st o) as [st' r]. unfold fault_post. cbn [fst snd].
  destruct o; outcome H.
  all: destruct r; cbn [is_perr dump_late_fault]; unfold quiet, has_fault in *; rewrite existsb_rev; try tauto.
  destruct H as (_ & _ & H). rewrite existsb_rev in H. destruct (existsb _ (s_log _)); tauto.
Qed.

(* what the client's bookkeeping says of the store: the pool is closed in MClosed; inside an explicit
   transaction that is not doomed, pdb.tx holds exactly the acknowledged writes; in a doomed one
   (MExpl true: some operation in it failed) pdb.tx may be open or gone; outside, there is none.
   pdb.multi is taken to be m_started m: Start sets it and nothing clears it (K-C13-stickymulti); what
   that does to a Put or Get outside an explicit transaction is left to the guard m_hit *)
Definition cl (md : umode) : bool := match md with MClosed => true | _ => false end.
Definition mode_ok (md : umode) (x : option (N * kv)) (started : bool) : Prop :=
  match md with
  | MExpl false ov => started = true /\ exists t, x = Some (t, ov)
  | MExpl true _ => started = true
  | _ => x = None
  end.
Definition Inv (st : pg) (m : mstate) : Prop :=
  exists x comm, settled st x (m_started m) (m_lang m) comm (cl (m_mode m)) /\ kv_equiv comm (m_abs m)
    /\ mode_ok (m_mode m) x (m_started m).

Definition guard_post (c : pcfg) (m : mstate) (o : pop) (sr : pg * pres) : Prop :=
  let ms := mon_step c m o (obs_of (fst sr) (snd sr)) in
  k_hit (snd ms) = true \/
  (Inv (fst sr) (fst ms) /\ k_hyg (snd ms) = true /\ k_rec (snd ms) = true).

(* hygiene is what the invariant says about the open transactions *)
Lemma guard_intro c m o st' r :
  (hit_now m o = false ->
   let ms := mon_step c m o (obs_of st' r) in
   Inv st' (fst ms) /\ has_done (s_log (p_srv st')) = false /\ k_rec (snd ms) = true) ->
  guard_post c m o (st', r).
Proof.
  intros H. unfold guard_post. cbn [fst snd mon_step k_hit k_hyg k_rec] in *.
  destruct (hit_now m o); [left; reflexivity|right].
  destruct (H eq_refl) as (HI & Hd & Hr). clear H. split; [exact HI|]. split; [|exact Hr].
  destruct HI as (x & comm & Ha & _ & Hm). unfold mode_ok in Hm. cbn [m_mode] in Hm.
  unfold hyg_check, obs_of, has_done in *. cbn [o_evs o_open]. rewrite existsb_rev, Hd.
  replace (s_open (p_srv st')) with (olist x) by (destruct Ha as (next & log & orc & ->); reflexivity).
  revert Hm. destruct (fst (fst (fst (mon_next _ _ _ _)))) as [|[|] ov|]; [intros ->|destruct x|intros (_ & t & ->)|intros ->]; reflexivity.
Qed.

(* the three lemmas below conclude in the shape guard_intro asks for; b is whatever the record check
   k_rec of the step computes to, handed through *)
Lemma inv_lands [st' md abs started hit lang x comm] [b : bool] :
  lands st' x started lang comm (cl md) -> kv_equiv comm abs -> mode_ok md x started -> b = true ->
  Inv st' (mkM md abs started hit lang) /\ has_done (s_log (p_srv st')) = false /\ b = true.
Proof. intros [Ha Hd] He Hm Hb. split; [exists x, comm; auto|auto]. Qed.

Lemma failed_ok [st' md abs started hit lang e x comm] [b : bool] :
  failed x started lang comm (cl md) st' -> kv_equiv comm abs -> mode_ok md x started -> b = true ->
  Inv st' (mkM (doom (PErr e) md) abs started hit lang) /\ has_done (s_log (p_srv st')) = false /\ b = true.
Proof.
  intros [[Ha Hd]|[Ha Hd]] He Hm Hb; (split; [|auto]); [exists x, comm|exists None, comm].
  all: destruct md as [|[|] ov|]; (split; [exact Ha|split; [exact He|]]); cbn in *; tauto.
Qed.

(* a Put (w = its write) or Get (w = nothing) that succeeded outside the guard of K-C13-stickymulti *)
Lemma kept_ok [st' md abs started hit lang x comm] (w : kv -> kv) [b : bool] :
  kept x started lang comm (cl md) (w (pending x)) st' -> kv_equiv comm abs -> mode_ok md x started ->
  match md with MSingle => started | _ => false end = false -> b = true ->
  Inv st' (mkM (match md with MExpl d ov => MExpl d (w ov) | _ => md end)
               (match md with MSingle => apply_kv (w []) abs | _ => abs end) started hit lang)
  /\ has_done (s_log (p_srv st')) = false /\ b = true.
Proof.
  intros (_ & Hu & H) He Hm Hs Hb. destruct md as [|[|] ov|]; cbn [mode_ok] in *.
  - subst x started. eapply inv_lands; [exact H|apply kv_equiv_apply, He|reflexivity|exact Hb].
  - subst started. destruct H as [t H]. eapply inv_lands; [exact H|exact He|reflexivity|exact Hb].
  - destruct Hm as (-> & t0 & ->). destruct H as [t H]. eapply inv_lands; [exact H|exact He|cbn; eauto|exact Hb].
  - subst x. discriminate Hu.
Qed.

Lemma spec_get_agree f g def tr : (forall k, f k = g k) -> pres_eqb (spec_get f def tr) (spec_get g def tr) = true.
Proof.
  intros E. unfold spec_get. destruct tr as [tk|]; rewrite !E.
  1: destruct (g tk); [apply bytes_eqb_refl|].
  all: destruct (g def); [apply bytes_eqb_refl|reflexivity].
Qed.

Lemma get_check_ok [ce md abs started hit lang k st' r x comm] :
  kv_equiv comm abs -> mode_ok md x started ->
  (quiet st' -> usable x (cl md) = true -> r = get_spec ce x comm k) ->
  get_check ce (mkM md abs started hit lang) (PGet k) (obs_of st' r) = true.
Proof.
  intros He Hm Hs. unfold get_check, obs_of. cbn [o_evs o_res m_mode m_abs]. unfold has_fault. rewrite existsb_rev.
  destruct (existsb _ _) eqn:Q; [reflexivity|]. unfold get_spec in Hs.
  destruct (to_key ce k) as [[def tr]|e|n]; [|reflexivity..].
  destruct md as [|[|] ov|]; try reflexivity; cbn in Hm.
  - subst x. rewrite (Hs Q eq_refl). apply spec_get_agree. intros k0. apply He.
  - destruct Hm as (_ & t & ->). rewrite (Hs Q eq_refl). apply spec_get_agree. intros k0. apply read_kv_equiv, He.
Qed.

Lemma end_ok st' r md x abs started hit hit' lang comm (close commit : bool) :
  kv_equiv comm abs -> mode_ok md x started ->
  lands st' None started lang (if commit then apply_kv (pending x) comm else comm) (close || cl md) ->
  negb (pres_eqb r PPanic) = true ->
  let ae := end_expl (mkM md abs started hit lang) (obs_of st' r) commit in
  Inv st' (mkM (if close then MClosed else match md with MClosed => MClosed | _ => MSingle end) (fst ae) started hit' lang)
  /\ has_done (s_log (p_srv st')) = false /\ snd ae && negb (pres_eqb r PPanic) = true.
Proof.
  intros He Hm [Ha Hd] ->. cbn zeta. rewrite andb_true_r. set (comm' := if commit then _ else _) in *.
  unfold end_expl, obs_of. cbn [m_mode m_abs o_comm].
  replace (s_comm (p_srv st')) with comm' by (destruct Ha as (next & log & orc & ->); reflexivity).
  assert (K : kv_equiv comm' (match md with
                              | MExpl false ov => if commit then apply_kv ov abs else abs
                              | MExpl true _ => asort comm'
                              | _ => abs
                              end)).
  { destruct md as [|[|] ov|]; cbn in Hm; subst comm'.
    - subst x. destruct commit; exact He.
    - intros k. symmetry. apply alookup_asort.
    - destruct Hm as (_ & t & ->). destruct commit; [apply kv_equiv_apply|]; exact He.
    - subst x. destruct commit; exact He. }
  destruct md as [|[|] ov|], close; cbn [fst snd]; (split; [exists None, comm'; split; [exact Ha|split; [exact K|reflexivity]]|split; [exact Hd|]]); try reflexivity.
  all: apply kv_agree_sorted, K.
Qed.

(* the transaction Stop and Close leave behind (stop_post) is none, whatever the mode *)
Lemma stopped [md x started] : mode_ok md x started -> (if started then None else x) = None.
Proof. destruct started; [reflexivity|]. destruct md as [|[|] ov|]; cbn; intuition discriminate. Qed.

Lemma guard_step c st m o : m_hit m = true \/ Inv st m -> guard_post c m o (pg_step c st o).
Proof.
  intros HI. destruct (m_hit m) eqn:Hh; [left; unfold mon_step, hit_now; cbn; rewrite Hh; reflexivity|].
  destruct HI as [HI|(x & comm & Ha & He & Hm)]; [discriminate|]. pose proof (step_out c st o Ha) as H.
  destruct (pg_step c st o) as [st' r]. apply guard_intro.
  destruct m as [md abs started hit mlang]. cbn [m_mode m_abs m_started m_hit m_lang] in *. subst hit.
  assert (E := fun md close commit => end_ok st' r md x abs started false false mlang comm close commit He).
  unfold hit_now, mon_step, mon_next. cbn [m_hit m_mode m_started m_lang orb fst snd k_rec o_res obs_of].
  destruct o; outcome H; intros Hs.
  - destruct r; try contradiction; [|exact (failed_ok H He Hm eq_refl)].
    destruct H as [Hk H]. destruct (put_key _ k) as [ak|]; [|contradiction].
    destruct md as [|d ov|]; exact (kept_ok (aset ak v) H He Hm Hs eq_refl).
  - destruct H as [Hg H]. rewrite (get_check_ok He Hm Hg). cbn [andb].
    destruct r; try contradiction; [|exact (failed_ok H He Hm eq_refl)].
    destruct md as [|d ov|]; exact (kept_ok (fun p => p) H He Hm Hs eq_refl).
  - destruct r; try contradiction; [|exact (failed_ok (or_introl H) He Hm eq_refl)].
    destruct H as (_ & -> & Hc & t & H).
    destruct md as [|[|] ov|]; cbn -[Inv]; cbn in Hm, Hc; try discriminate.
    + eapply inv_lands; [exact H|exact He|cbn; eauto|reflexivity].
    + subst started. eapply inv_lands; [exact H|exact He|reflexivity..].
    + destruct Hm as (_ & t0 & Hx). discriminate Hx.
  - destruct H as [L Hr]. rewrite (stopped Hm) in L.
    destruct md; exact (E _ false (pres_eqb r POk) Hm L ltac:(destruct r; easy)).
  - destruct H as [-> L]. destruct md; exact (E _ false false Hm L eq_refl).
  - destruct H as [L Hr]. rewrite (stopped Hm) in L.
    destruct md; exact (E _ true (pres_eqb r POk) Hm L ltac:(destruct r; easy)).
  - destruct H as [L Hr]. apply (inv_lands L He Hm). destruct r; easy.
  - destruct H as (-> & _ & L). apply (inv_lands L He Hm). reflexivity.
Qed.

Lemma pg_trace_cons c st o ops :
  pg_trace c st (o :: ops) =
  obs_of (fst (pg_step c st o)) (snd (pg_step c st o)) :: pg_trace c (fst (pg_step c st o)) ops.
Proof. cbn [pg_trace]. destruct (pg_step c st o). reflexivity. Qed.

Lemma mon_run_cons c m o ops ob obs :
  mon_run c m (o :: ops) (ob :: obs) =
  snd (mon_step c m o ob) :: mon_run c (fst (mon_step c m o ob)) ops obs.
Proof. cbn [mon_run]. destruct (mon_step c m o ob). reflexivity. Qed.

Theorem fault_guarded_all c : forall ops st m, shape st ->
  c13_fault_guarded (mon_run c m ops (pg_trace c st ops)) = true.
Proof.
  unfold c13_fault_guarded.
  induction ops as [|o ops IH]; intros st m Hs; [reflexivity|].
  rewrite pg_trace_cons, mon_run_cons. cbn [forallb]. rewrite (IH _ _ (proj1 (step_shape c st o Hs))), andb_true_r.
  unfold mon_step. cbn [snd k_dsw k_fault]. unfold obs_of, fault_check. cbn [o_evs o_res].
  destruct (step_fault_reported c st o Hs) as [->|[H|[H|H]]].
  - apply orb_true_r.
  - rewrite H. reflexivity.
  - rewrite H. destruct o; apply orb_true_r.
  - rewrite H. destruct o; try apply orb_true_r.
    all: match goal with |- context [if ?b then _ else _] => destruct b end; apply orb_true_r.
Qed.

(* once a step is in the guard of K-C13-stickymulti (m_hit), every later one is *)
Theorem guarded_all c : forall ops st m, m_hit m = true \/ Inv st m ->
  let ks := mon_run c m ops (pg_trace c st ops) in c13_hyg_guarded ks = true /\ c13_rec_guarded ks = true.
Proof.
  unfold c13_hyg_guarded, c13_rec_guarded.
  induction ops as [|o ops IH]; intros st m HI; [split; reflexivity|].
  cbn zeta. rewrite pg_trace_cons, mon_run_cons. cbn [forallb].
  pose proof (guard_step c st m o HI) as G. unfold guard_post in G. cbn zeta in G.
  set (ms := mon_step c m o _) in *.
  destruct (IH (fst (pg_step c st o)) (fst ms)) as [I1 I2]; [destruct G as [G|G]; [left; exact G|right; apply G]|].
  rewrite I1, I2, !andb_true_r. destruct G as [->|(_ & -> & ->)]; [split; reflexivity|split; apply orb_true_r].
Qed.

Lemma init_shape c init orc : shape (new_pg c init orc).
Proof. exists None. do 7 eexists. reflexivity. Qed.

Lemma init_inv c init orc : Inv (new_pg c init orc) (m_init c init).
Proof. exists None, init. split; [do 3 eexists; reflexivity|]. split; [intros k|]; reflexivity. Qed.

Definition sane_obs (ob : pobs) : bool :=
  (o_open ob <=? 1) && negb (pres_eqb (o_res ob) PPanic) && negb (has_done (o_evs ob)).

Theorem sane_all c : forall ops st, shape st -> forallb sane_obs (pg_trace c st ops) = true.
Proof.
  induction ops as [|o ops IH]; intros st Hs; [reflexivity|].
  rewrite pg_trace_cons. cbn [forallb].
  destruct (step_shape c st o Hs) as (Hs' & Hp & Hd).
  rewrite (IH _ Hs'), andb_true_r. unfold sane_obs, obs_of. cbn [o_open o_res o_evs].
  destruct Hs' as (x & multi & lang & comm & closed & next & log & orc & E). rewrite Hd, E.
  destruct (snd (pg_step c st o)); try congruence; destruct x; reflexivity.
Qed.

(* the writes of a transaction body, by storage key; a Dump in the body resets the language *)
Definition bw_step (c : pcfg) (lo : option bytes * list (bytes * bytes)) (o : pop) : option bytes * list (bytes * bytes) :=
  match o with
  | PPut k v => (fst lo, match put_key (set_lang c (fst lo)) k with Some ak => aset ak v (snd lo) | None => snd lo end)
  | PDump _ => (None, snd lo)
  | _ => lo
  end.
Definition body_writes (c : pcfg) (lang : option bytes) (body : list pop) : list (bytes * bytes) :=
  snd (fold_left (bw_step c) body (lang, [])).

Definition data_op (o : pop) : bool := match o with PPut _ _ | PGet _ | PDump _ => true | _ => false end.

Definition in_tx (st : pg) (lo : option bytes * list (bytes * bytes)) (comm : list (bytes * bytes)) : Prop :=
  exists t closed, settled st (Some (t, snd lo)) true (fst lo) comm closed.

Lemma in_tx_step c st lo comm o :
  in_tx st lo comm -> data_op o = true -> is_perr (snd (pg_step c st o)) = false ->
  in_tx (fst (pg_step c st o)) (bw_step c lo o) comm.
Proof.
  intros (t & closed & Ha) Hd. pose proof (step_out c st o Ha) as H.
  destruct (pg_step c st o) as [st' r]. cbn [fst snd].
  destruct o; try discriminate Hd; outcome H; cbn [bw_step]; destruct r; try easy; intros _.
  1,2: destruct H as (_ & _ & _ & t' & Ha' & _); exists t', closed; exact Ha'.
  destruct H as ((Ha' & _) & Hb & _). rewrite Hb in Ha'. exists t, closed. exact Ha'.
Qed.

Definition pg_final (c : pcfg) (st : pg) (ops : list pop) : pg :=
  fold_left (fun s o => fst (pg_step c s o)) ops st.

Definition idle (st : pg) : Prop :=
  p_tx st = None /\ s_open (p_srv st) = [] /\ s_closed (p_srv st) = false /\ s_orc (p_srv st) = [].

Definition all_ok (c : pcfg) (st : pg) (ops : list pop) : Prop :=
  forallb (fun ob => negb (is_perr (o_res ob))) (pg_trace c st ops) = true.

Lemma all_ok_cons c st o ops :
  all_ok c st (o :: ops) -> is_perr (snd (pg_step c st o)) = false /\ all_ok c (fst (pg_step c st o)) ops.
Proof.
  unfold all_ok. rewrite pg_trace_cons. cbn [forallb obs_of o_res]. intros H. apply andb_true_iff in H.
  split; [apply negb_true_iff|]; apply H.
Qed.

Lemma in_tx_body c comm o : forall body st lo,
  in_tx st lo comm -> forallb data_op body = true -> all_ok c st (body ++ [o]) ->
  in_tx (pg_final c st body) (fold_left (bw_step c) body lo) comm
  /\ is_perr (snd (pg_step c (pg_final c st body) o)) = false.
Proof.
  induction body as [|o' body IH]; intros st lo Hin Hd Hok; apply all_ok_cons in Hok; destruct Hok as [Ho Hok].
  - split; [exact Hin|exact Ho].
  - cbn [forallb] in Hd. apply andb_true_iff in Hd. apply IH; [apply in_tx_step; [exact Hin|apply Hd|exact Ho]|apply Hd|exact Hok].
Qed.

(* whether or not the pool is closed: Start fails on a closed pool *)
Lemma multi_body c st [multi lang comm closed] body o :
  settled st None multi lang comm closed -> forallb data_op body = true -> all_ok c st (PStart :: body ++ [o]) ->
  let st1 := pg_final c st (PStart :: body) in
  in_tx st1 (fold_left (bw_step c) body (lang, [])) comm
  /\ is_perr (snd (pg_step c st1 o)) = false
  /\ pg_final c st (PStart :: body ++ [o]) = fst (pg_step c st1 o).
Proof.
  intros Ha Hd Hok. apply all_ok_cons in Hok. destruct Hok as [Hs Hok]. cbn zeta.
  rewrite <- and_assoc. split; [|unfold pg_final; rewrite app_comm_cons, fold_left_app; reflexivity].
  apply (in_tx_body c comm o body (fst (pg_step c st PStart))); [|exact Hd|exact Hok].
  pose proof (step_out c st PStart Ha) as H. destruct (pg_step c st PStart) as [st' r].
  outcome H. destruct r; try easy. destruct H as (_ & _ & _ & t & Ha' & _). exists t, closed. exact Ha'.
Qed.

Lemma multi_commit_at_stop c st [multi lang comm closed] body :
  settled st None multi lang comm closed -> forallb data_op body = true -> all_ok c st (PStart :: body ++ [PStop]) ->
  let st' := pg_final c st (PStart :: body ++ [PStop]) in
  s_comm (p_srv st') = apply_kv (body_writes c lang body) comm /\ s_open (p_srv st') = [].
Proof.
  intros Ha0 Hd Hok. destruct (multi_body c st body PStop Ha0 Hd Hok) as ((t & closed' & Ha) & Hr & E).
  cbn zeta. rewrite E. pose proof (step_out c _ PStop Ha) as H. destruct (pg_step c _ PStop) as [st' r].
  outcome H. destruct r; try easy. destruct H as (((next & log & orc & ->) & _) & _). split; reflexivity.
Qed.

Lemma multi_none_after_abort c st [multi lang comm closed] body :
  settled st None multi lang comm closed -> forallb data_op body = true -> all_ok c st (PStart :: body ++ [PAbort]) ->
  let st' := pg_final c st (PStart :: body ++ [PAbort]) in
  s_comm (p_srv st') = comm /\ s_open (p_srv st') = [].
Proof.
  intros Ha0 Hd Hok. destruct (multi_body c st body PAbort Ha0 Hd Hok) as ((t & closed' & Ha) & _ & E).
  cbn zeta. rewrite E. destruct (step_out c _ PAbort Ha) as (_ & (next & log & orc & ->) & _). split; reflexivity.
Qed.

Lemma idle_settled st : idle st -> settled st None (p_multi st) (p_lang st) (s_comm (p_srv st)) false.
Proof.
  destruct st as [tx multi lang [comm open next closed log orc]]. unfold idle. cbn. intros (-> & -> & -> & _).
  do 3 eexists. reflexivity.
Qed.

(* key contexts of the witnesses in props/C13.v; lock 11 is safe_lock without the bit of
   DATATYPE_TEMPLATE, so that check_put lets a template through *)
Definition wit_user : pcfg := mkCfg DATATYPE_USERDATA safe_lock (s2b "s") None.
Definition wit_trans : pcfg := mkCfg DATATYPE_TEMPLATE 11 (s2b "s") (Some (s2b "nor")).
