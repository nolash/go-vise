(* When Vm.Render can take its BrowseError branch (what the guard quiet_catch_b of
   C20 is about).  page_render returns Err EBrowse only from the menu's applyPage with page count > 0
   and idx >= page count; the page count is the one joinSink computed in the same Render.  Before the
   menu is rendered, RenderTemplate asks the sizer for page idx of the sink (GetAt).  The file holds
   join_sink_past_end: as long as the uint16 page counter of joinSink does not wrap (fewer than 65535
   rows) and the cursor values do not wrap (rows below 4 GiB), GetAt fails for every idx >= page
   count, so that (RenderProofs.inner_sink_err, C20_sizer_error_before_menu) the render error is the
   sizer's, never a BrowseError.  The bound is sharp: from 65536 page breaks on the counter wraps and
   the BrowseError branch is taken, in the model and on the real engine (K-C02-countwrap: a sink of 65538
   rows, the counter wraps to 1; the Go program and the evaluated witness are in notes/integration_flags.md
   under "can Vm.Render take the BrowseError branch?").
   In order: TrimRight on a text that ends in LF; the loop invariant JI of joinSink through a step and the loop;
   join_sink_past_end; joinSink of no rows, and the theorem on a small evaluated instance. *)
From Coq Require Import Lia ZifyN ZifyNat ZifyBool.
From Vise Require Import Bytes Errors Consts EngConsts Codec CacheModel StateModel NavModel RenderModel
  BytesProofs RenderProofs.
Local Open Scope N_scope.

Lemma trim_lf_rev_len : forall r, (List.length (trim_lf_rev r) <= List.length r)%nat.
Proof.
  induction r as [|x r IH]; cbn [trim_lf_rev List.length]; [lia|].
  destruct (x =? nl); cbn [List.length]; lia.
Qed.
Lemma trim_right_lf_snoc_nl : forall b, len (trim_right_lf (b ++ [nl])) <= len b.
Proof.
  intros b. unfold trim_right_lf, len. rewrite rev_length, rev_app_distr. cbn [rev List.app trim_lf_rev].
  change (nl =? nl) with true. cbv iota. pose proof (trim_lf_rev_len (rev b)) as H. rewrite rev_length in H. lia.
Qed.

(* the loop of joinSink after k page breaks: the initial cursor and one per break, the counter, the
   text written so far, and (after a break) the last cursor standing at the end of a text that ends
   in LF.  Unlike RenderProofs.JInv it asks nothing of the rows (JInv needs row_ok of each). *)
Definition JI (s : jstate) (k : nat) (sz : N) : Prop :=
  List.length (j_crs s) = S k
  /\ j_count s = w16 (N.of_nat k)
  /\ len (j_rb s) + len (j_tb s) <= sz
  /\ (k <> O -> nth_error (j_crs s) k = Some (w32 (len (j_rb s))) /\ exists b, j_rb s = b ++ [nl]).

Lemma w16_succ : forall n, w16 (w16 n + 1) = w16 (n + 1).
Proof. intros n. unfold w16. rewrite N.add_mod_idemp_l by lia. reflexivity. Qed.

Lemma js_step_JI : forall prevsz s v s' k sz,
  JI s k sz -> js_step prevsz s v = Some s' ->
  JI s' k (sz + len v + 1) \/ JI s' (S k) (sz + len v + 1).
Proof.
  intros prevsz s v s' k sz (Hl & Hn & Hs & H1) H. unfold js_step in H.
  destruct (sub32 (j_net s) 1 <? w32 (j_l s + len v)).
  - destruct (len (j_tb s) =? 0); [discriminate|]. injection H as <-. right. unfold JI. cbn [j_crs j_count j_rb j_tb].
    split; [rewrite app_length, Hl; cbn [List.length]; lia|].
    split; [rewrite Hn, w16_succ; f_equal; lia|].
    split; [rewrite !len_app, len_cons, len_nil; lia|]. intros _.
    split; [rewrite nth_error_app2, Hl, PeanoNat.Nat.sub_diag by lia; reflexivity|].
    exists (j_rb s ++ j_tb s). rewrite <- app_assoc. reflexivity.
  - left. destruct (0 <? len (j_tb s)); injection H as <-; unfold JI; cbn [j_crs j_count j_rb j_tb];
      (split; [exact Hl|]); (split; [exact Hn|]); (split; [rewrite ?len_app, ?len_cons, ?len_nil; lia|exact H1]).
Qed.

Lemma js_loop_JI : forall prevsz vs s s' k sz,
  JI s k sz -> js_loop prevsz s vs = (true, s') ->
  exists k', (k <= k' <= k + List.length vs)%nat /\ JI s' k' (sz + rows_size vs).
Proof.
  intros prevsz. induction vs as [|v vs IH]; intros s s' k sz HJ H; cbn [js_loop] in H.
  - injection H as <-. exists k. split; [cbn [List.length]; lia|]. cbn [rows_size fold_right]. rewrite N.add_0_r. exact HJ.
  - destruct (js_step prevsz s v) as [s1|] eqn:Hs; [|discriminate].
    rewrite rows_size_cons. cbn [List.length].
    destruct (js_step_JI _ _ _ _ _ _ HJ Hs) as [H1|H1]; destruct (IH _ _ _ _ H1 H) as (k' & Hk & HJ');
      exists k'; (split; [lia|]); replace (sz + (len v + 1 + rows_size vs)) with (sz + len v + 1 + rows_size vs) by lia; exact HJ'.
Qed.

(* the error is GetAt's "no more values in index" (class EGen) *)
Theorem join_sink_past_end : forall vs remaining ms r n crs idx,
  len vs < 65535 -> rows_size vs < 4294967296 ->
  join_sink vs remaining ms [0] = (Ok (r, n), crs) ->
  0 < n -> n <= idx -> sink_page r crs idx = Err EGen.
Proof.
  intros vs remaining ms r n crs idx Hrows Hsize H Hn Hidx. unfold join_sink in H.
  destruct (js_loop (ms_prev ms) (js_init vs remaining ms [0]) vs) as [[|] s] eqn:Hloop; [|discriminate].
  assert (HJ0 : JI (js_init vs remaining ms [0]) O 0).
  { unfold js_init. cbn [j_crs j_count j_rb j_tb List.length]. repeat split; try reflexivity. congruence. }
  destruct (js_loop_JI _ _ _ _ _ _ HJ0 Hloop) as (k & Hk & Hl & Hcnt & Hsz & H1).
  assert (Hk16 : N.of_nat k < 65535) by (unfold len in Hrows; lia).
  rewrite N.add_0_l in Hsz.
  injection H as Hr Hcount Hcrs. subst crs.
  unfold sink_page.
  assert (Hlen : w16 (len (j_crs s)) = N.of_nat k + 1).
  { unfold len. rewrite Hl, w16_small by lia. lia. }
  rewrite Hlen.
  destruct (0 <? len (j_tb s)) eqn:Htb.
  - (* a last, open page: count = breaks + 1 = number of cursors *)
    assert (En : n = N.of_nat k + 1).
    { rewrite <- Hcount, Hcnt, w16_succ, w16_small by lia. reflexivity. }
    assert (E : N.of_nat k + 1 <=? idx = true) by lia. rewrite E. reflexivity.
  - (* the text ended exactly at a page break: count = breaks, one cursor more *)
    assert (En : n = N.of_nat k).
    { rewrite <- Hcount, Hcnt, w16_small by lia. reflexivity. }
    destruct (N.of_nat k + 1 <=? idx) eqn:E; [reflexivity|].
    assert (Eidx : idx = N.of_nat k) by lia.
    destruct (H1 ltac:(lia)) as (Hlast & b & Hb).
    rewrite Eidx, Nat2N.id, Hlast.
    rewrite (w32_small (len (j_rb s))) by lia. rewrite <- Hr, Hb.
    pose proof (trim_right_lf_snoc_nl b) as Ht.
    assert (Hw : w32 (len (trim_right_lf (b ++ [nl]))) <= len b) by (unfold w32; etransitivity; [apply N.mod_le; lia|exact Ht]).
    assert (E2 : w32 (len (trim_right_lf (b ++ [nl]))) <? len (b ++ [nl]) = true).
    { rewrite len_app, len_cons, len_nil. lia. }
    rewrite E2. reflexivity.
Qed.

Lemma join_sink_nil : forall remaining ms crs, join_sink [] remaining ms crs = (Ok ([], 0), crs).
Proof. reflexivity. Qed.

(* join_sink_past_end on a small instance: three rows, the last one empty and breaking; 40 bytes remain for the
   sink, (5, 6, 7, 13) are Menu.Sizes (RenderModel.menu_sizes): main, next, previous, next + previous *)
Example join_sink_trailing_empty_row :
  let bb := rep 98 40 in
  let r0 := s2b "a" ++ [nl] ++ bb in
  let '(res, crs) := join_sink [s2b "a"; bb; []] 40 (5, 6, 7, 13) [0] in
  res = Ok (r0, 2) /\ crs = [0; 2; 43]
  /\ sink_page r0 crs 2 = Err EGen /\ sink_page r0 crs 1 = Ok bb.
Proof. vm_compute. repeat split; reflexivity. Qed.
