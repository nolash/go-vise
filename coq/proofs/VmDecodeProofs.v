(* Lemmas for C15 on the VM's own decoding path: Vm.Run (vm/runner.go) as modelled by VmModel.run
   (op_split, parse_args, exec_instr), for ALL resources, machines, byte strings, fuel; the run loop is
   looked at as the iterated step of SymbolProofs (run_step / run_S / reaches).  In the order of
   props/C15run.v: (a) bytes that do not decode end the run with an error (run_rejects_malformed_next),
   unless runErrCheck diverts it (guard decode_error_surfaces); (b) an iteration that does not end in
   an error decoded its instruction or was diverted (step_decodes; the guard loadfail_free excludes the
   diversion); (c) a panic is raised by executing a decoded instruction on a flag out of range
   (run_panic_cause; guards code_total, funcs_flags_ok, decoded_flags_ok).  Last, after the Require of
   corr/, the cases of the differential driver. *)
From Vise Require Import Bytes Errors Consts EngConsts Codec CacheModel StateModel NavModel NavSpec
  RenderModel VmModel EngineModel BytesProofs CodecProofs CacheProofs NavProofs VmProofs HandlerProofs SymbolProofs.
From Vise Require FlagProofs.
Local Open Scope N_scope.

Lemma decode_one_of_split_err b e : op_split b = Err e -> decode_one b = Err e.
Proof. intros H. unfold decode_one. rewrite H. reflexivity. Qed.

Lemma op_split_rest b op b1 : op_split b = Ok (op, b1) -> exists h l, b = h :: l :: b1 /\ op = h * 256 + l.
Proof.
  intros H. destruct (op_split_shape _ _ _ H) as (h & l & Hb & Hop & _). eauto.
Qed.

(* every error of the decoder is the generic one (Go: fmt.Errorf) *)
Lemma decode_one_err b e : decode_one b = Err e -> e = EGen.
Proof. rewrite decode_one_exact. destruct (strict_one b); [discriminate|]. intros [= <-]. reflexivity. Qed.

(* runErrCheck turns an error into "MOVE _catch" when LOADFAIL is set and the machine is not at
   _catch: the only way an error of a handler (also a PARSE error of its arguments) does not
   surface.  LOADFAIL and the position are not touched by the loop's preamble. *)
Definition diverts (v : vmst) : bool :=
  getf (v_st v) FLAG_LOADFAIL && negb (bytes_eqb (where_sym (v_st v)) catch_sym).

Lemma diverts_prelude v v1 : v_st v1 = v_st (run_prelude v) -> diverts v1 = diverts v.
Proof.
  intros E. unfold diverts, where_sym. rewrite E, prelude_path. change (v_st (run_prelude v)) with (loop_st (v_st v)).
  rewrite loop_st_other by discriminate. reflexivity.
Qed.

(* runErrCheck asks `diverts` of the machine it has put the error on *)
Lemma err_check_diverts v1 b2 e m :
  err_check v1 b2 (SErr e m)
  = if diverts (set_page_err v1 m) then (set_page_err v1 m, move_catch_code, SOk) else (set_page_err v1 m, b2, SErr e m).
Proof. reflexivity. Qed.

Lemma prelude_taint v : v_taint (run_prelude v) = v_taint v.
Proof. reflexivity. Qed.

(* the machine differs from v by the preamble only (and possibly the page's error / taint) *)
Definition only_prelude (v v' : vmst) : Prop :=
  v_log v' = v_log v /\ v_w v' = v_w v /\ v_ca v' = v_ca v
  /\ s_path (v_st v') = s_path (v_st v) /\ s_idx (v_st v') = s_idx (v_st v)
  /\ s_input (v_st v') = s_input (v_st v) /\ s_lang (v_st v') = s_lang (v_st v)
  /\ s_code (v_st v') = s_code (v_st v)
  /\ (forall f, f <> FLAG_LANG -> f <> FLAG_WAIT -> f <> FLAG_INMATCH -> f <> FLAG_DIRTY ->
        getf (v_st v') f = getf (v_st v) f)
  /\ getf (v_st v') FLAG_LANG = false /\ getf (v_st v') FLAG_WAIT = false
  /\ getf (v_st v') FLAG_INMATCH = (if getf (v_st v) FLAG_WAIT then false else getf (v_st v) FLAG_INMATCH)
  /\ (flag_in_range (v_st v) FLAG_DIRTY = true -> getf (v_st v') FLAG_DIRTY = true).

Lemma only_prelude_prelude v : only_prelude v (run_prelude v).
Proof.
  unfold only_prelude. change (v_st (run_prelude v)) with (loop_st (v_st v)).
  destruct (loop_st_sbf (v_st v)) as (<- & <- & _ & <- & <- & <-).
  repeat (split; [reflexivity|]).
  split; [intros f; apply loop_st_other|]. split; [apply loop_st_lang|]. split; [apply loop_st_wait|].
  split; [apply loop_st_inmatch|intros H; apply loop_st_dirty, FlagProofs.flag_in_range_lt, H].
Qed.

Lemma only_prelude_page_err v v' m : only_prelude v v' -> only_prelude v (set_page_err v' m).
Proof.
  destruct m; exact (fun H => H).
Qed.

Lemma run_step_terminated rs sep lang b v :
  getf (v_st v) FLAG_TERMINATE = true -> run_step rs sep lang b v = Done (v, [], SOk).
Proof. intros Ht. unfold run_step. rewrite Ht. reflexivity. Qed.

Lemma run_step_op_err rs sep lang {b v e} :
  getf (v_st v) FLAG_TERMINATE = false -> op_split b = Err e ->
  run_step rs sep lang b v = Done (run_prelude v, b, SErr e None).
Proof. intros Ht Ho. unfold run_step. rewrite Ht, Ho. reflexivity. Qed.

(* the error exit of an iteration: v1 is what the handler left or, the arguments not parsing, the
   machine after the preamble *)
Lemma run_step_err {rs sep lang b v op b1 v1 b2 e m} :
  getf (v_st v) FLAG_TERMINATE = false -> op_split b = Ok (op, b1) ->
  step_exec rs sep (eff_lang lang (v_st v)) op b1 (run_prelude v) = (v1, b2, SErr e m) ->
  v_st v1 = v_st (run_prelude v) ->
  run_step rs sep lang b v =
    if diverts v then Next (eff_lang lang (v_st v)) move_catch_code (set_page_err v1 m)
    else Done (set_page_err v1 m, b2, SErr e m).
Proof.
  intros Ht Ho Hx Hst. unfold run_step. rewrite Ht, Ho. cbv zeta. rewrite Hx.
  (* a HALT answers no error *)
  destruct (N.eqb_spec op op_HALT) as [->|_]; [apply (f_equal snd) in Hx; discriminate Hx|].
  rewrite err_check_diverts, (diverts_prelude v) by (destruct m; exact Hst).
  (* run_step asks whether the code handed on is empty: of MOVE _catch it is enough to know that it is a cons *)
  pose proof (parse_args_no_panic op b1) as Hnp. destruct move_catch_cons as (x & y & t & ->).
  destruct (parse_args op b1); [| |discriminate Hnp]; destruct (diverts v); reflexivity.
Qed.

(* no instruction is executed; the error's text on the page is not modelled (taint) *)
Lemma run_step_args_err rs sep lang {b v op b1 e} :
  getf (v_st v) FLAG_TERMINATE = false -> op_split b = Ok (op, b1) -> parse_args op b1 = Err e ->
  run_step rs sep lang b v =
    if diverts v
    then Next (eff_lang lang (v_st v)) move_catch_code (set_page_err (run_prelude v) None)
    else Done (set_page_err (run_prelude v) None, b1, SErr EGen None).
Proof.
  intros Ht Ho Hp. apply (run_step_err Ht Ho); [unfold step_exec; rewrite Hp|]; reflexivity.
Qed.

(* the decidable guard of C15 (a): the decoding error surfaces.  False exactly when the opcode
   splits, LOADFAIL is set and the machine is not at _catch (class K-C15-loadfail) *)
Definition decode_error_surfaces (v : vmst) (code : bytes) : bool :=
  match op_split code with Ok _ => negb (diverts v) | _ => true end.

Theorem run_rejects_malformed_next fuel rs sep lang code v e :
  getf (v_st v) FLAG_TERMINATE = false ->
  decode_one code = Err e ->
  decode_error_surfaces v code = true ->
  exists v' rest,
    run (S fuel) rs sep lang code v = (v', rest, SErr EGen None)
    /\ only_prelude v v'
    /\ ((op_split code = Err EGen /\ rest = code /\ v' = run_prelude v)
        \/ (exists op, op_split code = Ok (op, rest) /\ parse_args op rest = Err EGen
            /\ v' = set_page_err (run_prelude v) None)).
Proof.
  intros Ht Hd Hg. pose proof (decode_one_err _ _ Hd) as ->. rewrite run_S.
  destruct (decode_one_err_split _ _ Hd) as [Ho|(op & b1 & Ho & Hp)].
  - rewrite (run_step_op_err _ _ _ Ht Ho).
    exists (run_prelude v), code. split; [reflexivity|]. split; [apply only_prelude_prelude|].
    left. auto.
  - rewrite (run_step_args_err _ _ _ Ht Ho Hp).
    unfold decode_error_surfaces in Hg. rewrite Ho in Hg.
    destruct (diverts v); [discriminate Hg|].
    exists (set_page_err (run_prelude v) None), b1. split; [reflexivity|].
    split; [apply only_prelude_page_err, only_prelude_prelude|].
    right. exists op. auto.
Qed.

(* the next instruction decodes, by the decoder and by the independent strict grammar; the
   undefined-but-in-range opcode 0 (NOOP: Run's "Unhandled state" error) is stepped over only
   when runErrCheck diverts its error *)
Definition next_decodes (v : vmst) (b : bytes) : Prop :=
  exists i r, decode_one b = Ok (i, r) /\ strict_one b = Some (i, r) /\ (i = INoop -> diverts v = true).

(* the step from (lang, b, v) to (l1, b1, v1) dropped an instruction whose ARGUMENTS do not parse *)
Definition malformed_diverted (lang : option bytes) (b : bytes) (v : vmst)
                              (l1 : option bytes) (b1 : bytes) (v1 : vmst) : Prop :=
  exists op b', op_split b = Ok (op, b') /\ parse_args op b' = Err EGen /\ diverts v = true
    /\ l1 = eff_lang lang (v_st v) /\ b1 = move_catch_code /\ v1 = set_page_err (run_prelude v) None.

Lemma malformed_diverted_diverts {lang b v l1 b1 v1} : malformed_diverted lang b v l1 b1 v1 -> diverts v = true.
Proof. intros (op & b' & _ & _ & H & _). exact H. Qed.

Lemma run_step_noop rs sep lang b v r :
  getf (v_st v) FLAG_TERMINATE = false -> decode_one b = Ok (INoop, r) ->
  exists v1, run_step rs sep lang b v =
    if diverts v then Next (eff_lang lang (v_st v)) move_catch_code v1 else Done (v1, r, SErr EGen None).
Proof.
  intros Ht Hd. destruct (proj1 (decode_one_ok_split _ _ _) Hd) as (op & b1 & Ho & Hp). eexists.
  eapply (run_step_err Ht Ho); [unfold step_exec; rewrite Hp|]; reflexivity.
Qed.

Lemma step_decodes rs sep lang b v :
  getf (v_st v) FLAG_TERMINATE = false ->
  (forall v' rest e m, run_step rs sep lang b v <> Done (v', rest, SErr e m)) ->
  next_decodes v b
  \/ (exists l1 b1 v1, run_step rs sep lang b v = Next l1 b1 v1 /\ malformed_diverted lang b v l1 b1 v1).
Proof.
  intros Ht Hne. pose proof (decode_one_no_panic b) as Hnp.
  destruct (decode_one b) as [[i r]|e|n] eqn:Hd; [| |discriminate Hnp].
  - left. exists i, r. split; [exact Hd|]. split; [apply decode_one_strict; exact Hd|].
    intros ->. destruct (run_step_noop rs sep lang b v r Ht Hd) as [v1 E].
    destruct (diverts v); [reflexivity|elim (Hne _ _ _ _ E)].
  - pose proof (decode_one_err _ _ Hd) as ->.
    destruct (decode_one_err_split _ _ Hd) as [Ho|(op & b' & Ho & Hp)].
    + elim (Hne _ _ _ _ (run_step_op_err _ _ _ Ht Ho)).
    + pose proof (run_step_args_err rs sep lang Ht Ho Hp) as E.
      destruct (diverts v) eqn:Hdv; [|elim (Hne _ _ _ _ E)].
      right. do 3 eexists. split; [exact E|]. exists op, b'. auto 7.
Qed.

(* the guard that excludes the diversion: no function of the resource can fail and LOADFAIL is
   clear, so LOADFAIL stays clear *)
Definition loadfail_free (rs : rsrc) (v : vmst) : Prop :=
  ~ FlagProofs.can_fail rs /\ getf (v_st v) FLAG_LOADFAIL = false.

(* a check that decides it for an application's resource (app_rsrc a); that it implies loadfail_free
   is props/C15run.v, C15_loadfail_free_decidable *)
Definition loadfail_free_b (a : app) (v : vmst) : bool :=
  negb (existsb (fun f => existsb fr_fail (snd f)) (a_funcs a)) && negb (getf (v_st v) FLAG_LOADFAIL).

Lemma loadfail_free_nofunc rs v :
  (forall sym, rs_func rs sym = None) -> getf (v_st v) FLAG_LOADFAIL = false -> loadfail_free rs v.
Proof.
  intros Hn Hl. split; [|exact Hl]. intros (sym & script & fr & Hf & _). rewrite Hn in Hf. discriminate Hf.
Qed.

(* one hand-over is a run of fuel 1 that stops for lack of fuel: run-level frame lemmas apply to steps *)
Lemma step_next_run1 {rs sep lang b v l1 b1 v1} :
  run_step rs sep lang b v = Next l1 b1 v1 -> run 1 rs sep lang b v = (v1, b1, SFuel).
Proof. intros Hs. rewrite run_S, Hs. reflexivity. Qed.

Lemma loadfail_free_reaches {rs sep lang b v l1 b1 v1} :
  loadfail_free rs v -> reaches rs sep (lang, b, v) (l1, b1, v1) -> loadfail_free rs v1.
Proof.
  intros Hlf Hr.
  refine (reaches_invariant rs sep (fun _ _ x => loadfail_free rs x) _ lang b v l1 b1 v1 Hlf Hr).
  intros la ba va lb bb vb [Hnf Hl] Hs. split; [exact Hnf|].
  eapply (FlagProofs.run_keeps_loadfail rs Hnf); [exact (step_next_run1 Hs)|exact Hl].
Qed.

Lemma loadfail_free_no_divert rs v : loadfail_free rs v -> diverts v = false.
Proof. intros [_ Hl]. unfold diverts. rewrite Hl. reflexivity. Qed.

(* Panic sites of the model reachable from `run`, and why each can or cannot be raised:
     1, 2, 3   Codec.go_index / go_slice / go_slice_from (index / slice out of range in the decoder):
               never (CodecProofs.op_split_no_panic, parse_args_no_panic) — for ANY bytes;
     10        CacheModel.cache_add on a cache without frames (Go: index -1): excluded by the
               invariant c_frames <> [] (every cache made by NewCache has one frame; kept by the loop);
     11        CacheModel.cache_keys: called by nothing in the model;
     20        StateModel.get_flag (State.GetFlag via MatchFlag): CATCH / CROAK whose flag is outside the
               flag field — raised while EXECUTING a complete instruction;
     21, 22    StateModel.set_flag / reset_flag: a function result's FlagSet / FlagReset outside the field;
     23, 24    StateModel.st_down (State.Down): guarded by applyTarget (NavProofs.apply_never_panics);
     rs_code   a code getter that itself panics: excluded by code_total (below). *)

Definition fl_okb (st : state) (fl : list N) : bool :=
  forallb (fun f => negb (is_writeable_flag f) || flag_in_range st f) fl.
Definition fres_flags_okb (st : state) (fr : fres) : bool := fl_okb st (fr_reset fr) && fl_okb st (fr_set fr).

Definition instr_flags_okb (st : state) (i : instr) : bool :=
  match i with ICatch _ f _ | ICroak f _ => flag_in_range st f | _ => true end.

Definition code_total (rs : rsrc) : Prop := forall sym, is_panic (rs_code rs sym) = false.

Definition panic_cause (rs : rsrc) (st : state) (i : instr) (n : N) : Prop :=
  (n = 20 /\ instr_flags_okb st i = false)
  \/ ((n = 21 \/ n = 22) /\
      exists key script fr, rs_func rs key = Some script /\ In fr script /\ fres_flags_okb st fr = false).

Lemma fl_okb_ext st st' fl : (forall i, flag_in_range st' i = flag_in_range st i) -> fl_okb st' fl = fl_okb st fl.
Proof.
  intros He. unfold fl_okb. induction fl as [|f fl IH]; [reflexivity|].
  cbn [forallb]. rewrite He, IH. reflexivity.
Qed.
Lemma panic_cause_shape {rs a b i n} : same_shape a b -> panic_cause rs b i n -> panic_cause rs a i n.
Proof.
  intros Hs. pose proof (fun f => shape_range a b f Hs) as He.
  intros [[Hn Hf]|[Hn (key & script & fr & H1 & H2 & H3)]].
  - left. split; [exact Hn|]. destruct i; try exact Hf; cbn [instr_flags_okb] in *; rewrite <- He; exact Hf.
  - right. split; [exact Hn|]. exists key, script, fr. split; [exact H1|]. split; [exact H2|].
    unfold fres_flags_okb in *. rewrite <- !(fl_okb_ext a b) by exact He. exact H3.
Qed.

(* the cause in terms of the decidable guards *)
Lemma flag_cause_panic rs st i n : flag_cause rs st i n -> panic_cause rs st i n.
Proof.
  intros [[-> H]|[Hn (key & script & fr & f & H1 & H2 & H3 & H4 & H5)]].
  - left. split; [reflexivity|]. destruct i; try contradiction; exact H.
  - right. split; [exact Hn|]. exists key, script, fr. split; [exact H1|]. split; [exact H2|].
    assert (Hf : forall fl, In f fl -> fl_okb st fl = false).
    { intros fl Hin. apply Bool.not_true_is_false. unfold fl_okb. rewrite forallb_forall. intros E.
      specialize (E f Hin). rewrite H4, H5 in E. discriminate E. }
    unfold fres_flags_okb. apply in_app_or in H3. destruct H3 as [H3|H3]; rewrite (Hf _ H3); [reflexivity|apply Bool.andb_false_r].
Qed.

Lemma exec_instr_panic_cause rs sep lang i b v :
  c_frames (v_ca v) <> [] -> code_total rs ->
  match snd (exec_instr rs sep lang i b v) with SPanic n => panic_cause rs (v_st v) i n | _ => True end.
Proof.
  intros Hne Hct. destruct (exec_instr_eff rs sep lang i b v Hne)
    as [v' s _ _ Hp _|t st0 nsym v' b' s _ _ _ Hc| | |sym v1 content v' s _ _ _ _ Hs]; cbn [snd]; try exact I.
  - destruct s; try exact I. apply flag_cause_panic, Hp. reflexivity.
  - specialize (Hct nsym). destruct (rs_code rs nsym); [destruct Hc as [-> _]; exact I..|discriminate Hct].
  - destruct s; try exact I. discriminate Hs.
Qed.

(* the decoder, runErrCheck and runDeadCheck raise no panic *)
Lemma run_step_panic {rs sep lang b v v' rest n} :
  run_step rs sep lang b v = Done (v', rest, SPanic n) ->
  exists op b1 i b2 v1 b2',
    op_split b = Ok (op, b1) /\ parse_args op b1 = Ok (i, b2) /\
    exec_instr rs sep (eff_lang lang (v_st v)) i b2 (vlog (run_prelude v) (EvInstr op)) = (v1, b2', SPanic n).
Proof.
  unfold run_step, step_exec. destruct (getf (v_st v) FLAG_TERMINATE); [discriminate|]. cbv zeta.
  pose proof (op_split_no_panic b) as Hop. destruct (op_split b) as [[op b1]|e|k]; [|discriminate..].
  pose proof (parse_args_no_panic op b1) as Hpa. destruct move_catch_cons as (x & y & t & Hmc).
  destruct (parse_args op b1) as [[i b2]|e|k] eqn:Hp; [| |discriminate Hpa].
  - destruct (exec_instr _ _ _ i b2 _) as [[v1 b2'] s] eqn:He. intros H.
    enough (s = SPanic n) by (subst s; exists op, b1, i, b2, v1, b2'; auto). revert H.
    destruct (op =? op_HALT); [congruence|]. unfold err_check. destruct s as [|e m|p|]; cbv zeta.
    + destruct b2'; [|discriminate]. destruct (dead_check v1) as [[v3 b4] s3] eqn:Hd.
      destruct s3; try discriminate; [destruct b4; discriminate|]. intros [= -> -> ->].
      destruct (dead_check_cases v1); discriminate Hd.
    + destruct (_ && _); [rewrite Hmc|]; discriminate.
    + congruence.
    + discriminate.
  - destruct (op =? op_HALT); [discriminate|]. unfold err_check. cbv zeta. destruct (_ && _); [rewrite Hmc|]; discriminate.
Qed.

Lemma run_step_panic_cause {rs sep lang b v v' rest n} :
  c_frames (v_ca v) <> [] -> code_total rs ->
  run_step rs sep lang b v = Done (v', rest, SPanic n) ->
  exists i r, decode_one b = Ok (i, r) /\ strict_one b = Some (i, r) /\ panic_cause rs (v_st v) i n.
Proof.
  intros Hne Hct H. destruct (run_step_panic H) as (op & b1 & i & b2 & v1 & b2' & Ho & Hp & He).
  assert (Hd : decode_one b = Ok (i, b2)) by (rewrite (decode_one_of_split _ _ _ Ho); exact Hp).
  exists i, b2. split; [exact Hd|]. split; [apply decode_one_strict; exact Hd|].
  apply (panic_cause_shape (flagish_shape _ _ (loop_st_flagish (v_st v)))).
  pose proof (exec_instr_panic_cause rs sep (eff_lang lang (v_st v)) i b2 (vlog (run_prelude v) (EvInstr op)) Hne Hct) as Hc.
  rewrite He in Hc. exact Hc.
Qed.

Lemma run_frames rs fuel sep lang b v :
  c_frames (v_ca v) <> [] -> c_frames (v_ca (fst (fst (run fuel rs sep lang b v)))) <> [].
Proof. exact (vm_ops_frames _ _ _ _ _ (run_vm_ops fuel rs sep lang b v)). Qed.

(* (c), precise form: a panic of the run is raised by EXECUTING an instruction that decoded (by the
   decoder and by the strict grammar) at a configuration the run reached, and its cause is a flag
   index outside the flag field: of CATCH/CROAK (site 20) or of a function result (sites 21/22) *)
Theorem run_panic_cause {rs sep fuel lang code v v' rest n} :
  c_frames (v_ca v) <> [] -> code_total rs ->
  run fuel rs sep lang code v = (v', rest, SPanic n) ->
  exists l1 b1 v1 i r,
    reaches rs sep (lang, code, v) (l1, b1, v1)
    /\ decode_one b1 = Ok (i, r) /\ strict_one b1 = Some (i, r)
    /\ panic_cause rs (v_st v) i n.
Proof.
  revert lang code v. induction fuel as [|fuel IH]; intros lang code v Hne Hct H; [discriminate H|].
  rewrite run_S in H. destruct (run_step rs sep lang code v) as [r|l b v2] eqn:Hs.
  - subst r. destruct (run_step_panic_cause Hne Hct Hs) as (i & r & Hd).
    exists lang, code, v, i, r. split; [apply reach_refl|exact Hd].
  - (* the next configuration has a cache with a frame and the flag field of this one *)
    pose proof (step_next_run1 Hs) as H1.
    pose proof (run_frames rs 1 sep lang code v Hne) as Hf. rewrite H1 in Hf.
    destruct (IH l b v2 Hf Hct H) as (l1 & b1 & v1 & i & r & Hr & Hd & Hst & Hc).
    exists l1, b1, v1, i, r. split; [eapply reach_step; eassumption|]. split; [exact Hd|]. split; [exact Hst|].
    exact (panic_cause_shape (FlagProofs.run_shape _ _ _ _ _ _ _ _ _ H1) Hc).
Qed.

Definition funcs_flags_ok (rs : rsrc) (st : state) : Prop :=
  forall key script fr, rs_func rs key = Some script -> In fr script -> fres_flags_okb st fr = true.

(* every instruction that DECODES along the run has its flag argument inside the flag field.
   Checking against the INITIAL state is enough: no step changes the extent of the flag field
   (FlagProofs.run_shape), and the guards look at a state only through that extent (panic_cause_shape) *)
Definition decoded_flags_ok (rs : rsrc) (sep : bytes) (lang : option bytes) (code : bytes) (v : vmst) : Prop :=
  forall l1 b1 v1 i r, reaches rs sep (lang, code, v) (l1, b1, v1) -> decode_one b1 = Ok (i, r) ->
    instr_flags_okb (v_st v) i = true.

(* an executable (decidable) check of decoded_flags_ok for a concrete case: walk the run *)
Fixpoint traj_flags_okb (m : nat) (rs : rsrc) (sep : bytes) (st0 : state)
                        (lang : option bytes) (b : bytes) (v : vmst) : bool :=
  match m with
  | O => false
  | S m' =>
    (match decode_one b with Ok (i, _) => instr_flags_okb st0 i | _ => true end)
    && match run_step rs sep lang b v with
       | Done _ => true
       | Next l1 b1 v1 => traj_flags_okb m' rs sep st0 l1 b1 v1
       end
  end.

Lemma traj_flags_okb_sound m rs sep st0 : forall lang b v,
  traj_flags_okb m rs sep st0 lang b v = true ->
  forall l1 b1 v1 i r, reaches rs sep (lang, b, v) (l1, b1, v1) -> decode_one b1 = Ok (i, r) ->
    instr_flags_okb st0 i = true.
Proof.
  induction m as [|m IH]; intros lang b v H l1 b1 v1 i r Hr Hd; [discriminate H|].
  cbn [traj_flags_okb] in H. apply andb_prop in H. destruct H as [H1 H2].
  inversion Hr as [c0|lang0 b0 v0 l2 b2 v2 c0 Hs Hr']; subst.
  - rewrite Hd in H1. exact H1.
  - rewrite Hs in H2. eapply IH; eassumption.
Qed.

(* a check that decides funcs_flags_ok for an application's resource; that it implies it is
   props/C15run.v, C15_funcs_flags_ok_decidable *)
Definition funcs_flags_okb (a : app) (st : state) : bool :=
  forallb (fun f => forallb (fres_flags_okb st) (snd f)) (a_funcs a).

Lemma funcs_flags_ok_nofunc rs st : (forall sym, rs_func rs sym = None) -> funcs_flags_ok rs st.
Proof. intros Hn key script fr Hf. rewrite Hn in Hf. discriminate Hf. Qed.

(* the differential driver (go/cmd/vh/vmrun.go, corr/VmRunCorr.v) runs on vr_rsrc, which is empty_rsrc
   (no function, HALT for _catch, empty code elsewhere) plus one entry function *)
From Vise Require Import CorrBase EngineCorr VmRunCorr.

Lemma empty_rsrc_total : code_total empty_rsrc.
Proof. intros sym. cbn [empty_rsrc rs_code]. destruct (bytes_eqb sym catch_sym); reflexivity. Qed.
Lemma empty_rsrc_nofunc : forall sym, rs_func empty_rsrc sym = None.
Proof. reflexivity. Qed.

(* the scenario of the seeded change C15-m3: INMATCH and READIN set, input "1", a truncated INCMP
   (C15_m3_scenario, C15_m3_rejected_all_fuel) *)
Definition m3_case : vrcase := mkVr [0; 1] (Some (s2b "1")) [s2b "root"] [0; 8; 1] [] OSOk [] [] [].
(* the same bytes with LOADFAIL set instead: the error is diverted (C15_run_rejects_malformed_next_refuted_loadfail) *)
Definition loadfail_case : vrcase := mkVr [3] (Some (s2b "1")) [s2b "root"] [0; 8; 1] [] OSOk [] [] [].
(* a valid program (C15_valid_run, C15_valid_never_panics) *)
Definition valid_case : vrcase :=
  mkVr [] (Some (s2b "1")) [s2b "root"] (encode_prog [IMove (s2b "foo"); IHalt]) [] OSOk [] [] [].
(* a complete CATCH whose flag (200) is outside the 16-bit flag field of NewState(4) (C15_flag_range_panic) *)
Definition flag_case : vrcase :=
  mkVr [] (Some (s2b "1")) [s2b "root"] (encode_prog [ICatch (s2b "foo") 200 true; IHalt]) [] OSOk [] [] [].

(* the one entry function of vr_rsrc ("lds", there so that a LOAD can succeed and a second LOAD of the
   symbol finds it cached) cannot fail and names no flags — the guards of (b) and (c) hold for vr_rsrc *)
Lemma vr_rsrc_func sym script : rs_func vr_rsrc sym = Some script -> script = [mkFres (s2b "x") false 0 [] [] false].
Proof. cbn [vr_rsrc rs_func]. destruct (bytes_eqb sym lds_sym); [intros H; injection H as <-; reflexivity|discriminate]. Qed.
Lemma vr_rsrc_funcs_flags_ok st : funcs_flags_ok vr_rsrc st.
Proof.
  intros key script fr Hf Hin. rewrite (vr_rsrc_func _ _ Hf) in Hin. destruct Hin as [<-|[]]. reflexivity.
Qed.
