(* The key layer (DbKey.v) and the backends (DbModel.v) against the reference map, for C10 and C11.
   Storage keys of well-formed abstract keys are injective (enc_a_injective); hence a backend that keeps
   the entry of a at loc a (holds) refines the reference map step by step (holds_put, put_in_rel, run_refines):
   first the memory and Postgres backends (kv_run_refines).  Then what a Put and a sealed context leave
   alone (put_frame, sealed_step), and the reference map by itself: a Put is seen at its own key only
   (spec_noninterference).  Then fs: paths, the base64 round trip (b64_dec_enc), file names, fs_run_refines.
   The rest is Dump: the fs listing of a sorted directory (fs_dump_after_run) and the Postgres listing
   against the entries of the current space (pg_listing_isolated_state). *)
From Coq Require Import Lia ZArith Sorted Permutation.
From Coq Require Import ZifyN ZifyNat ZifyBool.
From Vise Require Import Bytes Errors Consts DbKey DbModel BytesProofs.
Local Open Scope N_scope.

Lemma beq_false a b : bytes_eqb a b = false -> a <> b.
Proof. apply beqb_false. Qed.

Lemma in_alookup_nodup {V} (l : list (bytes * V)) k v : NoDup (map fst l) -> In (k, v) l -> alookup k l = Some v.
Proof.
  induction l as [|[k' v'] l IH]; intros Hd Hin; [destruct Hin|].
  inversion Hd as [|? ? Hn Hd']; subst. cbn [alookup].
  destruct Hin as [E|Hin]; [injection E as -> ->; rewrite bytes_eqb_refl; reflexivity|].
  destruct (bytes_eqb_spec k k') as [->|_]; [|auto]. destruct Hn. apply (in_map fst _ _ Hin).
Qed.

Lemma has_byte_app b x y : has_byte b (x ++ y) = has_byte b x || has_byte b y.
Proof. unfold has_byte. apply existsb_app. Qed.
Lemma has_byte_cons b c x : has_byte b (c :: x) = (b =? c) || has_byte b x.
Proof. reflexivity. Qed.

Lemma is_nil_true {A} (l : list A) : is_nil l = true -> l = [].
Proof. destruct l; [reflexivity|discriminate]. Qed.

Lemma dot_free_cons c x : dot_free (c :: x) = true -> c <> ch_dot /\ dot_free x = true.
Proof.
  unfold dot_free. rewrite has_byte_cons. intros H. apply negb_true_iff in H.
  apply orb_false_iff in H as [H1 H2]. split.
  - intros ->. unfold ch_dot in H1. discriminate.
  - apply negb_true_iff. exact H2.
Qed.
Lemma dot_free_app_dot x y : dot_free (x ++ ch_dot :: y) = false.
Proof.
  unfold dot_free. rewrite has_byte_app, has_byte_cons. cbn. rewrite orb_true_r. reflexivity.
Qed.

Lemma first_dot_split s : forall s' r r',
  dot_free s = true -> dot_free s' = true -> s ++ ch_dot :: r = s' ++ ch_dot :: r' -> s = s' /\ r = r'.
Proof.
  induction s as [|c s IH]; intros [|c' s'] r r' Hs Hs' E; cbn [app] in E.
  - injection E as E. auto.
  - injection E as E1 E2. apply dot_free_cons in Hs' as [Hc _]. congruence.
  - injection E as E1 E2. apply dot_free_cons in Hs as [Hc _]. congruence.
  - injection E as E1 E2. subst c'. apply dot_free_cons in Hs as [_ Hs]. apply dot_free_cons in Hs' as [_ Hs'].
    destruct (IH s' r r' Hs Hs' E2) as [-> ->]. auto.
Qed.

Lemma sid_enc_app s k : s <> [] -> sid_enc s ++ k = s ++ ch_dot :: k.
Proof. intros H. destruct s; [congruence|]. cbn [sid_enc]. rewrite <- app_assoc. reflexivity. Qed.

Lemma wf_sid_spec s : wf_sid s = true -> s <> [] /\ dot_free s = true.
Proof.
  unfold wf_sid. intros H. apply andb_true_iff in H as [H1 H2]. split; [|exact H2].
  destruct s; [discriminate|congruence].
Qed.

Lemma sess_app_inj s s' k k' :
  dot_free s = true -> dot_free s' = true ->
  (s = [] -> dot_free k = true) -> (s' = [] -> dot_free k' = true) ->
  sid_enc s ++ k = sid_enc s' ++ k' -> s = s' /\ k = k'.
Proof.
  intros Hs Hs' Hk Hk' E. destruct s as [|c s], s' as [|c' s'].
  - auto.
  - exfalso. rewrite (sid_enc_app (c' :: s')) in E by discriminate. specialize (Hk eq_refl).
    change (sid_enc [] ++ k) with k in E. rewrite E, dot_free_app_dot in Hk. discriminate.
  - exfalso. rewrite (sid_enc_app (c :: s)) in E by discriminate. specialize (Hk' eq_refl).
    change (sid_enc [] ++ k') with k' in E. rewrite <- E, dot_free_app_dot in Hk'. discriminate.
  - rewrite !sid_enc_app in E by discriminate. apply first_dot_split in E; auto.
Qed.

Lemma skey_type [t s l k t' s' l' k'] : skey t s l k = skey t' s' l' k' -> t = t'.
Proof. unfold skey, to_db_key. intros H. injection H as H _. exact H. Qed.

Lemma skey_sessioned_injective : forall t s k t' s' k',
  sessioned t = true -> sessioned t' = true -> wf_sid s = true -> wf_sid s' = true ->
  skey t s None k = skey t' s' None k' -> (t, s, k) = (t', s', k').
Proof.
  intros t s k t' s' k' Ht Ht' Hs Hs' E.
  pose proof (skey_type E) as Et. subst t'.
  unfold skey, to_db_key, lang_suffix in E. rewrite Ht in E. rewrite !app_nil_r in E.
  injection E as E.
  apply wf_sid_spec in Hs as [Hn Hd]. apply wf_sid_spec in Hs' as [Hn' Hd'].
  apply sess_app_inj in E; auto; try (intros; congruence).
  destruct E as [-> ->]. reflexivity.
Qed.

Lemma app_inv_len_r {A} (a : list A) : forall b c d,
  List.length c = List.length d -> a ++ c = b ++ d -> a = b /\ c = d.
Proof.
  induction a as [|x a IH]; intros [|y b] c d Hl E; cbn [app] in E.
  - auto.
  - exfalso. subst c. cbn [List.length] in Hl. rewrite app_length in Hl. lia.
  - exfalso. subst d. cbn [List.length] in Hl. rewrite app_length in Hl. lia.
  - injection E as -> E. destruct (IH b c d Hl E) as [-> ->]. auto.
Qed.

Lemma no_lang_suffix_app x c : len c = 3 -> no_lang_suffix (x ++ ch_us :: c) = false.
Proof.
  intros Hc. unfold no_lang_suffix. apply negb_false_iff. apply andb_true_iff. split.
  - rewrite len_app, len_cons. apply N.leb_le. lia.
  - replace (N.to_nat (len (x ++ ch_us :: c) - 4)) with (List.length x).
    + rewrite nth_middle. reflexivity.
    + rewrite len_app, len_cons. unfold len in *. lia.
Qed.

Definition lang_ok (l : option bytes) : Prop := match l with Some c => len c = 3 | None => True end.

Lemma lang_suffix_some t c : lang_type t = true -> len c = 3 -> lang_suffix t (Some c) = ch_us :: c.
Proof.
  intros Ht Hc. unfold lang_suffix. destruct c as [|x c]; [cbn in Hc; discriminate|]. rewrite Ht. reflexivity.
Qed.

(* a language suffix is "_" + three bytes, and a key that carries none does not end that way:
   the suffix can be split off again *)
Definition lang_fits (t : N) (l : option bytes) (k : bytes) : Prop :=
  if lang_type t then match l with Some c => len c = 3 | None => no_lang_suffix k = true end else l = None.

Lemma lang_suffix_inj t [k l k' l'] : lang_fits t l k -> lang_fits t l' k' ->
  k ++ lang_suffix t l = k' ++ lang_suffix t l' -> k = k' /\ l = l'.
Proof.
  unfold lang_fits. destruct (lang_type t) eqn:Ht.
  - destruct l as [c|], l' as [c'|]; intros Hl Hl' E; rewrite ?lang_suffix_some in E by assumption;
      cbn [lang_suffix] in E; rewrite ?app_nil_r in E.
    + apply app_inv_len_r in E as [-> E]; [injection E as ->; auto|].
      unfold len in *. cbn [List.length]. lia.
    + exfalso. rewrite <- E, no_lang_suffix_app in Hl' by assumption. discriminate.
    + exfalso. rewrite E, no_lang_suffix_app in Hl by assumption. discriminate.
    + auto.
  - intros -> -> E. cbn [lang_suffix] in E. rewrite !app_nil_r in E. auto.
Qed.

Definition is_none {A} (o : option A) : bool := match o with None => true | Some _ => false end.

Definition a_sid (a : akey) : bytes := match a_sess a with Some s => s | None => [] end.
Definition a_sk (a : akey) : bytes := if sessioned (a_typ a) then sid_enc (a_sid a) ++ a_key a else a_key a.
Definition enc_a (a : akey) : bytes := skey (a_typ a) (a_sid a) (a_lang a) (a_key a).

(* a session id exactly for the sessioned types, dot-free, the empty one only with a dot-free key *)
Definition wf_sess (a : akey) : bool :=
  if sessioned (a_typ a) then
    match a_sess a with
    | Some s => dot_free s && (if is_nil s then dot_free (a_key a) else true)
    | None => false
    end
  else is_none (a_sess a).
(* a language only for the language-scoped types, of three bytes; without one, no suffix look-alike *)
Definition wf_lng (a : akey) : bool :=
  if lang_type (a_typ a) then
    match a_lang a with Some c => len c =? 3 | None => no_lang_suffix (a_sk a) end
  else is_none (a_lang a).
Definition wf_akey (a : akey) : bool := wf_sess a && wf_lng a.

Lemma enc_a_unfold a : enc_a a = a_typ a :: a_sk a ++ lang_suffix (a_typ a) (a_lang a).
Proof. reflexivity. Qed.

Lemma wf_lng_fits a : wf_lng a = true -> lang_fits (a_typ a) (a_lang a) (a_sk a).
Proof.
  unfold wf_lng, lang_fits. destruct (lang_type (a_typ a)).
  - destruct (a_lang a); [apply N.eqb_eq|auto].
  - destruct (a_lang a); [discriminate|reflexivity].
Qed.

Lemma wf_sess_inj a a' : wf_sess a = true -> wf_sess a' = true -> a_typ a = a_typ a' -> a_sk a = a_sk a' ->
  a_sess a = a_sess a' /\ a_key a = a_key a'.
Proof.
  unfold wf_sess, a_sk, a_sid. intros W W' Et. rewrite <- Et in *. revert W W'. destruct (sessioned (a_typ a)); intros W W'.
  - destruct (a_sess a) as [s|]; [|discriminate]. destruct (a_sess a') as [s'|]; [|discriminate].
    apply andb_true_iff in W as [Wd Wk]. apply andb_true_iff in W' as [Wd' Wk']. intros E.
    apply sess_app_inj in E as [-> ->]; auto; intros ->; assumption.
  - destruct (a_sess a); [discriminate|]. destruct (a_sess a'); [discriminate|]. auto.
Qed.

Theorem enc_a_injective a a' : wf_akey a = true -> wf_akey a' = true -> enc_a a = enc_a a' -> a = a'.
Proof.
  unfold wf_akey. intros W W' E. apply andb_true_iff in W as [Ws Wl]. apply andb_true_iff in W' as [Ws' Wl'].
  rewrite !enc_a_unfold in E. injection E as Et E.
  apply wf_lng_fits in Wl, Wl'. rewrite <- Et in Wl', E.
  destruct (lang_suffix_inj _ Wl Wl' E) as [Esk El].
  destruct (wf_sess_inj a a' Ws Ws' Et Esk) as [Es Ek].
  destruct a as [t s l k], a' as [t' s' l' k']. cbn [a_typ a_sess a_lang a_key] in *. congruence.
Qed.

Definition ctx_ok (b : base) : Prop := dot_free (b_sid b) = true /\ lang_ok (b_lang b).

Lemma obytes_eqb_eq a b : obytes_eqb a b = true <-> a = b.
Proof. destruct a as [x|], b as [y|]; cbn [obytes_eqb]; rewrite ?bytes_eqb_eq; split; congruence. Qed.
Lemma akey_eqb_eq a b : akey_eqb a b = true <-> a = b.
Proof.
  destruct a as [t s l k], b as [t' s' l' k']. unfold akey_eqb. cbn [a_typ a_sess a_lang a_key].
  rewrite !andb_true_iff, N.eqb_eq, !obytes_eqb_eq, bytes_eqb_eq. split.
  - intros [[[-> ->] ->] ->]. reflexivity.
  - intros H. injection H as -> -> -> ->. auto.
Qed.
Lemma akey_eqb_refl a : akey_eqb a a = true.
Proof. apply akey_eqb_eq. reflexivity. Qed.
Lemma akey_eqb_neq a b : a <> b -> akey_eqb a b = false.
Proof. intros H. destruct (akey_eqb a b) eqn:E; [|reflexivity]. apply akey_eqb_eq in E. contradiction. Qed.

Lemma ctx_akey_sk b l k :
  a_sk (ctx_akey b l k) = to_session_key (model_base b) (b_pfx b) k.
Proof.
  unfold a_sk, ctx_akey, to_session_key, a_sid. cbn [a_typ a_sess a_key model_base b_sid].
  destruct (sessioned (b_pfx b)); reflexivity.
Qed.

Lemma eff_lang_some b c : eff_lang b = Some c -> lang_type (b_pfx b) = true /\ b_lang b = Some c /\ c <> [].
Proof.
  unfold eff_lang. destruct (lang_type (b_pfx b)); [|discriminate].
  destruct (b_lang b) as [[|x r]|]; try discriminate. intros H. injection H as <-. repeat split. discriminate.
Qed.
Lemma eff_lang_not_lang b : lang_type (b_pfx b) = false -> eff_lang b = None.
Proof. unfold eff_lang. intros ->. reflexivity. Qed.

Lemma ctx_akey_wf b l k :
  ctx_ok b -> key_ok b k = true -> l = None \/ l = eff_lang b -> wf_akey (ctx_akey b l k) = true.
Proof.
  intros [Hd Hl] Hk Hlang. unfold key_ok in Hk. apply andb_true_iff in Hk as [Hk1 Hk2].
  unfold wf_akey. apply andb_true_iff. split.
  - unfold wf_sess, ctx_akey. cbn [a_typ a_sess a_key].
    destruct (sessioned (b_pfx b)); [|reflexivity]. rewrite Hd. cbn [andb] in *.
    destruct (is_nil (b_sid b)); [exact Hk1|reflexivity].
  - unfold wf_lng. rewrite ctx_akey_sk. cbn [ctx_akey a_typ a_lang].
    destruct l as [c|].
    + destruct Hlang as [Hlang|Hlang]; [discriminate|]. symmetry in Hlang.
      apply eff_lang_some in Hlang as (-> & Hb & _). rewrite Hb in Hl. apply N.eqb_eq. exact Hl.
    + destruct (lang_type (b_pfx b)); [exact Hk2|reflexivity].
Qed.

(* ToKey in the model context, over an encoding f of abstract keys *)
Definition lk_of (f : akey -> bytes) (b : base) (k : bytes) : lookup_key :=
  mkLk (f (ctx_akey b None k)) (option_map (fun c => f (ctx_akey b (Some c) k)) (eff_lang b)).

Lemma lk_of_target f b k :
  match lk_translation (lk_of f b k) with Some t => t | None => lk_default (lk_of f b k) end
  = f (ctx_akey b (eff_lang b) k).
Proof. unfold lk_of. destruct (eff_lang b); reflexivity. Qed.

(* DATATYPE_UNKNOWN is 0: statements say t <> 0, to_key compares with the constant *)
Lemma eqb_unknown t : t <> 0 -> (t =? DATATYPE_UNKNOWN) = false.
Proof. apply N.eqb_neq. Qed.

Lemma check_put_model b : check_put (model_base b) = check_put b.
Proof. reflexivity. Qed.

Lemma to_key_model b k : ctx_ok b ->
  to_key (model_base b) k = if b_pfx b =? DATATYPE_UNKNOWN then Err EGen else Ok (lk_of enc_a b k).
Proof.
  intros [Hd Hl]. unfold to_key. cbn [model_base b_pfx b_lang]. destruct (b_pfx b =? DATATYPE_UNKNOWN); [reflexivity|].
  f_equal. unfold lk_of, enc_a, skey, ctx_akey, a_sid, to_session_key, eff_lang.
  cbn [a_typ a_sess a_lang a_key model_base b_sid].
  destruct (sessioned (b_pfx b)) eqn:Hs; destruct (lang_type (b_pfx b)) eqn:Ht;
    try reflexivity;
    (destruct (b_lang b) as [[|x r]|]; cbn [lang_ok] in Hl; [cbn in Hl; discriminate| |]; reflexivity).
Qed.

Lemma set_lock_ctx b p lk :
  set_lock (model_base b) p lk = (model_base (fst (set_lock b p lk)), snd (set_lock b p lk))
  /\ b_sid (fst (set_lock b p lk)) = b_sid b /\ b_lang (fst (set_lock b p lk)) = b_lang b
  /\ b_pfx (fst (set_lock b p lk)) = b_pfx b.
Proof.
  unfold set_lock. cbn [model_base b_seal b_pfx b_sid b_lang b_lock].
  destruct (b_seal b); [auto|]. destruct (p =? 0); [auto|]. destruct lk; auto.
Qed.

(* loc a is where a backend keeps the entry of the abstract key a (a hex string, a raw storage key,
   a file path), wf the keys it is injective on *)
Definition holds (loc : akey -> bytes) (wf : akey -> bool)
    (store : list (bytes * bytes)) (m : list (akey * bytes)) : Prop :=
  (forall a, wf a = true -> alookup (loc a) store = slookup a m)
  /\ (forall p, In p (map fst store) -> exists a, wf a = true /\ p = loc a)
  /\ NoDup (map fst store)
  /\ (forall a v, In (a, v) m -> wf a = true).

Lemma holds_at [loc wf store m a] : holds loc wf store m -> wf a = true -> alookup (loc a) store = slookup a m.
Proof. intros (Hm & _). apply Hm. Qed.
Lemma holds_key [loc wf store m p] : holds loc wf store m -> In p (map fst store) -> exists a, wf a = true /\ p = loc a.
Proof. intros (_ & Hf & _). apply Hf. Qed.
Lemma holds_wf [loc wf store m a v] : holds loc wf store m -> In (a, v) m -> wf a = true.
Proof. intros (_ & _ & _ & Hw). apply Hw. Qed.

Definition inj_on (wf : akey -> bool) (loc : akey -> bytes) : Prop :=
  forall a a', wf a = true -> wf a' = true -> loc a = loc a' -> a = a'.

Lemma holds_nil loc wf : holds loc wf [] [].
Proof.
  split; [intros a _; reflexivity|]. split; [intros p []|]. split; [constructor|intros a v []].
Qed.

Lemma holds_put loc wf store m a0 v :
  inj_on wf loc -> wf a0 = true -> holds loc wf store m -> holds loc wf (aset (loc a0) v store) ((a0, v) :: m).
Proof.
  intros Hinj W0 (Hm & Hf & Hnd & Hw). split; [|split; [|split]].
  - intros a Wa. cbn [slookup]. destruct (akey_eqb a a0) eqn:Ea.
    + apply akey_eqb_eq in Ea. subst a. apply alookup_aset_same.
    + rewrite alookup_aset_other; [apply Hm; exact Wa|].
      intros E. apply Hinj in E; auto. subst a. rewrite akey_eqb_refl in Ea. discriminate.
  - intros p Hin. rewrite keys_aset in Hin. destruct (ahas (loc a0) store); [exact (Hf p Hin)|].
    apply in_app_or in Hin as [Hin|[<-|[]]]; [exact (Hf p Hin)|exists a0; auto].
  - apply NoDup_aset. exact Hnd.
  - intros a w [E|Hin]; [injection E as <- _; exact W0|eapply Hw; exact Hin].
Qed.

Lemma holds_entry [loc wf store m p v] : holds loc wf store m -> In (p, v) store ->
  exists a, wf a = true /\ p = loc a /\ slookup a m = Some v.
Proof.
  intros (Hm & Hf & Hnd & _) Hin. destruct (Hf p (in_map fst _ _ Hin)) as [a [Wa ->]]. exists a. split; [exact Wa|].
  split; [reflexivity|]. rewrite <- (Hm a Wa). apply in_alookup_nodup; assumption.
Qed.

(* Put in the context b, in the reference and in every backend once its key derivation and its guards
   are unfolded: refused under a lock on the type, an error without a type, else s becomes s' *)
Definition put_in {S} (b : base) (s s' : S) : S * dbres :=
  if negb (check_put b) then (s, DRefused)
  else if b_pfx b =? DATATYPE_UNKNOWN then (s, DErr EGen)
  else (s', DOk).

Lemma spec_put_eq sp k v :
  spec_put sp k v
  = put_in (sp_base sp) sp (mkSpec (sp_base sp) ((ctx_akey (sp_base sp) (eff_lang (sp_base sp)) k, v) :: sp_map sp)).
Proof. reflexivity. Qed.

Lemma put_in_rel {S T} (R : S -> T -> Prop) b s s' t t' :
  R s t -> (b_pfx b <> 0 -> R s' t') ->
  R (fst (put_in b s s')) (fst (put_in b t t')) /\ snd (put_in b s s') = snd (put_in b t t').
Proof.
  intros H H'. unfold put_in. destruct (negb (check_put b)); [auto|].
  destruct (b_pfx b =? DATATYPE_UNKNOWN) eqn:E; [auto|]. apply N.eqb_neq in E. auto.
Qed.
Lemma put_in_inv {S} (P : S -> Prop) b s s' : P s -> (b_pfx b <> 0 -> P s') -> P (fst (put_in b s s')).
Proof. intros H H'. exact (proj1 (put_in_rel (fun x _ => P x) b s s' s s' H H')). Qed.

Definition put_at (loc : akey -> bytes) (st : dbstate) (b : base) (k v : bytes) : dbstate * dbres :=
  put_in b st (with_store st (aset (loc (ctx_akey b (eff_lang b) k)) v (d_store st))).

Definition ctx_rel (st : dbstate) (sp : spec) : Prop :=
  d_base st = model_base (sp_base sp) /\ ctx_ok (sp_base sp).

Lemma ctx_rel_init dir : ctx_rel (db_init dir) spec_init.
Proof. split; [reflexivity|split; [reflexivity|exact I]]. Qed.

Definition ctx_op (o : dbop) : bool :=
  match o with OSetPrefix _ | OSetSession _ | OSetLanguage _ | OSetLock _ _ => true | _ => false end.

Lemma ctx_op_refines be st sp o : ctx_op o = true -> ctx_rel st sp -> op_ok (sp_base sp) o = true ->
  ctx_rel (fst (db_step be st o)) (fst (spec_step sp o))
  /\ d_store (fst (db_step be st o)) = d_store st
  /\ sp_map (fst (spec_step sp o)) = sp_map sp
  /\ b_pfx (sp_base (fst (spec_step sp o))) = match o with OSetPrefix p => p | _ => b_pfx (sp_base sp) end
  /\ snd (db_step be st o) = snd (spec_step sp o).
Proof.
  intros Hc [Hb [Hd Hl]] Hok. unfold ctx_rel, ctx_ok.
  destruct o as [k v|k|p|s|l|p lk|k|k|k]; try discriminate Hc; cbn [db_step spec_step op_ok] in *.
  1, 2: rewrite Hb; repeat split; assumption.
  - rewrite Hb. repeat split; [exact Hd|]. destruct l as [c|]; [apply N.eqb_eq; exact Hok|exact I].
  - pose proof (set_lock_ctx (sp_base sp) p lk) as (H0 & H1 & H2 & H3). rewrite Hb, H0.
    destruct (set_lock (sp_base sp) p lk) as [b' ok]. cbn [fst snd with_base d_base d_store d_dir sp_base sp_map] in *.
    rewrite H1, H2. repeat split; assumption.
Qed.

Definition ref_state (ops : list dbop) : spec := fst (spec_run spec_init ops).

Lemma db_run_cons be st o r :
  db_run be st (o :: r)
  = (fst (db_run be (fst (db_step be st o)) r), snd (db_step be st o) :: snd (db_run be (fst (db_step be st o)) r)).
Proof. cbn [db_run]. destruct (db_step be st o) as [st' x]. cbn [fst snd]. destruct (db_run be st' r). reflexivity. Qed.
Lemma spec_run_cons sp o r :
  spec_run sp (o :: r)
  = (fst (spec_run (fst (spec_step sp o)) r), snd (spec_step sp o) :: snd (spec_run (fst (spec_step sp o)) r)).
Proof. cbn [spec_run]. destruct (spec_step sp o) as [sp' x]. cbn [fst snd]. destruct (spec_run sp' r). reflexivity. Qed.

(* hist is a guard on histories that checks ok of each operation in the reference context it meets
   (hist_ok, fs_hist_ok) *)
Lemma run_refines be (R : dbstate -> spec -> Prop) (ok : base -> dbop -> bool) (hist : spec -> list dbop -> bool) :
  (forall sp o r, hist sp (o :: r) = ok (sp_base sp) o && hist (fst (spec_step sp o)) r) ->
  (forall st sp o, R st sp -> ok (sp_base sp) o = true ->
     R (fst (db_step be st o)) (fst (spec_step sp o)) /\ snd (db_step be st o) = snd (spec_step sp o)) ->
  forall ops st sp, R st sp -> hist sp ops = true ->
  R (fst (db_run be st ops)) (fst (spec_run sp ops)) /\ snd (db_run be st ops) = snd (spec_run sp ops).
Proof.
  intros Hcons Hstep. induction ops as [|o ops IH]; intros st sp HR Hok; [auto|].
  rewrite Hcons in Hok. apply andb_true_iff in Hok as [Ho Hr].
  destruct (Hstep st sp o HR Ho) as [HR' Er]. destruct (IH _ _ HR' Hr) as [HR2 Ers].
  rewrite db_run_cons, spec_run_cons. cbn [fst snd]. rewrite Er, Ers. auto.
Qed.

Lemma db_run_inv be (P : dbstate -> Prop) :
  (forall st o, P st -> P (fst (db_step be st o))) -> forall ops st, P st -> P (fst (db_run be st ops)).
Proof.
  intros Hstep. induction ops as [|o ops IH]; intros st H; [exact H|].
  rewrite db_run_cons. cbn [fst]. apply IH, Hstep, H.
Qed.

Definition be_enc (be : backend) : bytes -> bytes :=
  match be with BMem => hex_enc | _ => fun x => x end.
Definition is_kv (be : backend) : bool := match be with BFs _ => false | _ => true end.

Definition kv_loc (enc : bytes -> bytes) (a : akey) : bytes := enc (enc_a a).
Definition kv_rel (enc : bytes -> bytes) (st : dbstate) (sp : spec) : Prop :=
  ctx_rel st sp /\ holds (kv_loc enc) wf_akey (d_store st) (sp_map sp).

Lemma hexdigit_inj a b : hexdigit a = hexdigit b -> a = b.
Proof. unfold hexdigit. destruct (a <? 10) eqn:Ea; destruct (b <? 10) eqn:Eb; lia. Qed.
Lemma hex_enc_inj x : forall y, hex_enc x = hex_enc y -> x = y.
Proof.
  induction x as [|a x IH]; intros [|b y] E; cbn [hex_enc] in E; try discriminate; [reflexivity|].
  injection E as E1 E2 E3. apply hexdigit_inj in E1, E2. f_equal; [|apply IH; exact E3].
  pose proof (N.div_mod a 16). pose proof (N.div_mod b 16). lia.
Qed.

Lemma kv_loc_inj be : inj_on wf_akey (kv_loc (be_enc be)).
Proof.
  intros a a' W W' E. apply enc_a_injective; [exact W|exact W'|].
  destruct be; [apply hex_enc_inj|..]; exact E.
Qed.

Lemma kv_put_eq [enc st sp] k v : ctx_rel st sp -> kv_put enc st k v = put_at (kv_loc enc) st (sp_base sp) k v.
Proof.
  intros [Hb Hc]. unfold kv_put, put_at, put_in. rewrite Hb, check_put_model.
  destruct (negb (check_put (sp_base sp))); [reflexivity|]. rewrite (to_key_model _ k Hc).
  destruct (b_pfx (sp_base sp) =? DATATYPE_UNKNOWN); [reflexivity|]. cbv beta iota zeta. rewrite lk_of_target. reflexivity.
Qed.

Lemma kv_get_refines enc st sp k :
  kv_rel enc st sp -> key_ok (sp_base sp) k = true -> kv_get enc st k = spec_get sp k.
Proof.
  intros [[Hb Hc] Hh] Hk. unfold kv_get, spec_get. rewrite Hb, (to_key_model _ k Hc).
  destruct (b_pfx (sp_base sp) =? DATATYPE_UNKNOWN); [reflexivity|]. cbn [lk_of lk_translation lk_default].
  fold (kv_loc enc (ctx_akey (sp_base sp) None k)).
  rewrite (holds_at Hh (ctx_akey_wf _ None k Hc Hk (or_introl eq_refl))).
  destruct (eff_lang (sp_base sp)) as [c|] eqn:El; cbn [option_map]; [|reflexivity].
  fold (kv_loc enc (ctx_akey (sp_base sp) (Some c) k)).
  rewrite (holds_at Hh (ctx_akey_wf _ (Some c) k Hc Hk (or_intror (eq_sym El)))). reflexivity.
Qed.

Lemma kv_step_refines be st sp o :
  is_kv be = true -> kv_rel (be_enc be) st sp -> op_ok (sp_base sp) o = true ->
  kv_rel (be_enc be) (fst (db_step be st o)) (fst (spec_step sp o))
  /\ snd (db_step be st o) = snd (spec_step sp o).
Proof.
  intros Hkv R Hok. pose proof R as [Hc Hh]. destruct (ctx_op o) eqn:Eo.
  - destruct (ctx_op_refines be st sp o Eo Hc Hok) as (Hc' & Es & Em & _ & Er).
    split; [|exact Er]. split; [exact Hc'|]. rewrite Es, Em. exact Hh.
  - destruct o as [k v|k|p|s|l|p lk|k|k|k]; try discriminate Eo; try discriminate Hok.
    + assert (E : db_step be st (OPut k v) = kv_put (be_enc be) st k v) by (destruct be; [reflexivity|reflexivity|discriminate]).
      rewrite E, (kv_put_eq k v Hc). cbn [spec_step]. rewrite spec_put_eq.
      apply (put_in_rel (kv_rel (be_enc be))); [exact R|]. intros _. split; [exact Hc|].
      apply holds_put; [apply kv_loc_inj|exact (ctx_akey_wf _ _ k (proj2 Hc) Hok (or_intror eq_refl))|exact Hh].
    + assert (E : db_step be st (OGet k) = (st, kv_get (be_enc be) st k)) by (destruct be; [reflexivity|reflexivity|discriminate]).
      rewrite E. split; [exact R|]. apply kv_get_refines; assumption.
Qed.

Lemma kv_run_refines be dir ops : is_kv be = true -> hist_ok spec_init ops = true ->
  kv_rel (be_enc be) (fst (db_run be (db_init dir) ops)) (ref_state ops)
  /\ db_results be dir ops = spec_results ops.
Proof.
  intros Hkv. apply (run_refines be (kv_rel (be_enc be)) op_ok hist_ok); [reflexivity| |].
  - intros st sp o. apply kv_step_refines. exact Hkv.
  - split; [apply ctx_rel_init|apply holds_nil].
Qed.

Theorem kv_refines_spec be dir ops :
  is_kv be = true -> hist_ok spec_init ops = true -> db_results be dir ops = spec_results ops.
Proof. intros Hkv Hok. exact (proj2 (kv_run_refines be dir ops Hkv Hok)). Qed.

Lemma land_lor_safe l : N.land (N.lor l safe_lock) safe_lock = safe_lock.
Proof.
  apply N.bits_inj. intros n. rewrite N.land_spec, N.lor_spec.
  destruct (N.testbit safe_lock n); [rewrite orb_true_r|rewrite andb_false_r]; reflexivity.
Qed.

Lemma put_frame be st k v :
  d_base (fst (db_step be st (OPut k v))) = d_base st /\ d_dir (fst (db_step be st (OPut k v))) = d_dir st.
Proof.
  destruct be as [| |bin]; cbn [db_step]; unfold kv_put, fs_put;
    (destruct (negb (check_put (d_base st))); [auto|]).
  - destruct (to_key (d_base st) k); auto.
  - destruct (to_key (d_base st) k); auto.
  - destruct (fs_to_key bin (d_base st) k); auto. unfold fs_write.
    destruct (has_nul _); [auto|]. destruct (negb _); [auto|]. destruct (_ || _); [auto|].
    destruct (255 <? _); auto.
Qed.

Lemma step_dir be st o : d_dir (fst (db_step be st o)) = d_dir st.
Proof.
  destruct o; cbn [db_step fst with_base d_dir]; try reflexivity.
  - apply put_frame.
  - destruct (set_lock (d_base st) p lk). reflexivity.
  - destruct be; reflexivity.
Qed.

Lemma sealed_step be st o l :
  b_seal (d_base st) = true /\ b_lock (d_base st) = l ->
  b_seal (d_base (fst (db_step be st o))) = true /\ b_lock (d_base (fst (db_step be st o))) = l.
Proof.
  intros H. destruct o; [rewrite (proj1 (put_frame be st k v)); exact H|..];
    cbn [db_step fst with_base d_base set_prefix set_session set_language b_seal b_lock]; try exact H.
  - unfold set_lock. rewrite (proj1 H). exact H.
  - destruct be; exact H.
Qed.

(* what the two lookups of a Get of k in the context b share (ctx_akey without the language): a Put is seen
   by a Get only under the same triple (spec_noninterference) *)
Definition ctx_triple (b : base) (k : bytes) : N * option bytes * bytes :=
  (b_pfx b, if sessioned (b_pfx b) then Some (b_sid b) else None, k).

Lemma spec_run_app sp h1 h2 :
  spec_run sp (h1 ++ h2)
  = (fst (spec_run (fst (spec_run sp h1)) h2), snd (spec_run sp h1) ++ snd (spec_run (fst (spec_run sp h1)) h2)).
Proof.
  revert sp. induction h1 as [|o h1 IH]; intros sp; cbn [app].
  - cbn [spec_run fst snd app]. destruct (spec_run sp h2); reflexivity.
  - rewrite !spec_run_cons, IH. reflexivity.
Qed.
Lemma db_run_app be h1 : forall st h2,
  db_run be st (h1 ++ h2)
  = (fst (db_run be (fst (db_run be st h1)) h2), snd (db_run be st h1) ++ snd (db_run be (fst (db_run be st h1)) h2)).
Proof.
  induction h1 as [|o h1 IH]; intros st h2; cbn [List.app].
  - cbn [db_run fst snd List.app]. destruct (db_run be st h2); reflexivity.
  - rewrite !db_run_cons, IH. reflexivity.
Qed.
Lemma spec_last_get h k : last (spec_results (h ++ [OGet k])) DOk = spec_get (ref_state h) k.
Proof. unfold spec_results. rewrite spec_run_app. cbn [snd spec_run spec_step]. apply last_last. Qed.

Lemma hist_ok_app h1 : forall sp h2,
  hist_ok sp (h1 ++ h2) = hist_ok sp h1 && hist_ok (fst (spec_run sp h1)) h2.
Proof.
  induction h1 as [|o h1 IH]; intros sp h2; cbn [app hist_ok]; [reflexivity|].
  rewrite IH, spec_run_cons, andb_assoc. reflexivity.
Qed.

Definition agree_off (a0 : akey) (sp sp' : spec) : Prop :=
  sp_base sp = sp_base sp' /\ forall a, a <> a0 -> slookup a (sp_map sp) = slookup a (sp_map sp').

Lemma agree_put sp k v :
  agree_off (ctx_akey (sp_base sp) (eff_lang (sp_base sp)) k) (fst (spec_put sp k v)) sp.
Proof.
  rewrite spec_put_eq. apply (put_in_inv (fun sp' => agree_off _ sp' sp)); [split; reflexivity|]. intros _.
  split; [reflexivity|]. intros a Ha. cbn [sp_map slookup]. rewrite (akey_eqb_neq _ _ Ha). reflexivity.
Qed.

Lemma agree_step a0 sp sp' o : agree_off a0 sp sp' -> agree_off a0 (fst (spec_step sp o)) (fst (spec_step sp' o)).
Proof.
  intros D. pose proof D as [Hb Hm].
  destruct o as [k v|k|p|s|l|p lk|k|k|k]; cbn [spec_step fst]; try exact D;
    try (split; [cbn [sp_base]; rewrite Hb; reflexivity|exact Hm]).
  - rewrite !spec_put_eq, Hb. apply (put_in_rel (agree_off a0)); [exact D|]. intros _.
    split; [reflexivity|]. intros a Ha. cbn [sp_map slookup]. rewrite (Hm a Ha). reflexivity.
  - rewrite Hb. destruct (set_lock (sp_base sp') p lk). split; [reflexivity|exact Hm].
Qed.
Lemma agree_run a0 ops : forall sp sp', agree_off a0 sp sp' ->
  agree_off a0 (fst (spec_run sp ops)) (fst (spec_run sp' ops)).
Proof.
  induction ops as [|o ops IH]; intros sp sp' D; [exact D|]. rewrite !spec_run_cons. cbn [fst].
  apply IH, agree_step, D.
Qed.
Lemma agree_hist_ok [a0] ops : forall [sp sp'], agree_off a0 sp sp' -> hist_ok sp ops = hist_ok sp' ops.
Proof.
  induction ops as [|o ops IH]; intros sp sp' D; [reflexivity|]. cbn [hist_ok].
  rewrite (proj1 D), (IH _ _ (agree_step a0 sp sp' o D)). reflexivity.
Qed.

Lemma agree_get a0 sp sp' k :
  agree_off a0 sp sp' ->
  (a_typ a0, a_sess a0, a_key a0) <> ctx_triple (sp_base sp') k ->
  spec_get sp k = spec_get sp' k.
Proof.
  intros [Hb Hm] Hne. unfold spec_get. rewrite Hb.
  destruct (b_pfx (sp_base sp') =? DATATYPE_UNKNOWN); [reflexivity|].
  assert (Hl : forall l, slookup (ctx_akey (sp_base sp') l k) (sp_map sp) = slookup (ctx_akey (sp_base sp') l k) (sp_map sp')).
  { intros l. apply Hm. intros E. apply Hne. rewrite <- E. reflexivity. }
  rewrite (Hl None). destruct (eff_lang (sp_base sp')) as [c|]; [rewrite (Hl (Some c))|]; reflexivity.
Qed.

Lemma spec_noninterference h1 k v h2 k' :
  ctx_triple (sp_base (ref_state h1)) k <> ctx_triple (sp_base (ref_state (h1 ++ h2))) k' ->
  spec_get (ref_state (h1 ++ OPut k v :: h2)) k' = spec_get (ref_state (h1 ++ h2)) k'.
Proof.
  intros Hne. apply (agree_get (ctx_akey (sp_base (ref_state h1)) (eff_lang (sp_base (ref_state h1))) k)); [|exact Hne].
  unfold ref_state. rewrite !spec_run_app. cbn [fst]. rewrite spec_run_cons. cbn [fst].
  apply agree_run, agree_put.
Qed.

Lemma hist_ok_drop_put [h1 k v h2] :
  hist_ok spec_init (h1 ++ OPut k v :: h2) = true -> hist_ok spec_init (h1 ++ h2) = true.
Proof.
  rewrite !hist_ok_app. intros H. apply andb_true_iff in H as [H1 H2]. rewrite H1.
  cbn [hist_ok andb spec_step] in *. apply andb_true_iff in H2 as [_ H2].
  rewrite <- H2. symmetry. apply (agree_hist_ok _ (agree_put _ k v)).
Qed.

Lemma split_on_nosep sep l : has_byte sep l = false -> split_on sep l = [l].
Proof.
  induction l as [|x l IH]; intros H; [reflexivity|].
  rewrite has_byte_cons in H. apply orb_false_iff in H as [H1 H2].
  cbn [split_on]. rewrite N.eqb_sym, H1. rewrite (IH H2). reflexivity.
Qed.

Lemma name_plain_spec n : name_plain n = true ->
  n <> [] /\ has_byte ch_slash n = false /\ has_byte 0 n = false
  /\ bytes_eqb n [ch_dot] = false /\ bytes_eqb n [ch_dot; ch_dot] = false /\ len n <= 255.
Proof.
  unfold name_plain, slash_free. intros H.
  repeat (apply andb_true_iff in H as [H ?]).
  repeat match goal with H : negb _ = true |- _ => apply negb_true_iff in H end.
  repeat split; auto.
  - destruct n; [discriminate|congruence].
  - apply N.leb_le. assumption.
Qed.

Lemma clean_join_plain dir n : name_plain n = true -> clean_join dir n = dir ++ [n].
Proof.
  intros H. apply name_plain_spec in H as [Hn [Hs [_ [Hd [Hdd _]]]]].
  unfold clean_join. rewrite (split_on_nosep _ _ Hs). cbn [fold_left]. unfold clean_step.
  destruct n as [|x n]; [congruence|]. cbn [is_nil orb]. rewrite Hd, Hdd. cbn [rev].
  rewrite rev_involutive. reflexivity.
Qed.

Definition dir_pref (d : list bytes) : bytes := List.concat (map (fun c => c ++ [ch_slash]) d).
Lemma path_str_snoc d n : path_str (d ++ [n]) = dir_pref d ++ n.
Proof.
  induction d as [|c d IH]; [reflexivity|]. destruct d as [|c' d'].
  - unfold path_str, dir_pref. cbn [app join_with map List.concat]. rewrite app_nil_r, <- app_assoc. reflexivity.
  - change (path_str ((c :: c' :: d') ++ [n])) with (c ++ [ch_slash] ++ path_str ((c' :: d') ++ [n])).
    rewrite IH. unfold dir_pref. cbn [map List.concat]. rewrite <- !app_assoc. reflexivity.
Qed.
Lemma path_str_inj d n n' : path_str (d ++ [n]) = path_str (d ++ [n']) -> n = n'.
Proof. rewrite !path_str_snoc. apply app_inv_head. Qed.

Lemma comps_prefix_app l r : comps_prefix l (l ++ r) = true.
Proof. induction l as [|x l IH]; [reflexivity|]. cbn [app comps_prefix]. rewrite bytes_eqb_refl. exact IH. Qed.
Lemma comps_prefix_snoc d n : comps_prefix (d ++ [n]) d = false.
Proof. induction d as [|x d IH]; [reflexivity|]. cbn [app comps_prefix]. rewrite bytes_eqb_refl. exact IH. Qed.

Definition lookup_open (st : dbstate) (p : bytes) : fopen :=
  match alookup p (d_store st) with Some v => FOk v | None => FNoEnt end.

Lemma fs_walk_child st n : len n <= 255 -> forall rest pre,
  d_dir st = pre ++ rest -> forallb (fun c => len c <=? 255) rest = true ->
  fs_walk st pre (rest ++ [n]) = lookup_open st (path_str (d_dir st ++ [n])).
Proof.
  intros Hn. induction rest as [|c rest IH]; intros pre Hd Hl.
  - cbn [app fs_walk]. replace (255 <? len n) with false by lia.
    rewrite app_nil_r in Hd. unfold is_dir. rewrite Hd, comps_prefix_snoc. reflexivity.
  - cbn [forallb] in Hl. apply andb_true_iff in Hl as [Hc Hl]. apply N.leb_le in Hc.
    cbn [app fs_walk]. replace (255 <? len c) with false by lia.
    destruct (rest ++ [n]) as [|y ys] eqn:E; [destruct rest; discriminate|]. rewrite <- E. rewrite <- E in IH.
    assert (Hdir : is_dir st (pre ++ [c]) = true).
    { unfold is_dir. rewrite Hd. replace (pre ++ c :: rest) with ((pre ++ [c]) ++ rest) by (rewrite <- app_assoc; reflexivity).
      apply comps_prefix_app. }
    rewrite Hdir. apply IH; [|exact Hl]. rewrite Hd, <- app_assoc. reflexivity.
Qed.

Lemma dir_ok_spec dir : dir_ok dir = true ->
  forallb (fun c => len c <=? 255) dir = true /\ has_nul dir = false.
Proof.
  unfold dir_ok, has_nul. induction dir as [|c d IH]; intros H; [auto|].
  cbn [forallb existsb] in *. apply andb_true_iff in H as [H1 H2]. apply andb_true_iff in H1 as [Ha Hb].
  destruct (IH H2) as [I1 I2]. rewrite Ha, I1, I2. apply negb_true_iff in Hb. rewrite Hb. auto.
Qed.

Lemma fs_open_child st n : dir_ok (d_dir st) = true -> name_plain n = true ->
  fs_open st (d_dir st ++ [n]) = lookup_open st (path_str (d_dir st ++ [n])).
Proof.
  intros Hd Hn. apply dir_ok_spec in Hd as [Hl Hz]. apply name_plain_spec in Hn as [_ [_ [Hz' [_ [_ Hlen]]]]].
  unfold fs_open, has_nul. rewrite existsb_app. fold (has_nul (d_dir st)). rewrite Hz. cbn [existsb orb].
  rewrite Hz'. cbn [orb]. apply (fs_walk_child st n Hlen (d_dir st) []); [reflexivity|exact Hl].
Qed.

Lemma fs_write_child st n v : dir_ok (d_dir st) = true -> name_plain n = true ->
  fs_write st (d_dir st ++ [n]) v
  = (with_store st (aset (path_str (d_dir st ++ [n])) v (d_store st)), DOk).
Proof.
  intros Hd Hn. apply dir_ok_spec in Hd as [Hl Hz]. apply name_plain_spec in Hn as [_ [_ [Hz' [_ [_ Hlen]]]]].
  unfold fs_write, has_nul. rewrite existsb_app. fold (has_nul (d_dir st)). rewrite Hz. cbn [existsb orb]. rewrite Hz'.
  cbn [orb]. rewrite removelast_last. unfold is_dir at 1. replace (comps_prefix (d_dir st) (d_dir st)) with true
    by (symmetry; rewrite <- (app_nil_r (d_dir st)) at 2; apply comps_prefix_app).
  cbn [negb]. unfold is_dir. rewrite comps_prefix_snoc.
  replace (is_nil (d_dir st ++ [n])) with false by (destruct (d_dir st); reflexivity). cbn [orb].
  rewrite last_last. replace (255 <? len n) with false by lia. reflexivity.
Qed.

(* base64.StdEncoding, padded: DecodeString inverts EncodeToString.
   The alphabet has 64 letters: each is checked to decode to its digit and to differ from the padding. *)
Lemma b64_letter n : n < 64 -> b64v (b64c n) = Some n /\ (b64c n =? ch_pad) = false.
Proof.
  intros H.
  assert (T : forallb (fun i => match b64v (b64c i) with Some j => (j =? i) && negb (b64c i =? ch_pad) | None => false end)
                      (map N.of_nat (seq 0 64)) = true) by reflexivity.
  assert (Hin : In n (map N.of_nat (seq 0 64))) by (apply in_map_iff; exists (N.to_nat n); split; [lia|apply in_seq; lia]).
  rewrite forallb_forall in T. specialize (T n Hin). destruct (b64v (b64c n)) as [j|]; [|discriminate].
  rewrite andb_true_iff, N.eqb_eq, negb_true_iff in T. destruct T as [-> T]. auto.
Qed.
Lemma b64v_b64c n : n < 64 -> b64v (b64c n) = Some n.
Proof. apply b64_letter. Qed.
Lemma b64c_not_pad n : n < 64 -> (b64c n =? ch_pad) = false.
Proof. apply b64_letter. Qed.

Lemma byte_split m n a : a < n * m -> exists q r, q < n /\ r < m /\ a = q * m + r.
Proof.
  intros H. assert (m <> 0) by lia. exists (a / m), (a mod m).
  split; [apply N.div_lt_upper_bound; lia|]. split; [apply N.mod_lt; assumption|].
  rewrite N.mul_comm. apply N.div_mod. assumption.
Qed.
Lemma pack_div m p q : q < m -> (p * m + q) / m = p.
Proof. intros H. rewrite N.div_add_l, N.div_small by lia. apply N.add_0_r. Qed.
Lemma pack_mod m p q : q < m -> (p * m + q) mod m = q.
Proof. intros H. rewrite N.add_comm, N.mod_add, N.mod_small by lia. reflexivity. Qed.

Lemma list_ind3 {A} (P : list A -> Prop) :
  P [] -> (forall a, P [a]) -> (forall a b, P [a; b]) ->
  (forall a b c r, P r -> P (a :: b :: c :: r)) -> forall l, P l.
Proof.
  intros H0 H1 H2 H3. fix IH 1. intros [|a [|b [|c r]]]; [exact H0|apply H1|apply H2|apply H3; apply IH].
Qed.

Lemma bytes_ok_cons a r : bytes_ok (a :: r) = true -> a < 256 /\ bytes_ok r = true.
Proof. unfold bytes_ok. cbn [forallb]. intros H. apply andb_true_iff in H as [H1 H2]. split; [lia|exact H2]. Qed.

(* each byte is split into the digits the encoder takes from it (byte_split); the six-bit digits
   are then sums q * m + r over variables, which b64v_b64c reads back and pack_div / pack_mod take
   apart again *)
Lemma b64_dec_enc x : bytes_ok x = true -> b64_dec (b64_enc x) = Some x.
Proof.
  induction x as [|a|a b|a b c r IH] using list_ind3; intros Hx; [reflexivity| | |];
    apply bytes_ok_cons in Hx as [Ha Hx];
    destruct (byte_split 4 64 a Ha) as (q1 & r1 & ? & ? & ->); cbn [b64_enc b64_dec].
  - rewrite pack_div, pack_mod by assumption.
    rewrite !b64v_b64c by lia. rewrite !N.eqb_refl. cbn [andb is_nil].
    rewrite N.div_mul by discriminate. reflexivity.
  - apply bytes_ok_cons in Hx as [Hb _]. destruct (byte_split 16 16 b Hb) as (q2 & r2 & ? & ? & ->).
    rewrite !pack_div, !pack_mod by assumption.
    rewrite !b64v_b64c, b64c_not_pad by lia. rewrite N.eqb_refl. cbn [is_nil].
    rewrite pack_div, pack_mod, N.div_mul by (assumption || discriminate). reflexivity.
  - apply bytes_ok_cons in Hx as [Hb Hx]. destruct (byte_split 16 16 b Hb) as (q2 & r2 & ? & ? & ->).
    apply bytes_ok_cons in Hx as [Hc Hx]. destruct (byte_split 64 4 c Hc) as (q3 & r3 & ? & ? & ->).
    rewrite !pack_div, !pack_mod by assumption.
    rewrite !b64v_b64c, !b64c_not_pad by lia. rewrite (IH Hx).
    rewrite !pack_div, !pack_mod by assumption. reflexivity.
Qed.

Lemma b64_enc_inj x y : bytes_ok x = true -> bytes_ok y = true -> b64_enc x = b64_enc y -> x = y.
Proof.
  intros Hx Hy E. apply (f_equal b64_dec) in E. rewrite !b64_dec_enc in E by assumption.
  injection E as E. exact E.
Qed.

Lemma documented_ind (P : N -> Prop) :
  P DATATYPE_BIN -> P DATATYPE_MENU -> P DATATYPE_TEMPLATE -> P DATATYPE_STATICLOAD ->
  P DATATYPE_STATE -> P DATATYPE_USERDATA -> forall t, documented_type t = true -> P t.
Proof.
  intros H1 H2 H3 H4 H5 H6 t H. unfold documented_type in H.
  repeat (apply orb_true_iff in H as [H|H]); apply N.eqb_eq in H; subst t; assumption.
Qed.

Lemma documented_nonzero : forall t, documented_type t = true -> t <> 0.
Proof. apply (documented_ind (fun t => t <> 0)); discriminate. Qed.
Lemma documented_sessioned_not_lang : forall t, documented_type t = true -> sessioned t = true -> lang_type t = false.
Proof.
  apply (documented_ind (fun t => sessioned t = true -> lang_type t = false)); intros H; try discriminate H; reflexivity.
Qed.
(* the type byte of a file name: no wrap-around, and nextElement takes the offset off again *)
Lemma w8_type : forall t, documented_type t = true -> w8 (t + fs_type_offset) = t + fs_type_offset.
Proof. apply documented_ind; reflexivity. Qed.
Lemma sub8_type : forall t, documented_type t = true -> sub8 (w8 (t + fs_type_offset)) fs_type_offset = t.
Proof. apply documented_ind; reflexivity. Qed.
Lemma type_char_doc : forall t, documented_type t = true -> type_char (w8 (t + fs_type_offset)) = true.
Proof. apply documented_ind; reflexivity. Qed.

Lemma w8_type_inj t t' : documented_type t = true -> documented_type t' = true ->
  w8 (t + fs_type_offset) = w8 (t' + fs_type_offset) -> t = t'.
Proof. intros H H' E. rewrite !w8_type in E by assumption. lia. Qed.

Lemma fs_name_cons t r : fs_name (t :: r) = w8 (t + fs_type_offset) :: r.
Proof. reflexivity. Qed.

(* the key as the fs backend stores it: base64 in binary mode *)
Definition fs_a (bin : bool) (a : akey) : akey :=
  mkAkey (a_typ a) (a_sess a) (a_lang a) (if bin then b64_enc (a_key a) else a_key a).
Definition fs_enc (bin : bool) (a : akey) : bytes := enc_a (fs_a bin a).
(* the file name of the entry of a, its legacy fallback name, its path under dir *)
Definition nm (bin : bool) (a : akey) : bytes := fs_name (fs_enc bin a).
Definition alt_nm (bin : bool) (a : akey) : bytes := fs_alt_name (a_typ a) (fs_enc bin a).
Definition fs_loc (bin : bool) (dir : list bytes) (a : akey) : bytes := path_str (dir ++ [nm bin a]).

Definition sk_ok (p : N) (sk : bytes) : bool :=
  name_plain (fs_name sk) && name_plain (fs_alt_name p sk) && no_legacy_clash (fs_alt_name p sk).
Lemma fs_lk_ok_eq p lk :
  fs_lk_ok p lk = sk_ok p (lk_default lk) && match lk_translation lk with Some t => sk_ok p t | None => true end.
Proof. reflexivity. Qed.

Definition fs_wf (bin : bool) (a : akey) : bool :=
  wf_akey (fs_a bin a) && (if bin then bytes_ok (a_key a) else true)
  && documented_type (a_typ a) && sk_ok (a_typ a) (fs_enc bin a).

Lemma fs_wf_spec bin a : fs_wf bin a = true ->
  wf_akey (fs_a bin a) = true /\ (if bin then bytes_ok (a_key a) else true) = true
  /\ documented_type (a_typ a) = true
  /\ name_plain (nm bin a) = true /\ name_plain (alt_nm bin a) = true /\ no_legacy_clash (alt_nm bin a) = true.
Proof.
  unfold fs_wf, sk_ok. rewrite !andb_true_iff. intros [[[Ha Hb] Hd] [[Hn Hl] Hc]]. repeat split; assumption.
Qed.

Lemma fs_wf_akey [bin a] : fs_wf bin a = true -> wf_akey (fs_a bin a) = true.
Proof. intros W. exact (proj1 (fs_wf_spec bin a W)). Qed.
Lemma fs_wf_doc [bin a] : fs_wf bin a = true -> documented_type (a_typ a) = true.
Proof. intros W. destruct (fs_wf_spec bin a W) as (_ & _ & H & _). exact H. Qed.
Lemma fs_wf_plain [bin a] : fs_wf bin a = true -> name_plain (nm bin a) = true.
Proof. intros W. destruct (fs_wf_spec bin a W) as (_ & _ & _ & H & _). exact H. Qed.

Lemma nm_unfold bin a : nm bin a = w8 (a_typ a + fs_type_offset) :: a_sk (fs_a bin a) ++ lang_suffix (a_typ a) (a_lang a).
Proof. reflexivity. Qed.

Lemma nm_inj bin a a' : fs_wf bin a = true -> fs_wf bin a' = true -> nm bin a = nm bin a' -> a = a'.
Proof.
  intros W W' E. apply fs_wf_spec in W as (Wa & Wb & Wdoc & _). apply fs_wf_spec in W' as (Wa' & Wb' & Wdoc' & _).
  rewrite !nm_unfold in E. injection E as Et E. apply w8_type_inj in Et; [|assumption..].
  assert (Ea : enc_a (fs_a bin a) = enc_a (fs_a bin a')).
  { rewrite !enc_a_unfold. cbn [fs_a a_typ a_lang]. rewrite <- Et. f_equal. rewrite Et at 2. exact E. }
  apply enc_a_injective in Ea; [|assumption|assumption].
  destruct a as [t s l k], a' as [t' s' l' k']. unfold fs_a in Ea. cbn [a_typ a_sess a_lang a_key] in *.
  injection Ea as -> -> -> Ek. f_equal.
  destruct bin; [apply b64_enc_inj; assumption|exact Ek].
Qed.

Lemma fs_loc_inj bin dir : inj_on (fs_wf bin) (fs_loc bin dir).
Proof. intros a a' W W' E. apply path_str_inj in E. apply (nm_inj bin); assumption. Qed.

Definition fs_rel (bin : bool) (st : dbstate) (sp : spec) : Prop :=
  ctx_rel st sp /\ dir_ok (d_dir st) = true
  /\ (b_pfx (sp_base sp) <> 0 -> documented_type (b_pfx (sp_base sp)) = true)
  /\ holds (fs_loc bin (d_dir st)) (fs_wf bin) (d_store st) (sp_map sp).

Lemma fs_rel_ctx [bin st sp] : fs_rel bin st sp -> ctx_rel st sp.
Proof. intros (H & _). exact H. Qed.
Lemma fs_rel_dir [bin st sp] : fs_rel bin st sp -> dir_ok (d_dir st) = true.
Proof. intros (_ & H & _). exact H. Qed.
Lemma fs_rel_doc [bin st sp] : fs_rel bin st sp -> b_pfx (sp_base sp) <> 0 -> documented_type (b_pfx (sp_base sp)) = true.
Proof. intros (_ & _ & H & _). exact H. Qed.
Lemma fs_rel_holds [bin st sp] : fs_rel bin st sp -> holds (fs_loc bin (d_dir st)) (fs_wf bin) (d_store st) (sp_map sp).
Proof. intros (_ & _ & _ & H). exact H. Qed.

(* every file name begins with a type character, a legacy name that does not is no file *)
Lemma alt_absent [bin dir store m alt] :
  holds (fs_loc bin dir) (fs_wf bin) store m -> no_legacy_clash alt = true ->
  alookup (path_str (dir ++ [alt])) store = None.
Proof.
  intros Hh Hc. apply alookup_none. intros Hin. destruct (holds_key Hh Hin) as [a [W Hp]].
  apply path_str_inj in Hp. subst alt.
  rewrite nm_unfold in Hc. cbn [no_legacy_clash] in Hc. rewrite (type_char_doc _ (fs_wf_doc W)) in Hc. discriminate.
Qed.

Lemma fs_try_none st r : fs_try st (None :: r) = fs_try st r.
Proof. reflexivity. Qed.

Lemma fs_try_entry bin st sp a r : fs_rel bin st sp -> fs_wf bin a = true ->
  fs_try st (Some (clean_join (d_dir st) (nm bin a)) :: Some (clean_join (d_dir st) (alt_nm bin a)) :: r)
  = match slookup a (sp_map sp) with Some v => DVal v | None => fs_try st r end.
Proof.
  intros R W. pose proof (fs_rel_dir R) as Hd. pose proof (fs_rel_holds R) as Hh.
  pose proof (fs_wf_spec bin a W) as (_ & _ & _ & Pn & Pa & Ca).
  rewrite !clean_join_plain by assumption. cbn [fs_try]. rewrite !fs_open_child by assumption.
  unfold lookup_open. fold (fs_loc bin (d_dir st) a). rewrite (holds_at Hh W).
  destruct (slookup a (sp_map sp)); [reflexivity|]. rewrite (alt_absent Hh Ca). reflexivity.
Qed.

Lemma fs_to_key_model bin b k : ctx_ok b ->
  fs_to_key bin (model_base b) k = if b_pfx b =? DATATYPE_UNKNOWN then Err EGen else Ok (lk_of (fs_enc bin) b k).
Proof. intros Hc. unfold fs_to_key. rewrite (to_key_model _ _ Hc). destruct bin; reflexivity. Qed.

Lemma fs_guard_spec [bin st sp] k l (b := sp_base sp) :
  fs_rel bin st sp -> b_pfx b <> 0 ->
  fs_op_ok bin b (OGet k) = true -> l = None \/ l = eff_lang b -> fs_wf bin (ctx_akey b l k) = true.
Proof.
  intros R Ep H Hl. pose proof (fs_rel_doc R Ep) as Hdoc. destruct (fs_rel_ctx R) as [_ Hc]. fold b in Hdoc, Hc.
  cbn [fs_op_ok] in H.
  apply andb_true_iff in H as [H Hfk]. apply andb_true_iff in H as [Hbk Hk].
  unfold fs_key_ok in Hfk. rewrite (fs_to_key_model bin b k Hc), (eqb_unknown _ Ep), fs_lk_ok_eq in Hfk.
  cbn [lk_of lk_default lk_translation] in Hfk. apply andb_true_iff in Hfk as [Hdef Htr].
  unfold fs_wf. cbn [ctx_akey a_key a_typ]. rewrite Hbk, Hdoc.
  replace (wf_akey (fs_a bin (ctx_akey b l k))) with (wf_akey (ctx_akey b l (if bin then b64_enc k else k)))
    by (destruct bin; reflexivity).
  rewrite (ctx_akey_wf _ _ _ Hc Hk Hl). cbn [andb].
  destruct l as [c|]; [|exact Hdef]. destruct Hl as [Hl|Hl]; [discriminate|]. rewrite <- Hl in Htr. exact Htr.
Qed.

Lemma fs_get_found bin st sp k :
  fs_rel bin st sp ->
  (b_pfx (sp_base sp) <> 0 ->
   forall l, l = None \/ l = eff_lang (sp_base sp) -> fs_wf bin (ctx_akey (sp_base sp) l k) = true) ->
  fs_get bin st k = spec_get sp k.
Proof.
  intros R W. destruct (fs_rel_ctx R) as [Hb Hc]. unfold fs_get, spec_get. rewrite Hb, (fs_to_key_model bin _ k Hc).
  destruct (b_pfx (sp_base sp) =? DATATYPE_UNKNOWN) eqn:Ep; [reflexivity|]. apply N.eqb_neq in Ep. specialize (W Ep).
  unfold fs_candidates. cbn [lk_of lk_default lk_translation]. rewrite Hb. cbn [model_base b_pfx].
  pose proof (W None (or_introl eq_refl)) as Wd.
  destruct (eff_lang (sp_base sp)) as [c|]; cbn [option_map].
  - etransitivity; [exact (fs_try_entry bin st sp _ _ R (W (Some c) (or_intror eq_refl)))|].
    destruct (slookup (ctx_akey (sp_base sp) (Some c) k) (sp_map sp)); [reflexivity|].
    exact (fs_try_entry bin st sp _ [] R Wd).
  - exact (fs_try_entry bin st sp _ [] R Wd).
Qed.

Lemma fs_get_refines bin st sp k :
  fs_rel bin st sp -> fs_op_ok bin (sp_base sp) (OGet k) = true ->
  fs_get bin st k = spec_get sp k.
Proof.
  intros R Hok. apply (fs_get_found bin st sp k R).
  intros Ep l. exact (fs_guard_spec k l R Ep Hok).
Qed.

Lemma fs_put_eq [bin st sp] k v :
  fs_rel bin st sp ->
  (b_pfx (sp_base sp) <> 0 -> fs_wf bin (ctx_akey (sp_base sp) (eff_lang (sp_base sp)) k) = true) ->
  fs_put bin st k v = put_at (fs_loc bin (d_dir st)) st (sp_base sp) k v.
Proof.
  intros R W. destruct (fs_rel_ctx R) as [Hb Hc]. pose proof (fs_rel_dir R) as Hd.
  unfold fs_put, put_at, put_in. rewrite Hb, check_put_model.
  destruct (negb (check_put (sp_base sp))); [reflexivity|]. rewrite (fs_to_key_model bin _ k Hc).
  destruct (b_pfx (sp_base sp) =? DATATYPE_UNKNOWN) eqn:Ep; [reflexivity|]. cbv beta iota zeta. rewrite lk_of_target.
  apply N.eqb_neq, W, fs_wf_plain in Ep as Pn.
  fold (nm bin (ctx_akey (sp_base sp) (eff_lang (sp_base sp)) k)).
  rewrite (clean_join_plain _ _ Pn), (fs_write_child st _ v Hd Pn). reflexivity.
Qed.

Lemma fs_op_ok_ctx bin b o : ctx_op o = true -> fs_op_ok bin b o = true -> op_ok b o = true.
Proof. destruct o; try discriminate; auto. Qed.

Lemma fs_step_refines bin st sp o :
  fs_rel bin st sp -> fs_op_ok bin (sp_base sp) o = true ->
  fs_rel bin (fst (db_step (BFs bin) st o)) (fst (spec_step sp o))
  /\ snd (db_step (BFs bin) st o) = snd (spec_step sp o).
Proof.
  intros R Hok. pose proof R as (Hc & Hd & Hp & Hh). destruct (ctx_op o) eqn:Eo.
  - destruct (ctx_op_refines (BFs bin) st sp o Eo Hc (fs_op_ok_ctx bin _ o Eo Hok)) as (Hc' & Es & Em & Ep & Er).
    split; [|exact Er]. unfold fs_rel. rewrite step_dir. split; [exact Hc'|]. rewrite Es, Em, Ep. split; [exact Hd|]. split; [|exact Hh].
    destruct o; try exact Hp. intros _. exact Hok.
  - destruct o as [k v|k|p|s|l|p lk|k|k|k]; try discriminate Eo; try discriminate Hok; cbn [db_step spec_step].
    + pose proof (fun Ep => fs_guard_spec k _ R Ep Hok (or_intror eq_refl)) as W.
      rewrite (fs_put_eq k v R W), spec_put_eq.
      apply (put_in_rel (fs_rel bin)); [exact R|]. intros Ep. split; [exact Hc|]. split; [exact Hd|]. split; [exact Hp|].
      apply (holds_put (fs_loc bin (d_dir st))); [apply fs_loc_inj|exact (W Ep)|exact Hh].
    + split; [exact R|]. apply fs_get_refines; assumption.
Qed.

Theorem fs_run_refines bin dir ops :
  dir_ok dir = true -> fs_hist_ok bin spec_init ops = true ->
  fs_rel bin (fst (db_run (BFs bin) (db_init dir) ops)) (ref_state ops)
  /\ db_results (BFs bin) dir ops = spec_results ops.
Proof.
  intros Hd. apply (run_refines (BFs bin) (fs_rel bin) (fs_op_ok bin) (fs_hist_ok bin)); [reflexivity| |].
  - apply fs_step_refines.
  - split; [apply ctx_rel_init|]. split; [exact Hd|].
    split; [intros H; contradiction|apply holds_nil].
Qed.

Lemma sym_chars_dot_free r : forallb (fun x => is_alnum x || (x =? ch_us)) r = true -> dot_free r = true.
Proof.
  unfold dot_free, has_byte. induction r as [|x r IH]; intros H; [reflexivity|].
  cbn [forallb existsb] in *. apply andb_true_iff in H as [Hx Hr]. specialize (IH Hr).
  apply negb_true_iff in IH. rewrite IH, orb_false_r. apply negb_true_iff.
  destruct (ch_dot =? x) eqn:E; [|reflexivity]. apply N.eqb_eq in E. subst x. discriminate.
Qed.
Lemma sym_grammar_dot_free k : sym_grammar k = true -> dot_free k = true.
Proof.
  destruct k as [|c [|d r]]; try discriminate. cbn [sym_grammar]. intros H. apply andb_true_iff in H as [Hc Hr].
  apply (sym_chars_dot_free (c :: d :: r)). cbn [forallb] in *. rewrite Hc. exact Hr.
Qed.

(* the store directory of the concrete histories of C10 and C11 *)
Definition wdir : list bytes := [s2b "p"; s2b "q"; s2b "s"].
Definition fs_state (bin : bool) (ops : list dbop) : dbstate := fst (db_run (BFs bin) (db_init wdir) ops).

(* fs Dump (text mode, default language).  Dump(p) reads the directory in os.ReadDir order, skips to
   the first name that decodes to a key of the current type with prefix p, and lists on while that
   holds.  Under the invariant of fs histories every file is the entry of a well-formed key of the
   reference map (fs_rel), the names of the entries Dump(p) has to list are those with one byte
   prefix (entry_facts), and such names are contiguous in the sorted directory. *)

Definition bleb (a b : bytes) : Prop := bytes_leb a b = true.
Notation sorted := (StronglySorted bleb).

Lemma bleb_refl a : bytes_leb a a = true.
Proof. apply bytes_leb_refl. Qed.
Lemma bleb_total a : forall b, bleb a b \/ bleb b a.
Proof.
  unfold bleb. induction a as [|x a IH]; intros [|y b]; cbn [bytes_leb]; auto.
  destruct (x <? y) eqn:E1; [auto|]. destruct (y <? x) eqn:E2; [auto|]. apply IH.
Qed.

Lemma bleb_trans a : forall b c, bleb a b -> bleb b c -> bleb a c.
Proof.
  unfold bleb. induction a as [|x a IH]; intros [|y b] [|z c]; cbn [bytes_leb]; try discriminate; auto. intros H1 H2.
  destruct (x <? y) eqn:E1; [|destruct (y <? x) eqn:E2; [discriminate|]];
    (destruct (y <? z) eqn:E3; [|destruct (z <? y) eqn:E4; [discriminate|]]).
  1-3: replace (x <? z) with true by lia; reflexivity.
  replace (x <? z) with false by lia. replace (z <? x) with false by lia. eapply IH; eassumption.
Qed.

Lemma ainsert_perm {V} k (v : V) l : Permutation (ainsert k v l) ((k, v) :: l).
Proof.
  induction l as [|[k' v'] l IH]; cbn [ainsert]; [reflexivity|]. destruct (bytes_leb k k'); [reflexivity|].
  rewrite IH. apply perm_swap.
Qed.
Lemma asort_perm {V} (l : list (bytes * V)) : Permutation (asort l) l.
Proof.
  unfold asort. induction l as [|[k v] l IH]; cbn [fold_right fst snd]; [reflexivity|].
  rewrite ainsert_perm, IH. reflexivity.
Qed.

Lemma ainsert_sorted {V} k (v : V) l : sorted (map fst l) -> sorted (map fst (ainsert k v l)).
Proof.
  induction l as [|[k' v'] l IH]; cbn [ainsert map fst]; intros H.
  - constructor; constructor.
  - inversion H as [|? ? Hs Hf]; subst. destruct (bytes_leb k k') eqn:E; cbn [map fst].
    + constructor; [exact H|]. constructor; [exact E|].
      eapply Forall_impl; [|exact Hf]. intros y. apply bleb_trans. exact E.
    + constructor; [apply IH; exact Hs|]. rewrite ainsert_perm. cbn [map fst]. constructor; [|exact Hf].
      destruct (bleb_total k k') as [H1|H1]; [unfold bleb; congruence|exact H1].
Qed.
Lemma asort_sorted {V} (l : list (bytes * V)) : sorted (map fst (asort l)).
Proof.
  unfold asort. induction l as [|[k v] l IH]; cbn [fold_right]; [constructor|]. apply ainsert_sorted. exact IH.
Qed.

Lemma prefix_convex q : forall x y z, bleb x y -> bleb y z ->
  is_prefix q x = true -> is_prefix q z = true -> is_prefix q y = true.
Proof.
  unfold bleb. induction q as [|c q IH]; intros x y z Hxy Hyz Hx Hz; [reflexivity|].
  destruct x as [|a x]; [discriminate|]. destruct z as [|e z]; [discriminate|].
  cbn [is_prefix] in Hx, Hz. apply andb_true_iff in Hx as [Ha Hx]. apply andb_true_iff in Hz as [He Hz].
  apply N.eqb_eq in Ha, He. subst a e.
  destruct y as [|d y]; [discriminate|]. cbn [bytes_leb] in Hxy, Hyz. cbn [is_prefix].
  destruct (c <? d) eqn:E1, (d <? c) eqn:E2; try discriminate; [lia|].
  replace d with c by lia. rewrite N.eqb_refl. eapply IH; eassumption.
Qed.

Lemma is_prefix_app x y : is_prefix x (x ++ y) = true.
Proof. induction x as [|c x IH]; [reflexivity|]. cbn [app is_prefix]. rewrite N.eqb_refl. exact IH. Qed.
Lemma is_prefix_app_same x p k : is_prefix (x ++ p) (x ++ k) = is_prefix p k.
Proof. induction x as [|c x IH]; [reflexivity|]. cbn [app is_prefix]. rewrite N.eqb_refl. exact IH. Qed.
Lemma is_prefix_exists x : forall y, is_prefix x y = true -> exists z, y = x ++ z.
Proof.
  induction x as [|c x IH]; intros y H; [exists y; reflexivity|].
  destruct y as [|d y]; [discriminate|]. cbn [is_prefix] in H. apply andb_true_iff in H as [H1 H2].
  apply N.eqb_eq in H1. subst d. destruct (IH y H2) as [z ->]. exists z. reflexivity.
Qed.
Lemma is_prefix_app_l x p y : is_prefix (x ++ p) y = true -> is_prefix x y = true.
Proof. intros H. apply is_prefix_exists in H as [z ->]. rewrite <- app_assoc. apply is_prefix_app. Qed.
Lemma is_prefix_len p k : is_prefix p k = true -> len p <= len k.
Proof. intros H. apply is_prefix_exists in H as [z ->]. rewrite len_app. lia. Qed.

Lemma len_elem_key n : len (elem_key n) = len n.
Proof. destruct n; reflexivity. Qed.

(* what Dump does with the directory entry n: listed as (fk n, fv n) if it has the prefix q, passed
   over (before the first match) or the end of the listing (after it) otherwise *)
Definition entry_ok (st : dbstate) (pk q : bytes) (fk fv : bytes -> bytes) (n : bytes) : Prop :=
  if is_prefix q n then
    fs_decode_key false (d_base st) (elem_key n) = Some (fk n)
    /\ is_prefix pk (hd 0 (elem_key n) :: fk n) = true
    /\ fs_get false st (fk n) = DVal (fv n)
  else forall kk, fs_decode_key false (d_base st) (elem_key n) = Some kk ->
                  is_prefix pk (hd 0 (elem_key n) :: kk) = false.

(* after a name with the prefix, the listing runs while the prefix lasts; by convexity no name after
   that has it *)
Lemma dump_rest_filter st pk q fk fv names : forall n0,
  sorted (n0 :: names) -> is_prefix q n0 = true -> Forall (entry_ok st pk q fk fv) names ->
  fs_dump_rest false st pk names = map (fun n => (fk n, fv n)) (filter (is_prefix q) names).
Proof.
  induction names as [|n r IH]; intros n0 Hs H0 Hall; [reflexivity|].
  inversion Hs as [|? ? Hs' Hf]; subst. inversion Hall as [|? ? Hn Hr]; subst.
  unfold entry_ok in Hn. cbn [fs_dump_rest filter]. destruct (is_prefix q n) eqn:Em.
  - destruct Hn as (Hd & Hp & Hg). rewrite Hd, Hp, Hg. cbn [map]. f_equal. apply (IH n); assumption.
  - replace (filter (is_prefix q) r) with (@nil bytes).
    + destruct (fs_decode_key false (d_base st) (elem_key n)) as [kk|] eqn:Ed; [|reflexivity].
      rewrite (Hn kk eq_refl). reflexivity.
    + destruct (filter (is_prefix q) r) as [|z l] eqn:Ef; [reflexivity|]. exfalso.
      assert (Hz : In z (filter (is_prefix q) r)) by (rewrite Ef; left; reflexivity).
      apply filter_In in Hz as [Hz Mz]. inversion Hs' as [|? ? _ Hf']; subst. rewrite Forall_forall in Hf, Hf'.
      rewrite (prefix_convex q n0 n z) in Em; [discriminate|apply Hf; left; reflexivity|apply Hf'; exact Hz|exact H0|exact Mz].
Qed.

(* a name with the prefix q is long enough for Dump to look at when q is at least as long as pk *)
Lemma dump_first_filter st pk q fk fv names :
  len pk <= len q -> sorted names -> Forall (entry_ok st pk q fk fv) names ->
  fs_dump_first false st pk names
  = match filter (is_prefix q) names with
    | [] => DErr ENotFound
    | l => DDump (map (fun n => (fk n, fv n)) l)
    end.
Proof.
  intros Hlen. induction names as [|n r IH]; intros Hs Hall; [reflexivity|].
  inversion Hall as [|? ? Hn Hr]; subst. unfold entry_ok in Hn. cbn [fs_dump_first filter].
  destruct (is_prefix q n) eqn:Em.
  - destruct Hn as (Hd & Hp & Hg). pose proof (is_prefix_len _ _ Em).
    replace (len (elem_key n) <? len pk) with false by (rewrite len_elem_key; lia).
    rewrite Hd, Hp, Hg. cbn [map]. f_equal. f_equal.
    apply (dump_rest_filter st pk q fk fv r n); assumption.
  - inversion Hs; subst. specialize (IH ltac:(assumption) Hr).
    destruct (len (elem_key n) <? len pk); [exact IH|].
    destruct (fs_decode_key false (d_base st) (elem_key n)) as [kk|] eqn:Ed; [|exact IH].
    rewrite (Hn kk eq_refl). exact IH.
Qed.

Lemma slookup_in [a m v] : slookup a m = Some v -> In (a, v) m.
Proof.
  induction m as [|[a' v'] m IH]; cbn [slookup]; [discriminate|].
  destruct (akey_eqb a a') eqn:E; intros H.
  - apply akey_eqb_eq in E. subst a'. injection H as ->. left. reflexivity.
  - right. apply IH. exact H.
Qed.
Lemma dir_pref_eq dir : dir <> [] -> dir_pref dir = path_str dir ++ [ch_slash].
Proof.
  intros H. destruct (exists_last H) as (d & n & ->). rewrite path_str_snoc. unfold dir_pref.
  rewrite map_app, concat_app. cbn [map List.concat]. rewrite app_nil_r, app_assoc. reflexivity.
Qed.

Lemma child_name_plain dir n : name_plain n = true ->
  child_name (dir_pref dir) (path_str (dir ++ [n])) = Some n.
Proof.
  intros H. apply name_plain_spec in H as [Hn [Hs _]].
  unfold child_name. rewrite path_str_snoc, is_prefix_app, (drop_app_exact _ _ _ eq_refl).
  destruct n; [congruence|]. cbn [is_nil orb]. rewrite Hs. reflexivity.
Qed.

Lemma children_paths dir (store : list (bytes * bytes)) :
  (forall p, In p (map fst store) -> exists n, name_plain n = true /\ p = path_str (dir ++ [n])) ->
  map (fun n => path_str (dir ++ [n]))
      (map fst (fold_right (fun kv acc => match child_name (dir_pref dir) (fst kv) with
                                          | Some n => (n, tt) :: acc | None => acc end) [] store))
  = map fst store.
Proof.
  induction store as [|[p v] store IH]; intros Hw; [reflexivity|]. cbn [fold_right map fst].
  destruct (Hw p (or_introl eq_refl)) as [n [Hn ->]]. rewrite (child_name_plain dir n Hn).
  cbn [map fst]. f_equal. apply IH. intros p' H. apply (Hw p'). right. exact H.
Qed.

Lemma readdir_spec st sp : fs_rel false st sp -> d_dir st <> [] ->
  sorted (fs_readdir st) /\ NoDup (fs_readdir st)
  /\ (forall n, In n (fs_readdir st) <-> exists a v, n = nm false a /\ slookup a (sp_map sp) = Some v).
Proof.
  intros R Hne. pose proof (fs_rel_holds R) as Hh. pose proof Hh as (Hm & Hf & Hnd & Hw).
  assert (P : Permutation (map (fun n => path_str (d_dir st ++ [n])) (fs_readdir st)) (map fst (d_store st))).
  { unfold fs_readdir. rewrite <- (dir_pref_eq _ Hne), asort_perm, children_paths; [reflexivity|].
    intros p Hin. destruct (Hf p Hin) as [a [W ->]]. exists (nm false a).
    split; [exact (fs_wf_plain W)|reflexivity]. }
  split; [apply asort_sorted|]. split.
  - apply (NoDup_map_inv (fun n => path_str (d_dir st ++ [n]))). apply (Permutation_NoDup (Permutation_sym P) Hnd).
  - intros n. split.
    + intros Hin. apply (in_map (fun n => path_str (d_dir st ++ [n]))) in Hin. apply (Permutation_in _ P) in Hin.
      apply in_map_iff in Hin as [[p v] [Ep Hin]]. cbn [fst] in Ep. subst p.
      destruct (holds_entry Hh Hin) as (a & _ & Ea & Hs). apply path_str_inj in Ea.
      exists a, v. auto.
    + intros (a & v & -> & Hs). pose proof (Hw a v (slookup_in Hs)) as W.
      rewrite <- (Hm a W) in Hs. apply alookup_in_pair, (in_map fst) in Hs.
      apply (Permutation_in _ (Permutation_sym P)), in_map_iff in Hs as [n [En Hin]].
      apply path_str_inj in En. subst n. exact Hin.
Qed.

Definition put_key_nonempty (o : dbop) : bool := match o with OPut k _ => negb (is_nil k) | _ => true end.

Definition keys_nonempty (sp : spec) : Prop := forall a v, In (a, v) (sp_map sp) -> a_key a <> [].

Lemma keys_nonempty_run ops : forall sp,
  forallb put_key_nonempty ops = true -> keys_nonempty sp -> keys_nonempty (fst (spec_run sp ops)).
Proof.
  induction ops as [|o ops IH]; intros sp H K; [exact K|].
  cbn [forallb] in H. apply andb_true_iff in H as [Ho Hr]. rewrite spec_run_cons. cbn [fst]. apply IH; [exact Hr|].
  destruct o as [k v|k|p|s|l|p lk|k|k|k]; cbn [spec_step fst]; try exact K.
  - rewrite spec_put_eq. apply put_in_inv; [exact K|]. intros _ a w [E|Hin]; [|exact (K a w Hin)].
    injection E as <- _. destruct k; [discriminate Ho|discriminate].
  - destruct (set_lock (sp_base sp) p lk). exact K.
Qed.

(* documented type; default language; no translation stored for this type; a session id is set
   exactly when the type is sessioned *)
Definition dump_ok (sp : spec) : bool :=
  let b := sp_base sp in
  documented_type (b_pfx b) && is_none (b_lang b)
  && (if sessioned (b_pfx b) then negb (is_nil (b_sid b)) else is_nil (b_sid b))
  && forallb (fun e : akey * bytes => negb ((a_typ (fst e) =? b_pfx b) && negb (is_none (a_lang (fst e))))) (sp_map sp).

Lemma dump_ok_spec sp : dump_ok sp = true ->
  documented_type (b_pfx (sp_base sp)) = true /\ b_lang (sp_base sp) = None
  /\ (if sessioned (b_pfx (sp_base sp)) then b_sid (sp_base sp) <> [] else b_sid (sp_base sp) = [])
  /\ (forall a v, In (a, v) (sp_map sp) -> a_typ a = b_pfx (sp_base sp) -> a_lang a = None).
Proof.
  unfold dump_ok. rewrite !andb_true_iff. intros [[[H1 H2] H3] H4]. split; [exact H1|]. split; [destruct (b_lang (sp_base sp)); [discriminate|reflexivity]|].
  split.
  - destruct (sessioned (b_pfx (sp_base sp))); destruct (b_sid (sp_base sp)); try discriminate; congruence.
  - intros a v Hin Ht. rewrite forallb_forall in H4. specialize (H4 _ Hin). cbn [fst] in H4.
    rewrite Ht, N.eqb_refl in H4. cbn [andb] in H4. destruct (a_lang a); [discriminate|reflexivity].
Qed.

(* the session prefix of the current context, and the file names Dump(p) lists: type character,
   session prefix, p *)
Definition sess_pre (b : base) : bytes := if sessioned (b_pfx b) then sid_enc (b_sid b) else [].
Definition dq (b : base) (p : bytes) : bytes := w8 (b_pfx b + fs_type_offset) :: sess_pre b ++ p.

Lemma same_space_eq b a : same_space b a = true -> a_lang a = None -> a = ctx_akey b None (a_key a).
Proof.
  destruct a as [t s l k]. unfold same_space, ctx_akey. cbn [a_typ a_sess a_lang a_key]. intros H ->.
  apply andb_true_iff in H as [H1 H2]. apply N.eqb_eq in H1. apply obytes_eqb_eq in H2. subst. reflexivity.
Qed.
Lemma same_space_ctx b k : same_space b (ctx_akey b None k) = true.
Proof.
  unfold same_space, ctx_akey. cbn [a_typ a_sess]. rewrite N.eqb_refl. apply obytes_eqb_eq. reflexivity.
Qed.

Lemma same_space_sk [b a] : same_space b a = true -> a_sk a = sess_pre b ++ a_key a.
Proof.
  unfold same_space, a_sk, a_sid, sess_pre. intros H. apply andb_true_iff in H as [Ht Hs].
  apply N.eqb_eq in Ht. apply obytes_eqb_eq in Hs. rewrite Ht, Hs. destruct (sessioned (b_pfx b)); reflexivity.
Qed.

Lemma space_prefix b a :
  dot_free (b_sid b) = true -> (sessioned (b_pfx b) = true -> b_sid b <> []) ->
  wf_akey a = true -> a_typ a = b_pfx b ->
  is_prefix (sess_pre b) (a_sk a) = same_space b a.
Proof.
  intros Hd Hsid W Ht. destruct (same_space b a) eqn:E; [rewrite (same_space_sk E); apply is_prefix_app|].
  apply andb_true_iff in W as [W _]. unfold wf_sess in W.
  unfold sess_pre, same_space, a_sk, a_sid in *. rewrite Ht, N.eqb_refl in *. cbn [andb] in E.
  destruct (sessioned (b_pfx b)); [specialize (Hsid eq_refl)|destruct (a_sess a); discriminate].
  destruct (a_sess a) as [s|]; [|discriminate]. apply andb_true_iff in W as [Wd Wk].
  destruct (is_prefix (sid_enc (b_sid b)) (sid_enc s ++ a_key a)) eqn:P; [|reflexivity].
  apply is_prefix_exists in P as [z P]. apply sess_app_inj in P as [-> _]; auto; try congruence.
  - rewrite (proj2 (obytes_eqb_eq _ _) eq_refl) in E. discriminate.
  - intros ->. exact Wk.
Qed.

Lemma from_session_key_model b sk :
  (if sessioned (b_pfx b) then b_sid b <> [] else b_sid b = []) ->
  from_session_key (model_base b) sk
  = if is_prefix (sess_pre b) sk then Ok (drop (len (sess_pre b)) sk) else Err EGen.
Proof.
  unfold from_session_key, sess_pre. cbn [model_base b_sid]. destruct (sessioned (b_pfx b)).
  - destruct (b_sid b) as [|c s]; [congruence|reflexivity].
  - intros ->. reflexivity.
Qed.

Lemma elem_key_nm a : documented_type (a_typ a) = true -> elem_key (nm false a) = enc_a a.
Proof. intros H. rewrite nm_unfold, enc_a_unfold. cbn [elem_key]. rewrite (sub8_type _ H). reflexivity. Qed.

Lemma from_db_key_default a : wf_akey a = true -> a_lang a = None -> a_key a <> [] ->
  from_db_key (enc_a a) = Ok (a_sk a).
Proof.
  intros W Hl Hk. rewrite enc_a_unfold, Hl. cbn [lang_suffix]. rewrite app_nil_r.
  assert (Hne : a_sk a <> []).
  { unfold a_sk. destruct (sessioned (a_typ a)); [|exact Hk]. intros E. apply app_eq_nil in E as [_ E]. contradiction. }
  destruct (a_sk a) as [|x r] eqn:Er; [congruence|].
  cbn [from_db_key]. destruct (lang_type (a_typ a)) eqn:Et; [|reflexivity]. cbn [andb].
  apply andb_true_iff in W as [_ W]. unfold wf_lng in W. rewrite Et, Hl, Er in W.
  unfold no_lang_suffix in W. apply negb_true_iff in W.
  destruct (6 <? len (x :: r)) eqn:E6; [|reflexivity]. cbn [andb].
  replace (4 <=? len (x :: r)) with true in W by lia. cbn [andb] in W.
  rewrite W. reflexivity.
Qed.

Lemma decode_entry b a :
  (if sessioned (b_pfx b) then b_sid b <> [] else b_sid b = []) ->
  wf_akey a = true -> a_key a <> [] -> a_lang a = None ->
  is_prefix (sess_pre b) (a_sk a) = same_space b a ->
  fs_decode_key false (model_base b) (enc_a a) = if same_space b a then Some (a_key a) else None.
Proof.
  intros Hsid W Hk Hl ES. unfold fs_decode_key, decode_key.
  rewrite (from_db_key_default a W Hl Hk). cbn [obind]. rewrite (from_session_key_model _ _ Hsid), ES.
  destruct (same_space b a) eqn:E; [|reflexivity].
  rewrite (same_space_sk E), (drop_app_exact _ _ _ eq_refl). reflexivity.
Qed.

(* the key and the value Dump shows for the directory entry n ([] where it shows none) *)
Definition dfk (st : dbstate) (n : bytes) : bytes :=
  match fs_decode_key false (d_base st) (elem_key n) with Some kk => kk | None => [] end.
Definition dfv (st : dbstate) (n : bytes) : bytes :=
  match fs_get false st (dfk st n) with DVal v => v | _ => [] end.

(* the name of a's file has the prefix dq b p exactly when a lies in the current space and its key begins
   with p: another type has another first character, another session of the same type another session
   prefix (space_prefix) *)
Lemma entry_facts st sp p a v :
  fs_rel false st sp -> dump_ok sp = true -> keys_nonempty sp -> slookup a (sp_map sp) = Some v ->
  let b := sp_base sp in let n := nm false a in
  entry_ok st (b_pfx b :: p) (dq b p) (dfk st) (dfv st) n
  /\ is_prefix (dq b p) n = same_space b a && is_prefix p (a_key a)
  /\ (is_prefix (dq b p) n = true ->
      a = ctx_akey b None (a_key a) /\ is_prefix p (a_key a) = true /\ dfk st n = a_key a /\ dfv st n = v).
Proof.
  intros R Hok K Hs b n. subst n. destruct (fs_rel_ctx R) as [Hb [Hdf _]].
  destruct (dump_ok_spec sp Hok) as (Hdoc & Hl & Hsid & Hg). fold b in Hb, Hdoc, Hl, Hsid, Hg.
  pose proof (slookup_in Hs) as Hin. pose proof (holds_wf (fs_rel_holds R) Hin) as W.
  pose proof (fs_wf_akey W) as Wa. pose proof (fs_wf_doc W) as Hda.
  change (wf_akey (fs_a false a)) with (wf_akey a) in Wa.
  unfold entry_ok, dfv, dfk, dq. rewrite (elem_key_nm a Hda). change (hd 0 (enc_a a)) with (a_typ a).
  rewrite nm_unfold. change (a_sk (fs_a false a)) with (a_sk a). cbn [is_prefix].
  destruct (N.eq_dec (a_typ a) (b_pfx b)) as [Ht|Ht].
  - pose proof (Hg a v Hin Ht) as Hla.
    assert (ES : is_prefix (sess_pre b) (a_sk a) = same_space b a).
    { apply space_prefix; try assumption. intros Hse. rewrite Hse in Hsid. exact Hsid. }
    assert (EM : is_prefix (sess_pre b ++ p) (a_sk a) = same_space b a && is_prefix p (a_key a)).
    { destruct (same_space b a) eqn:Ess; [rewrite (same_space_sk Ess); apply is_prefix_app_same|].
      destruct (is_prefix (sess_pre b ++ p) (a_sk a)) eqn:P; [|reflexivity]. apply is_prefix_app_l in P. congruence. }
    rewrite Hb, (decode_entry b a Hsid Wa (K a v Hin) Hla ES), Ht, Hla, !N.eqb_refl. cbn [andb lang_suffix].
    rewrite app_nil_r, EM. destruct (same_space b a) eqn:Ess; cbn [andb]; [|repeat split; discriminate].
    pose proof (same_space_eq b a Ess Hla) as Ea.
    assert (Eget : fs_get false st (a_key a) = DVal v).
    { assert (El : eff_lang b = None) by (unfold eff_lang; rewrite Hl; destruct (lang_type (b_pfx b)); reflexivity).
      rewrite (fs_get_found false st sp _ R).
      - unfold spec_get. fold b. rewrite El, <- Ea, Hs, (eqb_unknown _ (documented_nonzero _ Hdoc)). reflexivity.
      - fold b. rewrite El. intros _ l [->| ->]; rewrite <- Ea; exact W. }
    rewrite Eget. destruct (is_prefix p (a_key a)) eqn:Ep; [repeat split; exact Ea|].
    split; [|split; [reflexivity|discriminate]]. intros kk E. injection E as <-. exact Ep.
  - (* another type: another first character *)
    assert (E1 : (w8 (b_pfx b + fs_type_offset) =? w8 (a_typ a + fs_type_offset)) = false).
    { apply N.eqb_neq. intros E. apply w8_type_inj in E; congruence. }
    assert (E2 : same_space b a = false) by (unfold same_space; apply N.eqb_neq in Ht; rewrite Ht; reflexivity).
    assert (E3 : (b_pfx b =? a_typ a) = false) by (apply N.eqb_neq; congruence).
    rewrite E1, E2, E3. repeat split; discriminate.
Qed.

(* what Dump(p) has to return: the entries of the current space (default language) whose key begins
   with p, each once; not found when there is none *)
Definition lists_prefix (sp : spec) (p : bytes) (r : dbres) : Prop :=
  match r with
  | DDump l =>
    (forall k v, In (k, v) l <-> is_prefix p k = true /\ slookup (ctx_akey (sp_base sp) None k) (sp_map sp) = Some v)
    /\ NoDup (map fst l) /\ l <> []
  | DErr ENotFound =>
    forall k, is_prefix p k = true -> slookup (ctx_akey (sp_base sp) None k) (sp_map sp) = None
  | _ => False
  end.

(* Dump in text mode lists the matching names of the sorted directory, decoded and read
   (dump_first_filter), and those are the files of the entries to list (entry_facts) *)
Lemma fs_dump_state st sp p :
  fs_rel false st sp -> dump_ok sp = true -> keys_nonempty sp -> d_dir st <> [] ->
  lists_prefix sp p (fs_dump false st p).
Proof.
  intros R Hok K Hne. destruct (readdir_spec st sp R Hne) as (Hsorted & Hnd & Hnames).
  pose proof (fun a v => entry_facts st sp p a v R Hok K) as F. cbv zeta in F.
  set (b := sp_base sp) in *. set (q := dq b p) in *.
  unfold fs_dump. replace (b_pfx (d_base st)) with (b_pfx b) by (rewrite (proj1 (fs_rel_ctx R)); reflexivity).
  rewrite (dump_first_filter st _ q (dfk st) (dfv st)); [|unfold q, dq; rewrite !len_cons, len_app; lia|exact Hsorted|].
  2: { apply Forall_forall. intros n Hin. apply Hnames in Hin as (a & v & -> & Hs). apply (F a v Hs). }
  set (L := filter (is_prefix q) (fs_readdir st)).
  set (file k := nm false (ctx_akey b None k)).
  assert (HL : forall n, In n L -> n = file (dfk st n) /\ is_prefix p (dfk st n) = true
                                   /\ slookup (ctx_akey b None (dfk st n)) (sp_map sp) = Some (dfv st n)).
  { intros n Hin. apply filter_In in Hin as [Hin Hq]. apply Hnames in Hin as (a & v & -> & Hs).
    destruct (F a v Hs) as (_ & _ & E). destruct (E Hq) as (Ea & Ep & -> & ->). unfold file. rewrite <- Ea. auto. }
  assert (Hmem : forall k v, In (k, v) (map (fun n => (dfk st n, dfv st n)) L)
                 <-> is_prefix p k = true /\ slookup (ctx_akey b None k) (sp_map sp) = Some v).
  { intros k v. rewrite in_map_iff. split.
    - intros [n [E Hin]]. injection E as <- <-. apply (HL n Hin).
    - intros [Hp Hs]. exists (file k). destruct (F _ v Hs) as (_ & EM & E).
      rewrite same_space_ctx in EM. cbn [andb ctx_akey a_key] in EM. rewrite Hp in EM.
      unfold file. destruct (E EM) as (_ & _ & -> & ->). split; [reflexivity|].
      apply filter_In. split; [apply Hnames; eauto|exact EM]. }
  assert (Hnodup : NoDup (map fst (map (fun n => (dfk st n, dfv st n)) L))).
  { rewrite map_map. cbn [fst]. apply (NoDup_map_inv file). rewrite map_map.
    rewrite (map_ext_in _ (fun n => n)), map_id; [apply NoDup_filter; exact Hnd|].
    intros n Hin. symmetry. apply (HL n Hin). }
  unfold lists_prefix. fold b. destruct L as [|n L'] eqn:EL.
  - intros k Hp. destruct (slookup (ctx_akey b None k) (sp_map sp)) as [v|] eqn:Es; [|reflexivity].
    exfalso. apply (proj2 (Hmem k v)). split; assumption.
  - split; [exact Hmem|]. split; [exact Hnodup|discriminate].
Qed.

Lemma fs_dump_after_run : forall dir ops p,
  dir_ok dir = true -> dir <> [] ->
  fs_hist_ok false spec_init ops = true -> forallb put_key_nonempty ops = true ->
  let st := fst (db_run (BFs false) (db_init dir) ops) in
  let sp := fst (spec_run spec_init ops) in
  dump_ok sp = true ->
  lists_prefix sp p (fs_dump false st p).
Proof.
  intros dir ops p Hd Hne Hok Hk st sp Hdump. apply fs_dump_state; [|exact Hdump| |].
  - apply fs_run_refines; assumption.
  - apply keys_nonempty_run; [exact Hk|]. intros a v [].
  - unfold st. rewrite (db_run_inv (BFs false) (fun s => d_dir s = dir)); [exact Hne| |reflexivity].
    intros s o <-. apply step_dir.
Qed.

(* the guard of the Postgres listing: a documented type (a sessioned type is then not
   language-scoped, so no language suffix can imitate a session prefix) and a session id for the
   sessioned types (without one the prefix "type byte + key" matches every session: K-C11-2) *)
Definition pg_list_ok (sp : spec) : bool :=
  let b := sp_base sp in
  documented_type (b_pfx b)
  && (if sessioned (b_pfx b) then negb (is_nil (b_sid b)) else true).

Lemma pg_rest_in b lo rows k v : In (k, v) (pg_dump_rest b lo rows) ->
  exists rk, In (rk, v) rows /\ is_prefix lo rk = true.
Proof.
  induction rows as [|[rk w] rows IH]; cbn [pg_dump_rest]; [intros []|].
  destruct (is_prefix lo rk) eqn:Ep; [|intros []].
  destruct (decode_key b rk) as [kk|e|n] eqn:E; [|intros []|intros []].
  intros [H|H].
  - injection H as -> ->. exists rk. split; [left; reflexivity|exact Ep].
  - destruct (IH H) as [rk' [H1 H2]]. exists rk'. split; [right; exact H1|exact H2].
Qed.

Lemma bytes_leb_head t x t' y : bytes_leb (t :: x) (t' :: y) = true -> t <= t'.
Proof. cbn [bytes_leb]. destruct (t <? t') eqn:E1; [lia|]. destruct (t' <? t) eqn:E2; [discriminate|lia]. Qed.

Lemma lang_suffix_not_lang t l : lang_type t = false -> lang_suffix t l = [].
Proof. intros H. destruct l as [[|c r]|]; cbn [lang_suffix]; rewrite ?H; reflexivity. Qed.

Lemma pg_dump_rows st b key l : pg_dump st b key = DDump l ->
  exists lk, to_key b key = Ok lk /\ l = pg_dump_rest b (lk_default lk) (pg_rows_from st (lk_default lk)).
Proof.
  unfold pg_dump. destruct (to_key b key) as [lk| |]; try discriminate. cbv zeta.
  destruct (pg_rows_from st (lk_default lk)) as [|[rk v] r] eqn:Er; [discriminate|].
  destruct (is_prefix (lk_default lk) rk) eqn:Ep; cbn [negb]; [|discriminate].
  destruct (decode_key b rk) eqn:Ed; try discriminate. intros H. injection H as <-.
  exists lk. rewrite Er. cbn [pg_dump_rest]. rewrite Ep, Ed. auto.
Qed.

(* every stored row is the entry of a well-formed key (holds), and a row that begins with the lower
   bound of the listing has the type byte and the session prefix of the current space *)
Theorem pg_listing_isolated_state st sp p l :
  kv_rel (fun x => x) st sp -> pg_list_ok sp = true ->
  snd (db_step BPg st (ODump p)) = DDump l ->
  forall k v, In (k, v) l ->
  exists a, same_space (sp_base sp) a = true /\ slookup a (sp_map sp) = Some v.
Proof.
  intros [[Hb [Hdf _]] Hh] Hok Hd k v Hin.
  unfold pg_list_ok in Hok. apply andb_true_iff in Hok as [Hdoc Hsid].
  cbn [db_step snd] in Hd. apply pg_dump_rows in Hd as (lk & Etk & ->).
  apply pg_rest_in in Hin as (rk & Hr & Hpre). apply filter_In in Hr as [Hr _].
  apply (Permutation_in _ (asort_perm _)) in Hr.
  destruct (holds_entry Hh Hr) as (a & Wa & -> & Hs). exists a. split; [|exact Hs].
  unfold to_key in Etk. destruct (_ =? DATATYPE_UNKNOWN); [discriminate|]. injection Etk as <-.
  rewrite Hb in Hpre. unfold kv_loc, to_db_key, to_session_key in Hpre.
  cbn [lk_default lang_suffix set_language model_base b_pfx b_sid] in Hpre. rewrite app_nil_r, enc_a_unfold in Hpre.
  cbn [is_prefix] in Hpre. apply andb_true_iff in Hpre as [Ht Hpre]. apply N.eqb_eq in Ht.
  rewrite <- (space_prefix (sp_base sp) a Hdf); [|intros Hse; rewrite Hse in Hsid; destruct (b_sid (sp_base sp)); discriminate|exact Wa|auto].
  unfold sess_pre. destruct (sessioned (b_pfx (sp_base sp))) eqn:Ese; [|reflexivity].
  rewrite <- Ht, (lang_suffix_not_lang _ _ (documented_sessioned_not_lang _ Hdoc Ese)), app_nil_r in Hpre.
  apply is_prefix_app_l in Hpre. exact Hpre.
Qed.

(* a value is owned by the current (type, session) if some entry of that space holds it *)
Definition owned (sp : spec) (v : bytes) : bool :=
  existsb (fun e : akey * bytes => same_space (sp_base sp) (fst e) && bytes_eqb (snd e) v) (sp_map sp).
Lemma owned_of_entry sp v a : same_space (sp_base sp) a = true -> slookup a (sp_map sp) = Some v -> owned sp v = true.
Proof.
  intros Hs Hl. unfold owned. apply existsb_exists. exists (a, v). split; [apply slookup_in; exact Hl|].
  cbn [fst snd]. rewrite Hs, bytes_eqb_refl. reflexivity.
Qed.

(* the history of C11_pg_dump_cross_type_regression (K-C11-5, notes/integration_db.md): a STATE entry and a
   USERDATA entry under one session id; the listing of STATE compares every row with the lower bound
   (go-vise 55e3e80) and shows the STATE entry only *)
Definition w_pg_dump : list dbop :=
  [OSetPrefix DATATYPE_STATE; OSetSession (s2b "s"); OPut (s2b "a") (s2b "state-a");
   OSetPrefix DATATYPE_USERDATA; OPut (s2b "u") (s2b "user-u"); OSetPrefix DATATYPE_STATE].
