(* Lemmas for C16: on valid sources outside the finding classes the assembler
   model emits exactly the encoding of the instructions that were written (asm_emits_expansion_lemma);
   with the C14 round trip (CodecProofs.prog_roundtrip_lemma): asm_fidelity_partial_lemma, batch_expansion_lemma.
   In order: the text classes as token shapes (sym_shaped, lexes_only); reading and printing numbers
   (parse_uint0_value, dec_roundtrip, sel_cases); what the front end hands on (front_line_tokens, fill_size) and what
   line_ok excludes; parseOne per argument record (asm_one_none ... asm_one_croak); one lemma per line shape, the opcode word a
   variable (line_none ... line_catch; line_sel_sym, line_down), collected over the twelve plain forms (plain_line_correct) and the four batch words
   (batch_line_correct); the loop over the lines; the theorems; two evaluated sources.
   Characters are written as their codes, as in AsmModel: 42 `*`, 48 `0`, 56 `8`, 95 `_`,
   62 `>`, 60 `<`. *)
From Coq Require Import Lia ZArith.
From Coq Require Import ZifyN ZifyNat ZifyBool.
From Vise Require Import Bytes Errors Consts Codec BytesProofs CodecProofs AsmModel.
Local Open Scope N_scope.

Lemma alnum_word x : is_alnum x = true -> is_word x = true.
Proof. unfold is_alnum, is_word. intros ->. reflexivity. Qed.

Lemma alpha_not_digit c : is_alpha c = true -> is_digit c = false.
Proof. unfold is_alpha, is_upper, is_lower, is_digit. lia. Qed.

Lemma digit_not_upper c : is_digit c = true -> is_upper c = false.
Proof. unfold is_upper, is_digit. lia. Qed.

(* what the lexer of asm.Parse and the lexer of the preprocessor both read as one symbol token
   (or refuse, for an upper-case start): a start character of rule Sym that is no digit, then
   word characters *)
Definition sym_shaped (a : bytes) : Prop :=
  exists c r, a = c :: r /\ is_digit c = false /\ is_sym_start c = true /\ forallb is_word r = true.

Lemma sym_text_shaped a : is_sym_text a = true -> sym_shaped a.
Proof.
  destruct a as [|c r]; cbn [is_sym_text]; [discriminate|].
  intros H. apply andb_true_iff in H as [Hc Hr]. exists c, r.
  repeat split; [apply alpha_not_digit, Hc|unfold is_sym_start; rewrite Hc; reflexivity|exact Hr].
Qed.

Lemma sym_is_node s : is_sym_text s = true -> is_node_text s = true.
Proof. unfold is_node_text. intros ->. reflexivity. Qed.

Lemma node_text_shaped a : is_node_text a = true -> sym_shaped a.
Proof.
  unfold is_node_text. intros H. apply orb_true_iff in H as [H|H]; [apply sym_text_shaped, H|].
  destruct a as [|c [|d r]]; cbn [is_special_node] in H; try discriminate.
  exists c, []. repeat split; unfold is_digit, is_sym_start; lia.
Qed.

Lemma sel_text_cases b :
  is_selector_text b = true -> b = [42] \/ exists c r, b = c :: r /\ forallb is_alnum (c :: r) = true.
Proof.
  unfold is_selector_text. intros H. apply orb_true_iff in H as [H|H]; [left; apply bytes_eqb_eq, H|right].
  apply andb_true_iff in H as [Hne Hal]. destruct b as [|c r]; [discriminate Hne|]. exists c, r. auto.
Qed.

Lemma sel_text_shaped b : is_selector_text b = true -> starts_with is_digit b = false -> sym_shaped b.
Proof.
  intros H Hd. destruct (sel_text_cases b H) as [->|(c & r & -> & Hal)]; [exists 42, []; repeat split|].
  cbn [forallb] in Hal. apply andb_true_iff in Hal as [Hc Hr]. cbn [starts_with] in Hd.
  exists c, r. repeat split; [exact Hd| |eapply forallb_impl; [exact alnum_word|exact Hr]].
  unfold is_sym_start. unfold is_alnum in Hc. rewrite Hd, orb_false_r in Hc. rewrite Hc. reflexivity.
Qed.

Lemma num_text_cons s :
  is_num_text s = true -> exists c r, s = c :: r /\ is_digit c = true /\ forallb is_digit r = true.
Proof.
  destruct s as [|c r]; [discriminate|]. unfold is_num_text. intros H.
  apply andb_true_iff in H as [_ H]. cbn [forallb] in H. apply andb_true_iff in H as [Hc Hr].
  exists c, r. auto.
Qed.

Lemma forallb_bytes_ok (p : N -> bool) l :
  (forall x, p x = true -> x < 256) -> forallb p l = true -> bytes_ok l.
Proof.
  intros Hp. rewrite forallb_Forall. apply Forall_impl, Hp.
Qed.

Lemma word_lt x : is_word x = true -> x < 256.
Proof. unfold is_word, is_alpha, is_upper, is_lower, is_digit. lia. Qed.

Lemma shaped_wf s : sym_shaped s -> len s <= 255 -> wf_sym s.
Proof.
  intros (c & r & -> & _ & Hc & Hr) Hl. split; [|split; [rewrite len_cons; lia|exact Hl]].
  constructor; [|apply (forallb_bytes_ok is_word); [exact word_lt|exact Hr]].
  unfold is_sym_start, is_alpha, is_upper, is_lower in Hc. lia.
Qed.

Lemma node_text_wf s : is_node_text s = true -> len s <= 255 -> wf_sym s.
Proof. intros H. apply shaped_wf, node_text_shaped, H. Qed.

Lemma wf_sym_one c : c < 256 -> wf_sym [c].
Proof. intros H. split; [repeat constructor; exact H|cbn; lia]. Qed.

Lemma sel_text_wf s : is_selector_text s = true -> len s <= 255 -> wf_sym s.
Proof.
  intros H Hl. destruct (sel_text_cases s H) as [->|(c & r & -> & Hal)]; [exact (wf_sym_one 42 eq_refl)|].
  split; [|split; [rewrite len_cons; lia|exact Hl]].
  apply (forallb_bytes_ok is_alnum); [intros x Hx; apply word_lt, alnum_word, Hx|exact Hal].
Qed.

Lemma span_all p r : forallb p r = true -> span p r = (r, []).
Proof.
  induction r as [|c r IH]; cbn [forallb span]; [reflexivity|].
  intros H. apply andb_true_iff in H as [Hc Hr]. rewrite Hc, IH by exact Hr. reflexivity.
Qed.

Lemma lex_fuel_nil f : lex_fuel f [] = Some [].
Proof. destruct f; reflexivity. Qed.

Definition lexes_only (a : bytes) (t : tok) : Prop := lex a = None \/ lex a = Some [t].

Lemma lexes_only_shaped a : sym_shaped a -> lexes_only a (TSym a).
Proof.
  intros (c & r & -> & Hd & Hs & Hr). unfold lexes_only, lex. cbn [List.length lex_fuel].
  destruct (is_upper c); [left; reflexivity|right].
  rewrite Hd, Hs, span_all, lex_fuel_nil by exact Hr. reflexivity.
Qed.

Lemma lex_num s : is_num_text s = true -> lex s = Some [TSize s].
Proof.
  intros H. destruct (num_text_cons s H) as (c & r & -> & Hc & Hr). unfold lex. cbn [List.length lex_fuel].
  rewrite (digit_not_upper c Hc), Hc, span_all, lex_fuel_nil by exact Hr. reflexivity.
Qed.

(* reading digits onto an accumulator, base 10 and base 8: digs_val (hence dec_value, parse_uint0)
   is such a fold from 0; the lemmas below need it from any accumulator *)
Notation F10 := (fold_left (fun a c => a * 10 + (c - 48))).
Notation F8 := (fold_left (fun a c => a * 8 + (c - 48))).

Lemma F10_ge r : forall acc, acc <= F10 r acc.
Proof.
  induction r as [|c r IH]; intros acc; cbn [fold_left]; [lia|].
  specialize (IH (acc * 10 + (c - 48))). lia.
Qed.

Lemma F8_small r : forall acc, F10 r acc < 8 -> F8 r acc = F10 r acc.
Proof.
  induction r as [|c r IH]; intros acc H; cbn [fold_left] in *; [reflexivity|].
  pose proof (F10_ge r (acc * 10 + (c - 48))) as Hge.
  assert (acc = 0) by lia. subst acc. apply IH. exact H.
Qed.

Lemma parse_uint0_value bits d n :
  is_num_text d = true -> octal_text d = false -> parse_uint0 bits d = Some n ->
  n = dec_value d /\ n < 2 ^ bits.
Proof.
  intros Hnum Hoct Hp. destruct (num_text_cons d Hnum) as [c [r [-> [Hc Hr]]]].
  unfold octal_text in Hoct. rewrite Hnum in Hoct. cbn [andb starts_with] in Hoct.
  unfold parse_uint0 in Hp.
  destruct ((c =? 48) && negb (len r =? 0)) eqn:Hlead.
  - apply andb_true_iff in Hlead as [Hc0 _]. apply N.eqb_eq in Hc0. subst c.
    cbn [N.eqb Pos.eqb andb] in Hoct. apply N.leb_gt in Hoct.
    destruct (forallb (fun x => x <? 56) r); [|discriminate].
    destruct (N.ltb_spec (digs_val 8 r) (2 ^ bits)) as [Hlt|]; [|discriminate].
    inversion Hp; subst n. clear Hp.
    assert (Hd : dec_value (48 :: r) = F10 r 0) by reflexivity.
    assert (He : digs_val 8 r = F10 r 0).
    { unfold digs_val. apply F8_small. rewrite <- Hd. exact Hoct. }
    rewrite He in *. rewrite Hd. split; [reflexivity|exact Hlt].
  - destruct (N.ltb_spec (digs_val 10 (c :: r)) (2 ^ bits)) as [Hlt|]; [|discriminate].
    inversion Hp; subst n. split; [reflexivity|exact Hlt].
Qed.

(* a number outside numnorm_text is the one digit 0 or has no leading 0 *)
Lemma numnorm_free_cases d :
  is_num_text d = true -> numnorm_text d = false ->
  d = [48] \/ exists c r, d = c :: r /\ c <> 48 /\ is_digit c = true /\ forallb is_digit r = true.
Proof.
  intros Hnum Hnn. destruct (num_text_cons d Hnum) as [c [r [-> [Hc Hr]]]].
  unfold numnorm_text in Hnn. rewrite Hnum in Hnn. cbn [andb starts_with] in Hnn.
  destruct (N.eqb_spec 48 c) as [<-|Hne]; [left|right; exists c, r; auto].
  rewrite andb_true_r in Hnn. apply N.ltb_ge in Hnn. rewrite len_cons in Hnn.
  destruct r; [reflexivity|]. rewrite len_cons in Hnn. lia.
Qed.

Lemma numnorm_free_not_octal d :
  is_num_text d = true -> numnorm_text d = false -> octal_text d = false.
Proof.
  intros Hnum Hnn. destruct (numnorm_free_cases d Hnum Hnn) as [->|(c & r & -> & Hne & _)]; [reflexivity|].
  unfold octal_text. cbn [starts_with]. rewrite (proj2 (N.eqb_neq 48 c)), andb_false_r by congruence. reflexivity.
Qed.

Lemma dec_digits_step f v k acc : k < 10 ->
  dec_digits (S f) (v * 10 + k) acc = if v =? 0 then (48 + k) :: acc else dec_digits f v ((48 + k) :: acc).
Proof.
  intros Hk. cbn [dec_digits].
  replace ((v * 10 + k) mod 10) with k by (apply N.mod_unique with v; lia).
  replace ((v * 10 + k) / 10) with v by (apply N.div_unique with k; lia).
  reflexivity.
Qed.

Lemma dec_digits_F10 d : forall v g acc,
  forallb is_digit d = true -> 0 < v ->
  dec_digits (List.length d + g) (F10 d v) acc = dec_digits g v (d ++ acc)%list.
Proof.
  induction d as [|c d IH]; intros v g acc Hd Hv; [reflexivity|].
  cbn [forallb] in Hd. apply andb_true_iff in Hd as [Hc Hd]. unfold is_digit in Hc.
  cbn [fold_left List.length Nat.add]. rewrite plus_n_Sm.
  rewrite IH by (assumption || lia). rewrite dec_digits_step by lia.
  destruct (N.eqb_spec v 0); [lia|]. replace (48 + (c - 48)) with c by lia. reflexivity.
Qed.

Lemma F10_log2 d : forall v, 0 < v -> len d + N.log2 v <= N.log2 (F10 d v).
Proof.
  induction d as [|c d IH]; intros v Hv; cbn [fold_left]; [cbn; lia|].
  specialize (IH (v * 10 + (c - 48)) ltac:(lia)). rewrite len_cons.
  pose proof (N.log2_double v Hv). pose proof (N.log2_le_mono (2 * v) (v * 10 + (c - 48)) ltac:(lia)). lia.
Qed.

Lemma dec_roundtrip d : is_num_text d = true -> numnorm_text d = false -> dec (dec_value d) = d.
Proof.
  intros Hnum Hnn. destruct (numnorm_free_cases d Hnum Hnn) as [->|(c & r & -> & Hne & Hc & Hr)]; [reflexivity|].
  unfold is_digit in Hc. change (dec_value (c :: r)) with (F10 r (c - 48)). unfold dec.
  pose proof (F10_log2 r (c - 48) ltac:(lia)) as Hlog. unfold len in Hlog.
  remember (N.to_nat (N.log2 (F10 r (c - 48)))) as k eqn:Hk.
  replace (S k) with (List.length r + S (k - List.length r))%nat by lia.
  rewrite dec_digits_F10 by (assumption || lia).
  change (c - 48) with (0 * 10 + (c - 48)) at 1. rewrite dec_digits_step by lia.
  cbn [N.eqb]. rewrite app_nil_r. replace (48 + (c - 48)) with c by lia. reflexivity.
Qed.

Lemma sel_cases b :
  is_selector_text b = true -> numnorm_text b = false -> digitprefix_text b = false ->
  lexes_only b (TSym b)
  \/ (lexes_only b (TSize b) /\ forall bits n, parse_uint0 bits b = Some n -> dec n = b).
Proof.
  intros Hs Hnn Hdp.
  destruct (starts_with is_digit b) eqn:Hd; [right|left; apply lexes_only_shaped, sel_text_shaped; assumption].
  assert (Hnum : is_num_text b = true).
  { unfold digitprefix_text in Hdp. rewrite Hd in Hdp. apply negb_false_iff in Hdp.
    unfold is_num_text. rewrite Hdp. destruct b; [discriminate Hd|reflexivity]. }
  split; [right; apply lex_num, Hnum|]. intros bits n Hp.
  destruct (parse_uint0_value bits b n Hnum (numnorm_free_not_octal b Hnum Hnn) Hp) as [-> _].
  apply dec_roundtrip; assumption.
Qed.

Lemma lexes_only_node a : is_node_text a = true -> lexes_only a (TSym a).
Proof. intros H. apply lexes_only_shaped, node_text_shaped, H. Qed.

Lemma lexes_only_num a : is_num_text a = true -> lexes_only a (TSize a).
Proof. intros H. right. apply lex_num, H. Qed.

Lemma mode_is_num c : is_mode_text c = true -> is_num_text c = true /\ octal_text c = false /\ dec_value c <= 1.
Proof.
  unfold is_mode_text. intros H. apply andb_true_iff in H as [Hn Hv]. apply N.leb_le in Hv.
  split; [exact Hn|]. split; [|exact Hv]. unfold octal_text. rewrite Hn.
  destruct (N.leb_spec 8 (dec_value c)); [lia|]. apply andb_false_r.
Qed.

Lemma lex_args_tokens args ts :
  Forall2 lexes_only args ts -> forall t, lex_args args = Some t -> t = ts.
Proof.
  induction 1 as [|a t0 args ts Ha _ IH]; cbn [lex_args]; intros t Ht; [inversion Ht; reflexivity|].
  destruct Ha as [E|E]; rewrite E in Ht; [discriminate|].
  destruct (lex_args args) as [t'|]; [|discriminate]. inversion Ht. rewrite (IH t' eq_refl). reflexivity.
Qed.

Lemma front_line_tokens op args ts x :
  Forall2 lexes_only args ts -> front_line (L op args) = Some x -> exists a, fill ts = Some a /\ x = (op, a).
Proof.
  intros Hts. unfold front_line. cbn [l_op l_args]. destruct (opword_ok op); [|discriminate].
  destruct (lex_args args) as [t|] eqn:Et; [|discriminate]. rewrite (lex_args_tokens _ _ Hts t Et).
  destruct (fill ts) as [a|]; [|discriminate]. intros H. inversion H. exists a. auto.
Qed.

(* one number, after the first symbol slot and before the last two: the only record `fill` can answer *)
Lemma fill_size t o b r se ar :
  take_sym t = (o, TSize b :: r) -> take_sym r = (se, []) -> fill t = Some ar ->
  exists n, parse_uint0 32 b = Some n /\ ar = mkArg o (Some n) None se None.
Proof.
  intros Et Er. unfold fill. rewrite Et. cbn [take_num]. destruct (parse_uint0 32 b) as [n|]; [|discriminate].
  destruct r as [|[s|d] r']; inversion Er; intros [= <-]; eauto.
Qed.

(* one token per argument, each from a hypothesis or from the class of its text *)
Ltac tokens := repeat (apply Forall2_cons; [auto using lexes_only_node, lexes_only_num|]); apply Forall2_nil.

Definition line_ok (l : line) : Prop :=
  line_sel_is numnorm_text l = false /\ line_sel_is digitprefix_text l = false
  /\ longsym_line l = false /\ octal_line l = false.

Lemma line_ok_sel l b :
  line_ok l -> line_selector l = Some b -> numnorm_text b = false /\ digitprefix_text b = false.
Proof. unfold line_ok, line_sel_is. intros (Hnn & Hdp & _) E. rewrite E in Hnn, Hdp. auto. Qed.

Lemma line_ok_size l b : line_ok l -> line_sizes l = [b] -> octal_text b = false.
Proof.
  unfold line_ok, octal_line. intros (_ & _ & _ & H) E. rewrite E in H. cbn [existsb] in H.
  rewrite orb_false_r in H. exact H.
Qed.

(* the premise says that op is one of the words whose emitter honours no length check *)
Lemma line_ok_short op args :
  (forall r, longsym_line (L op r) = existsb (fun a => 255 <? len a) r) ->
  line_ok (L op args) -> Forall (fun a => len a <= 255) args.
Proof.
  intros E (_ & _ & H & _). rewrite E in H. apply Forall_forall. intros a Ha.
  destruct (N.ltb_spec 255 (len a)) as [Hlt|]; [|assumption].
  assert (Hex : existsb (fun a => 255 <? len a) args = true); [|congruence].
  apply existsb_exists. exists a. split; [exact Ha|apply N.ltb_lt, Hlt].
Qed.

Definition no_arg : arg := mkArg None None None None None.

Lemma asm_one_none op : asm_one op no_arg = Ok (opcode_bytes op).
Proof. reflexivity. Qed.

Lemma asm_one_sym op s :
  len s <= 255 -> asm_one op (mkArg (Some s) None None None None) = Ok (opcode_bytes op ++ len s :: s)%list.
Proof. intros H. unfold asm_one. cbn [a_sel a_size a_sym]. rewrite write_sym_ok by exact H. reflexivity. Qed.

Lemma asm_one_symsel op s t :
  bytes_eqb s [42] = false ->
  asm_one op (mkArg (Some s) None None (Some t) None)
  = obind (two_syms s t) (fun b => Ok (opcode_bytes op ++ b)%list).
Proof.
  intros Hs. unfold asm_one. cbn [a_sel].
  destruct (op =? op_MOUT); unfold asm_two_sym_rev, asm_two_sym; cbn [a_sel a_size a_sym deref]; [reflexivity|].
  rewrite Hs. reflexivity.
Qed.

Lemma asm_one_symsize op s n :
  (op =? op_LOAD) = false ->
  asm_one op (mkArg (Some s) (Some n) None None None)
  = obind (two_syms s (dec n)) (fun b => Ok (opcode_bytes op ++ b)%list).
Proof.
  intros Hop. unfold asm_one. cbn [a_sel a_size a_sym a_flag]. rewrite Hop.
  unfold asm_two_sym. cbn [a_size a_sym deref]. reflexivity.
Qed.

Lemma asm_one_load s n :
  asm_one op_LOAD (mkArg (Some s) (Some n) None None None) = encode_asm (ILoad s n).
Proof.
  unfold asm_one. cbn [a_sel a_size a_sym a_flag]. change (op_LOAD =? op_LOAD) with true. cbv iota.
  unfold asm_sized, encode_asm. cbn [a_sym a_size deref].
  destruct (write_sym s); cbn [obind]; [|reflexivity|reflexivity].
  destruct (write_size n); reflexivity.
Qed.

Lemma mode_byte_flag f : f <= 1 -> [w8 f] = mode_byte (f =? 1).
Proof. intros H. assert (Hf : f = 0 \/ f = 1) by lia. destruct Hf; subst f; reflexivity. Qed.

Lemma asm_one_catch s n f :
  f <= 1 -> asm_one op_CATCH (mkArg (Some s) (Some n) (Some f) None None) = encode_asm (ICatch s n (f =? 1)).
Proof.
  intros Hf. unfold asm_one. cbn [a_sel a_size a_sym a_flag].
  unfold asm_sig, encode_asm. cbn [a_sym a_size a_flag deref]. rewrite (mode_byte_flag f Hf).
  destruct (write_sym s); cbn [obind]; [|reflexivity|reflexivity].
  destruct (write_size n); reflexivity.
Qed.

Lemma asm_one_croak n f :
  f <= 1 -> asm_one op_CROAK (mkArg None (Some n) (Some f) None None) = encode_asm (ICroak n (f =? 1)).
Proof.
  intros Hf. unfold asm_one. cbn [a_sel a_size a_sym a_flag].
  unfold asm_flagged, encode_asm. cbn [a_size a_flag deref]. rewrite (mode_byte_flag f Hf).
  destruct (write_size n); reflexivity.
Qed.

Lemma wsyms_two s t : wsyms [s; t] = two_syms s t.
Proof.
  unfold wsyms, two_syms. cbn [fold_left obind]. destruct (write_sym s); cbn [obind]; [|reflexivity|reflexivity].
  destruct (write_sym t); reflexivity.
Qed.

Lemma write_sym_ok_inv s b : write_sym s = Ok b -> len s <= 255.
Proof. unfold write_sym. destruct (N.ltb_spec 255 (len s)); [discriminate|]. intros _. lia. Qed.

Lemma write_sym_bind_ok {B s} {k : list N -> res B} {r} : obind (write_sym s) k = Ok r -> len s <= 255.
Proof. destruct (write_sym s) eqn:E; try discriminate. intros _. exact (write_sym_ok_inv _ _ E). Qed.

Lemma two_syms_ok_inv {B s t} {k : list N -> res B} {r} :
  obind (two_syms s t) k = Ok r -> len s <= 255 /\ len t <= 255.
Proof.
  unfold two_syms. destruct (write_sym s) eqn:Es; cbn [obind]; try discriminate.
  destruct (write_sym t) eqn:Et; cbn [obind]; try discriminate.
  intros _. split; eapply write_sym_ok_inv; eassumption.
Qed.

Definition emits (opc : N) (a : arg) (i : instr) : Prop :=
  forall b, asm_one opc a = Ok b -> b = encode i /\ wf_instr i.

Lemma emits_via_asm opc a i :
  asm_one opc a = encode_asm i -> (forall b, encode_asm i = Ok b -> wf_instr i) -> emits opc a i.
Proof.
  intros Heq Hwf b Hb. rewrite Heq in Hb. pose proof (Hwf b Hb) as W. split; [|exact W].
  rewrite (encoders_agree_lemma i W) in Hb. inversion Hb. reflexivity.
Qed.

(* the front end hands parseOne an argument record from which it emits i *)
Definition line_emits (l : line) (x : bytes * arg) (i : instr) : Prop :=
  exists opc a, x = (l_op l, a) /\ lookup_name (l_op l) opcode_index = Some opc /\ emits opc a i.

(* The lemmas on line shapes take the opcode word as a variable; what they need to know of it are
   premises that hold by evaluation for each of the words they are used with. *)

Lemma line_none op opc i x :
  lookup_name op opcode_index = Some opc -> opcode_bytes opc = encode i -> wf_instr i ->
  front_line (L op []) = Some x -> line_emits (L op []) x i.
Proof.
  intros Hop He W Hf. apply (front_line_tokens _ _ []) in Hf as (a & Ha & ->); [|tokens].
  inversion Ha. exists opc, no_arg. split; [reflexivity|split; [exact Hop|]].
  intros b Hb. rewrite asm_one_none in Hb. inversion Hb. auto.
Qed.

Lemma line_sym op opc (mk : list N -> instr) a x :
  lookup_name op opcode_index = Some opc ->
  (forall r, longsym_line (L op r) = existsb (fun a => 255 <? len a) r) ->
  (forall s, encode_asm (mk s) = obind (write_sym s) (fun b => Ok (opcode_bytes opc ++ b)%list)) ->
  (forall s, wf_sym s -> wf_instr (mk s)) ->
  is_node_text a = true -> line_ok (L op [a]) ->
  front_line (L op [a]) = Some x -> line_emits (L op [a]) x (mk a).
Proof.
  intros Hop Hcls Henc Hwf Ha Hok Hf.
  pose proof (Forall_inv (line_ok_short _ _ Hcls Hok)) as Hl. cbv beta in Hl.
  apply (front_line_tokens _ _ [TSym a]) in Hf as (ar & Hfill & ->); [|tokens].
  inversion Hfill. exists opc, (mkArg (Some a) None None None None). split; [reflexivity|split; [exact Hop|]].
  apply emits_via_asm; [|intros _ _; apply Hwf, node_text_wf; assumption].
  rewrite asm_one_sym, Henc, write_sym_ok by exact Hl. reflexivity.
Qed.

Lemma node_not_star s : is_node_text s = true -> bytes_eqb s [42] = false.
Proof.
  intros H. destruct (bytes_eqb s [42]) eqn:E; [|reflexivity].
  apply bytes_eqb_eq in E. subst s. discriminate H.
Qed.

(* the two records a `symbol selector` line can give make parseOne write the same two symbols *)
Lemma line_sym_sel op opc (mk : list N -> list N -> instr) a b x :
  lookup_name op opcode_index = Some opc -> (opc =? op_LOAD) = false ->
  line_selector (L op [a; b]) = Some b ->
  (forall s t, encode_asm (mk s t) = obind (wsyms [s; t]) (fun r => Ok (opcode_bytes opc ++ r)%list)) ->
  (forall s t, wf_sym s -> wf_sym t -> wf_instr (mk s t)) ->
  is_node_text a = true -> is_selector_text b = true -> line_ok (L op [a; b]) ->
  front_line (L op [a; b]) = Some x -> line_emits (L op [a; b]) x (mk a b).
Proof.
  intros Hop Hnl Hsel Henc Hwf Ha Hb Hok Hf. destruct (line_ok_sel _ b Hok Hsel) as [Hnn Hdp].
  assert (Hem : forall ar, asm_one opc ar = obind (two_syms a b) (fun r => Ok (opcode_bytes opc ++ r)%list) ->
                           emits opc ar (mk a b)).
  { intros ar Hone. specialize (Henc a b). rewrite wsyms_two in Henc. apply emits_via_asm; [congruence|].
    intros r Hr. rewrite Henc in Hr. destruct (two_syms_ok_inv Hr) as [H1 H2].
    apply Hwf; [apply node_text_wf|apply sel_text_wf]; assumption. }
  destruct (sel_cases b Hb Hnn Hdp) as [Eb|[Eb Hdec]].
  - apply (front_line_tokens _ _ [TSym a; TSym b]) in Hf as (ar & Hfill & ->); [|tokens].
    inversion Hfill. eexists opc, _. split; [reflexivity|split; [exact Hop|]].
    apply Hem, asm_one_symsel, node_not_star, Ha.
  - apply (front_line_tokens _ _ [TSym a; TSize b]) in Hf as (ar & Hfill & ->); [|tokens].
    eapply fill_size in Hfill as (n & Ep & ->); [|reflexivity..].
    eexists opc, _. split; [reflexivity|split; [exact Hop|]].
    apply Hem. rewrite asm_one_symsize, (Hdec _ _ Ep) by exact Hnl. reflexivity.
Qed.

Lemma line_load a b x :
  is_sym_text a = true -> is_num_text b = true -> line_ok (L (s2b "LOAD") [a; b]) ->
  front_line (L (s2b "LOAD") [a; b]) = Some x -> line_emits (L (s2b "LOAD") [a; b]) x (ILoad a (dec_value b)).
Proof.
  intros Ha Hb Hok Hf. pose proof (line_ok_size _ b Hok eq_refl) as Hoct. apply sym_is_node in Ha.
  apply (front_line_tokens _ _ [TSym a; TSize b]) in Hf as (ar & Hfill & ->); [|tokens].
  eapply fill_size in Hfill as (n & Ep & ->); [|reflexivity..].
  destruct (parse_uint0_value 32 b n Hb Hoct Ep) as [-> Hlt].
  eexists op_LOAD, _. split; [reflexivity|split; [reflexivity|]].
  apply emits_via_asm; [apply asm_one_load|].
  intros r Hr. split; [|exact Hlt].
  apply node_text_wf; [exact Ha|exact (write_sym_bind_ok Hr)].
Qed.

Lemma fill_size_mode t o b c ar :
  take_sym t = (o, [TSize b; TSize c]) -> is_num_text b = true -> octal_text b = false -> is_mode_text c = true ->
  fill t = Some ar ->
  ar = mkArg o (Some (dec_value b)) (Some (dec_value c)) None None /\ dec_value b < 2 ^ 32 /\ dec_value c <= 1.
Proof.
  intros Et Hb Hoct Hc Hfill. destruct (mode_is_num c Hc) as [Hcn [Hco Hcv]].
  unfold fill in Hfill. rewrite Et in Hfill. cbn [take_sym take_num] in Hfill.
  destruct (parse_uint0 32 b) as [n|] eqn:Ep; [|discriminate].
  cbn [take_sym take_num] in Hfill. destruct (parse_uint0 8 c) as [f|] eqn:Eq; [|discriminate].
  inversion Hfill. destruct (parse_uint0_value 32 b n Hb Hoct Ep) as [-> Hlt].
  destruct (parse_uint0_value 8 c f Hcn Hco Eq) as [-> _]. auto.
Qed.

Lemma line_croak b c x :
  is_num_text b = true -> is_mode_text c = true -> line_ok (L (s2b "CROAK") [b; c]) ->
  front_line (L (s2b "CROAK") [b; c]) = Some x ->
  line_emits (L (s2b "CROAK") [b; c]) x (ICroak (dec_value b) (dec_value c =? 1)).
Proof.
  intros Hb Hc Hok Hf. pose proof (line_ok_size _ b Hok eq_refl) as Hoct.
  pose proof (proj1 (mode_is_num c Hc)) as Hcn.
  apply (front_line_tokens _ _ [TSize b; TSize c]) in Hf as (ar & Hfill & ->); [|tokens].
  apply (fill_size_mode _ None b c) in Hfill as (-> & Hlt & Hcv); [|reflexivity|assumption..].
  eexists op_CROAK, _. split; [reflexivity|split; [reflexivity|]].
  apply emits_via_asm; [apply asm_one_croak, Hcv|intros _ _; exact Hlt].
Qed.

Lemma line_catch a b c x :
  is_node_text a = true -> is_num_text b = true -> is_mode_text c = true -> line_ok (L (s2b "CATCH") [a; b; c]) ->
  front_line (L (s2b "CATCH") [a; b; c]) = Some x ->
  line_emits (L (s2b "CATCH") [a; b; c]) x (ICatch a (dec_value b) (dec_value c =? 1)).
Proof.
  intros Ha Hb Hc Hok Hf. pose proof (line_ok_size _ b Hok eq_refl) as Hoct.
  pose proof (proj1 (mode_is_num c Hc)) as Hcn.
  apply (front_line_tokens _ _ [TSym a; TSize b; TSize c]) in Hf as (ar & Hfill & ->); [|tokens].
  apply (fill_size_mode _ (Some a) b c) in Hfill as (-> & Hlt & Hcv); [|reflexivity|assumption..].
  eexists op_CATCH, _. split; [reflexivity|split; [reflexivity|]].
  apply emits_via_asm; [apply asm_one_catch, Hcv|].
  intros r Hr. split; [|exact Hlt].
  apply node_text_wf; [exact Ha|exact (write_sym_bind_ok Hr)].
Qed.

(* plain_instr read as a relation: the twelve documented line forms *)
Inductive plain_spec : line -> instr -> Prop :=
| PS_halt : plain_spec (L (s2b "HALT") []) IHalt
| PS_msink : plain_spec (L (s2b "MSINK") []) IMSink
| PS_move a : is_node_text a = true -> plain_spec (L (s2b "MOVE") [a]) (IMove a)
| PS_map a : is_sym_text a = true -> plain_spec (L (s2b "MAP") [a]) (IMap a)
| PS_reload a : is_sym_text a = true -> plain_spec (L (s2b "RELOAD") [a]) (IReload a)
| PS_croak a b : is_num_text a = true -> is_mode_text b = true ->
    plain_spec (L (s2b "CROAK") [a; b]) (ICroak (dec_value a) (dec_value b =? 1))
| PS_load a b : is_sym_text a = true -> is_num_text b = true ->
    plain_spec (L (s2b "LOAD") [a; b]) (ILoad a (dec_value b))
| PS_incmp a b : is_node_text a = true -> is_selector_text b = true ->
    plain_spec (L (s2b "INCMP") [a; b]) (IInCmp a b)
| PS_mout a b : is_sym_text a = true -> is_selector_text b = true ->
    plain_spec (L (s2b "MOUT") [a; b]) (IMOut a b)
| PS_mnext a b : is_sym_text a = true -> is_selector_text b = true ->
    plain_spec (L (s2b "MNEXT") [a; b]) (IMNext a b)
| PS_mprev a b : is_sym_text a = true -> is_selector_text b = true ->
    plain_spec (L (s2b "MPREV") [a; b]) (IMPrev a b)
| PS_catch a b c : is_node_text a = true -> is_num_text b = true -> is_mode_text c = true ->
    plain_spec (L (s2b "CATCH") [a; b; c]) (ICatch a (dec_value b) (dec_value c =? 1)).

(* walk down a chain of tests on the opcode word, then split the conjunction of argument tests *)
Ltac spec_table :=
  repeat match goal with
  | |- (if opis ?n ?op then _ else _) = _ -> _ =>
    let E := fresh "E" in destruct (opis n op) eqn:E; [apply bytes_eqb_eq in E; subst op|clear E]
  end;
  try match goal with
  | |- (if ?c then _ else _) = _ -> _ => let E := fresh "E" in destruct c eqn:E; [|discriminate]
  end;
  (let H := fresh "H" in intros H; inversion H; subst; clear H);
  repeat match goal with H : _ && _ = true |- _ => apply andb_true_iff in H as [H ?] end.

Lemma plain_instr_spec l i : plain_instr l = Some i -> plain_spec l i.
Proof.
  destruct l as [op args]. unfold plain_instr. cbn [l_op l_args].
  destruct args as [|a [|b [|c [|d args]]]]; try discriminate; spec_table; constructor; assumption.
Qed.

Lemma plain_line_correct l i x :
  plain_instr l = Some i -> line_ok l -> front_line l = Some x -> line_emits l x i.
Proof.
  intros Hp Hok Hf. apply plain_instr_spec in Hp. destruct Hp.
  (* in each call the premises come in the lemma's order: what is asked of the word holds by evaluation
     (reflexivity); well-formedness, since wf_instr of these instructions is wf_sym of their symbols;
     the text classes, a symbol being a node (sym_is_node); line_ok and the front end's answer *)
  - apply (line_none _ op_HALT); [reflexivity|reflexivity|exact I|assumption].
  - apply (line_none _ op_MSINK); [reflexivity|reflexivity|exact I|assumption].
  - apply (line_sym _ op_MOVE IMove); [reflexivity|reflexivity|reflexivity|exact (fun s W => W)|assumption..].
  - apply (line_sym _ op_MAP IMap);
      [reflexivity|reflexivity|reflexivity|exact (fun s W => W)|apply sym_is_node; assumption|assumption..].
  - apply (line_sym _ op_RELOAD IReload);
      [reflexivity|reflexivity|reflexivity|exact (fun s W => W)|apply sym_is_node; assumption|assumption..].
  - apply line_croak; assumption.
  - apply line_load; assumption.
  - apply (line_sym_sel _ op_INCMP IInCmp);
      [reflexivity|reflexivity|reflexivity|reflexivity|exact (fun s t Ws Wt => conj Ws Wt)|assumption..].
  - apply (line_sym_sel _ op_MOUT IMOut);
      [reflexivity|reflexivity|reflexivity|reflexivity|exact (fun s t Ws Wt => conj Ws Wt)|apply sym_is_node; assumption|assumption..].
  - apply (line_sym_sel _ op_MNEXT IMNext);
      [reflexivity|reflexivity|reflexivity|reflexivity|exact (fun s t Ws Wt => conj Ws Wt)|apply sym_is_node; assumption|assumption..].
  - apply (line_sym_sel _ op_MPREV IMPrev);
      [reflexivity|reflexivity|reflexivity|reflexivity|exact (fun s t Ws Wt => conj Ws Wt)|apply sym_is_node; assumption|assumption..].
  - apply line_catch; assumption.
Qed.

Lemma menu_proc_add_ok items code choice display target bc :
  lookup_name code batch_codes = Some bc -> (bc =? 0) = false ->
  ((0 <? len target) && negb (bc =? batch_DOWN)) = false ->
  menu_proc_add items code choice display target = Ok (items ++ [mkItem bc choice display target])%list.
Proof. intros H1 H2 H3. unfold menu_proc_add. rewrite H1, H2, H3. reflexivity. Qed.

Definition adds (code : list N) (a : arg) (p q : instr) : Prop :=
  forall bt bt', menu_add bt code a = Ok bt' ->
  exists it, bt' = mkB (b_items bt ++ [it]) true /\ item_pre it = encode p /\ item_post it = encode q.

Lemma adds_item code a bc choice display target p q :
  (forall bt, menu_add bt code a
     = obind (menu_proc_add (b_items bt) code choice display target) (fun its => Ok (mkB its true))) ->
  lookup_name code batch_codes = Some bc -> (bc =? 0) = false ->
  ((0 <? len target) && negb (bc =? batch_DOWN)) = false ->
  item_pre (mkItem bc choice display target) = encode p ->
  item_post (mkItem bc choice display target) = encode q ->
  adds code a p q.
Proof.
  intros Hma Hl Hz Ht Hpre Hpost bt bt' H. rewrite Hma in H.
  rewrite (menu_proc_add_ok _ _ _ _ _ bc Hl Hz Ht) in H. cbn [obind] in H. inversion H.
  eexists. split; [reflexivity|]. split; assumption.
Qed.

Definition line_adds (l : line) (x : bytes * arg) (p q : instr) : Prop :=
  exists a, x = (l_op l, a) /\ lookup_name (l_op l) opcode_index = None
    /\ wf_instr p /\ wf_instr q /\ adds (l_op l) a p q.

(* UP NEXT PREVIOUS, the word a variable as for the plain lines *)
Lemma line_sel_sym op bc s lab x (p q : instr) :
  lookup_name op opcode_index = None -> lookup_name op batch_codes = Some bc -> (bc =? 0) = false ->
  line_selector (L op [s; lab]) = Some s ->
  (forall r, longsym_line (L op r) = existsb (fun a => 255 <? len a) r) ->
  item_pre (mkItem bc s lab []) = encode p -> item_post (mkItem bc s lab []) = encode q ->
  (wf_sym s -> wf_sym lab -> wf_instr p /\ wf_instr q) ->
  is_selector_text s = true -> is_sym_text lab = true -> line_ok (L op [s; lab]) ->
  front_line (L op [s; lab]) = Some x -> line_adds (L op [s; lab]) x p q.
Proof.
  intros Hop Hl Hz Hsel Hcls Hpre Hpost Hwf Hs Hlab Hok Hf. destruct (line_ok_sel _ s Hok Hsel) as [Hnn Hdp].
  pose proof (line_ok_short _ _ Hcls Hok) as Hlen. inversion Hlen as [|? ? H1 Hlen']; subst.
  apply Forall_inv in Hlen'. apply sym_is_node in Hlab.
  destruct (Hwf (sel_text_wf s Hs H1) (node_text_wf lab Hlab Hlen')) as [Wp Wq].
  destruct (sel_cases s Hs Hnn Hdp) as [Es|[Es Hdec]].
  - apply (front_line_tokens _ _ [TSym s; TSym lab]) in Hf as (ar & Hfill & ->); [|tokens].
    inversion Hfill. eexists. repeat (split; [eassumption || reflexivity|]).
    apply (adds_item _ _ bc s lab []); auto.
  - apply (front_line_tokens _ _ [TSize s; TSym lab]) in Hf as (ar & Hfill & ->); [|tokens].
    eapply fill_size in Hfill as (n & Ep & ->); [|reflexivity..].
    eexists. repeat (split; [eassumption || reflexivity|]).
    apply (adds_item _ _ bc s lab []); auto. intros bt.
    unfold menu_add. cbn [a_desc a_size a_sel a_sym deref obind]. rewrite (Hdec _ _ Ep). reflexivity.
Qed.

Lemma line_down a s lab x :
  is_sym_text a = true -> is_selector_text s = true -> is_sym_text lab = true ->
  line_ok (L (s2b "DOWN") [a; s; lab]) -> front_line (L (s2b "DOWN") [a; s; lab]) = Some x ->
  line_adds (L (s2b "DOWN") [a; s; lab]) x (IMOut lab s) (IInCmp a s).
Proof.
  intros Ha Hs Hlab Hok Hf. destruct (line_ok_sel _ s Hok eq_refl) as [Hnn Hdp].
  pose proof (line_ok_short (s2b "DOWN") _ (fun _ => eq_refl) Hok) as Hlen.
  inversion Hlen as [|? ? H1 Hlen']; subst. inversion Hlen' as [|? ? H2 Hlen'']; subst. apply Forall_inv in Hlen''.
  apply sym_is_node in Ha, Hlab.
  assert (Wp : wf_instr (IMOut lab s)) by (split; [apply node_text_wf|apply sel_text_wf]; assumption).
  assert (Wq : wf_instr (IInCmp a s)) by (split; [apply node_text_wf|apply sel_text_wf]; assumption).
  destruct (sel_cases s Hs Hnn Hdp) as [Es|[Es Hdec]].
  - apply (front_line_tokens _ _ [TSym a; TSym s; TSym lab]) in Hf as (ar & Hfill & ->); [|tokens].
    inversion Hfill. eexists. repeat (split; [assumption || reflexivity|]).
    apply (adds_item _ _ batch_DOWN s lab a); try reflexivity. apply andb_false_r.
  - apply (front_line_tokens _ _ [TSym a; TSize s; TSym lab]) in Hf as (ar & Hfill & ->); [|tokens].
    eapply fill_size in Hfill as (n & Ep & ->); [|reflexivity..].
    eexists. repeat (split; [assumption || reflexivity|]).
    apply (adds_item _ _ batch_DOWN s lab a); try reflexivity; [|apply andb_false_r]. intros bt.
    unfold menu_add. cbn [a_desc a_size a_sel a_sym deref obind]. rewrite (Hdec _ _ Ep). reflexivity.
Qed.

(* batch_instrs read as a relation: the four batch words *)
Inductive batch_spec : line -> instr -> instr -> Prop :=
| BS_up s lab : is_selector_text s = true -> is_sym_text lab = true ->
    batch_spec (L (s2b "UP") [s; lab]) (IMOut lab s) (IInCmp [95] s)
| BS_next s lab : is_selector_text s = true -> is_sym_text lab = true ->
    batch_spec (L (s2b "NEXT") [s; lab]) (IMNext lab s) (IInCmp [62] s)
| BS_previous s lab : is_selector_text s = true -> is_sym_text lab = true ->
    batch_spec (L (s2b "PREVIOUS") [s; lab]) (IMPrev lab s) (IInCmp [60] s)
| BS_down a s lab : is_sym_text a = true -> is_selector_text s = true -> is_sym_text lab = true ->
    batch_spec (L (s2b "DOWN") [a; s; lab]) (IMOut lab s) (IInCmp a s).

Lemma batch_instrs_spec l p q : batch_instrs l = Some (p, q) -> batch_spec l p q.
Proof.
  destruct l as [op args]. unfold batch_instrs. cbn [l_op l_args].
  destruct args as [|s [|lab [|c [|d args]]]]; try discriminate.
  - destruct (is_selector_text s && is_sym_text lab) eqn:E; [|discriminate]. spec_table; constructor; assumption.
  - destruct (opis "DOWN" op) eqn:E; [apply bytes_eqb_eq in E; subst op|discriminate].
    spec_table; constructor; assumption.
Qed.

Lemma batch_line_correct l p q x :
  batch_instrs l = Some (p, q) -> line_ok l -> front_line l = Some x -> line_adds l x p q.
Proof.
  intros Hp Hok Hf. apply batch_instrs_spec in Hp. destruct Hp.
  (* the seven premises on the word hold by evaluation, the last four are hypotheses; the eighth says that the
     two instructions of the item are well-formed: label and selector, then the one-character node and the selector *)
  - apply (line_sel_sym _ batch_UP); try reflexivity; try assumption.
    intros Ws Wl. split; split; [exact Wl|exact Ws|exact (wf_sym_one 95 eq_refl)|exact Ws].
  - apply (line_sel_sym _ batch_NEXT); try reflexivity; try assumption.
    intros Ws Wl. split; split; [exact Wl|exact Ws|exact (wf_sym_one 62 eq_refl)|exact Ws].
  - apply (line_sel_sym _ batch_PREVIOUS); try reflexivity; try assumption.
    intros Ws Wl. split; split; [exact Wl|exact Ws|exact (wf_sym_one 60 eq_refl)|exact Ws].
  - apply line_down; assumption.
Qed.

Lemma front_cons l r ls :
  front (l :: r) = Some ls -> exists x xs, front_line l = Some x /\ front r = Some xs /\ ls = x :: xs.
Proof.
  cbn [front]. destruct (front_line l) as [x|]; [|discriminate]. destruct (front r) as [xs|]; [|discriminate].
  intros H. inversion H. exists x, xs. auto.
Qed.

Lemma asm_loop_batch : forall src pre post ls bt bs,
  batch_all src = Some (pre, post) -> Forall line_ok src -> front src = Some ls ->
  asm_loop ls bt = (bs, Ok tt) -> (src <> [] \/ b_in bt = true) ->
  exists its, bs = to_lines (b_items bt ++ its)
    /\ map item_pre its = map encode pre /\ map item_post its = map encode post
    /\ Forall wf_instr pre /\ Forall wf_instr post.
Proof.
  induction src as [|l r IH]; intros pre post ls bt bs Hb Hok Hfr Hloop Hin.
  - cbn in Hb. inversion Hb; subst pre post. cbn in Hfr. inversion Hfr; subst ls.
    destruct Hin as [Hin|Hin]; [congruence|].
    cbn [asm_loop] in Hloop. unfold menu_exit in Hloop. rewrite Hin in Hloop. cbn [fst] in Hloop.
    inversion Hloop. exists []. rewrite app_nil_r. repeat split; constructor.
  - cbn [batch_all] in Hb. destruct (batch_instrs l) as [[p q]|] eqn:El; [|discriminate].
    destruct (batch_all r) as [[ps qs]|] eqn:Er; [|discriminate]. inversion Hb; subst pre post.
    destruct (front_cons _ _ _ Hfr) as [x [xs [Hx [Hxs ->]]]].
    inversion Hok as [|? ? Hl Hr]; subst.
    destruct (batch_line_correct l p q x El Hl Hx) as [a [-> [Hlook [Wp [Wq Hadd]]]]].
    cbn [asm_loop] in Hloop. rewrite Hlook in Hloop.
    destruct (menu_add bt (l_op l) a) as [bt'|e|s] eqn:Ea; [|inversion Hloop|inversion Hloop].
    destruct (Hadd bt bt' Ea) as [it [-> [Hpre Hpost]]].
    destruct (IH ps qs xs _ bs eq_refl Hr Hxs Hloop (or_intror eq_refl)) as [its [Hbs [Hp' [Hq' [Wps Wqs]]]]].
    exists (it :: its). cbn [b_items] in Hbs. rewrite <- app_assoc in Hbs. cbn [app] in Hbs.
    split; [exact Hbs|]. cbn [map]. rewrite Hpre, Hpost, Hp', Hq'.
    repeat split; try reflexivity; constructor; assumption.
Qed.

Lemma encode_prog_app p q : encode_prog (p ++ q) = (encode_prog p ++ encode_prog q)%list.
Proof. unfold encode_prog. rewrite map_app, concat_app. reflexivity. Qed.

Lemma asm_loop_plain : forall src p ls bs,
  expand_opt src = Some p -> Forall line_ok src -> front src = Some ls ->
  asm_loop ls (mkB [] false) = (bs, Ok tt) ->
  bs = encode_prog p /\ Forall wf_instr p.
Proof.
  induction src as [|l r IH]; intros p ls bs He Hok Hfr Hloop.
  - cbn in He, Hfr. inversion He; inversion Hfr; subst. cbn in Hloop. inversion Hloop.
    split; [reflexivity|constructor].
  - cbn [expand_opt] in He. destruct (plain_instr l) as [i|] eqn:Ep.
    + destruct (expand_opt r) as [p'|] eqn:Er; cbn [option_map] in He; [|discriminate].
      inversion He; subst p.
      destruct (front_cons _ _ _ Hfr) as [x [xs [Hx [Hxs ->]]]].
      inversion Hok as [|? ? Hl Hr]; subst.
      destruct (plain_line_correct l i x Ep Hl Hx) as [opc [a [-> [Hlook Hem]]]].
      cbn [asm_loop] in Hloop. rewrite Hlook in Hloop.
      change (menu_exit (mkB [] false)) with (@nil N, mkB [] false) in Hloop. cbv iota in Hloop.
      destruct (asm_one opc a) as [b|e|s] eqn:Eo; [|inversion Hloop|inversion Hloop].
      destruct (asm_loop xs (mkB [] false)) as [o st] eqn:Eloop. inversion Hloop; subst bs st.
      destruct (Hem b Eo) as [-> Wi].
      destruct (IH p' xs o eq_refl Hr Hxs Eloop) as [-> Wp].
      split; [reflexivity|constructor; assumption].
    + destruct (batch_all (l :: r)) as [[pre post]|] eqn:Eb; [|discriminate]. inversion He; subst p.
      destruct (asm_loop_batch (l :: r) pre post ls (mkB [] false) bs Eb Hok Hfr Hloop)
        as [its [Hbs [Hpre [Hpost [Wpre Wpost]]]]]; [left; discriminate|].
      cbn [b_items app] in Hbs. unfold to_lines in Hbs. rewrite Hpre, Hpost in Hbs.
      split.
      * rewrite Hbs. rewrite encode_prog_app. reflexivity.
      * apply Forall_app. split; [exact Wpre|constructor; [exact I|exact Wpost]].
Qed.

Lemma guards_Forall src :
  lossless_selectors src = true -> short_syms src = true -> decimal_sizes src = true -> Forall line_ok src.
Proof.
  unfold lossless_selectors, short_syms, decimal_sizes, in_K_numnorm, in_K_digitprefix, in_K_longsym, in_K_octal.
  intros H1 H2 H3. apply andb_true_iff in H1 as [H1 H1'].
  apply negb_true_iff in H1, H1', H2, H3.
  induction src as [|l r IH]; [constructor|].
  cbn [existsb] in *. apply orb_false_iff in H1 as [? ?], H1' as [? ?], H2 as [? ?], H3 as [? ?].
  constructor; [unfold line_ok; auto|apply IH; assumption].
Qed.

Lemma asm_ok_run src bs : asm src = Ok bs -> asm_run src = (bs, Ok tt).
Proof.
  unfold asm. destruct (asm_run src) as [b [u|e|s]]; try discriminate. destruct u. intros H. inversion H. reflexivity.
Qed.

Lemma expand_nonempty src p : src <> [] -> expand_opt src = Some p -> p <> [].
Proof.
  destruct src as [|l r]; [congruence|]. intros _. cbn [expand_opt].
  destruct (plain_instr l).
  - destruct (expand_opt r); cbn [option_map]; intros H; inversion H; discriminate.
  - destruct (batch_all (l :: r)) as [[pre post]|]; intros H; inversion H. destruct pre; discriminate.
Qed.

Theorem asm_emits_expansion_lemma src bs :
  valid_src src -> lossless_selectors src = true -> short_syms src = true -> decimal_sizes src = true ->
  asm src = Ok bs ->
  bs = encode_prog (expand src) /\ Forall wf_instr (expand src) /\ expand src <> [].
Proof.
  unfold valid_src, valid_srcb, expand. intros Hv H1 H2 H3 Ha.
  assert (Hne : src <> []) by (destruct src; [discriminate|discriminate]).
  destruct (expand_opt src) as [p|] eqn:Ee; [|destruct src; discriminate].
  apply asm_ok_run in Ha. unfold asm_run in Ha.
  destruct (front src) as [ls|] eqn:Ef; [|inversion Ha].
  destruct (asm_loop_plain src p ls bs Ee (guards_Forall src H1 H2 H3) Ef Ha) as [Hbs Hwf].
  split; [exact Hbs|]. split; [exact Hwf|]. eapply expand_nonempty; eassumption.
Qed.

Theorem asm_fidelity_partial_lemma src bs :
  valid_src src -> lossless_selectors src = true -> short_syms src = true -> decimal_sizes src = true ->
  asm src = Ok bs -> parse_all bs = Ok (expand src).
Proof.
  intros Hv H1 H2 H3 Ha.
  destruct (asm_emits_expansion_lemma src bs Hv H1 H2 H3 Ha) as [-> [Hwf Hne]].
  apply prog_roundtrip_lemma; assumption.
Qed.

Lemma batch_not_plain l pq : batch_instrs l = Some pq -> plain_instr l = None /\ octal_line l = false.
Proof. destruct pq as [p q]. intros H. apply batch_instrs_spec in H. destruct H; split; reflexivity. Qed.

Lemma batch_all_decimal ls pq : batch_all ls = Some pq -> in_K_octal ls = false.
Proof.
  revert pq. induction ls as [|l r IH]; intros pq Hb; [reflexivity|].
  cbn [batch_all] in Hb. destruct (batch_instrs l) as [[p q]|] eqn:El; [|discriminate].
  destruct (batch_all r) as [[ps qs]|]; [|discriminate].
  unfold in_K_octal in *. cbn [existsb]. rewrite (proj2 (batch_not_plain _ _ El)), (IH _ eq_refl). reflexivity.
Qed.

(* a block of documented batch lines (any combination, any number) assembles to its MOUT/MNEXT/
   MPREV lines in order, one HALT, its INCMP lines in order *)
Theorem batch_expansion_lemma ls pre post bs :
  ls <> [] -> batch_all ls = Some (pre, post) ->
  lossless_selectors ls = true -> short_syms ls = true ->
  asm ls = Ok bs ->
  bs = encode_prog (pre ++ IHalt :: post) /\ parse_all bs = Ok (pre ++ IHalt :: post)%list.
Proof.
  intros Hne Hb H1 H2 Ha.
  assert (H3 : decimal_sizes ls = true) by (unfold decimal_sizes; rewrite (batch_all_decimal _ _ Hb); reflexivity).
  assert (Hexp : expand_opt ls = Some (pre ++ IHalt :: post)%list).
  { destruct ls as [|l r]; [congruence|]. cbn [expand_opt]. pose proof Hb as Hl. cbn [batch_all] in Hl.
    destruct (batch_instrs l) as [pq|] eqn:El; [|discriminate].
    rewrite (proj1 (batch_not_plain _ _ El)), Hb. reflexivity. }
  assert (Hv : valid_src ls).
  { unfold valid_src, valid_srcb. rewrite Hexp. destruct ls; [congruence|reflexivity]. }
  pose proof (asm_emits_expansion_lemma ls bs Hv H1 H2 H3 Ha) as [Hbs [Hwf Hn]].
  unfold expand in *. rewrite Hexp in *. split; [exact Hbs|].
  rewrite Hbs. apply prog_roundtrip_lemma; assumption.
Qed.

Local Open Scope string_scope.
Definition LS (op : string) (args : list string) : line := L (s2b op) (map s2b args).

(* the batcher is never reset: a second block of batch lines repeats the first.  Such a source is
   not valid (batch lines must end the source), so this is recorded, not a C16 finding. *)
Lemma second_block_repeats_first :
  asm [LS "UP" ["1"; "a"]; LS "HALT" []; LS "UP" ["2"; "b"]]
  = Ok (encode_prog [IMOut (s2b "a") (s2b "1"); IHalt; IInCmp [95]%N (s2b "1"); IHalt;
                     IMOut (s2b "a") (s2b "1"); IMOut (s2b "b") (s2b "2"); IHalt;
                     IInCmp [95]%N (s2b "1"); IInCmp [95]%N (s2b "2")]).
Proof. reflexivity. Qed.

(* the five rows of the "Batch menu expansion" table of instructions.texi *)
Lemma texi_batch_table :
  asm [LS "DOWN" ["foo"; "0"; "to_foo"]]
    = Ok (encode_prog [IMOut (s2b "to_foo") (s2b "0"); IHalt; IInCmp (s2b "foo") (s2b "0")])
  /\ asm [LS "UP" ["1"; "back"]]
    = Ok (encode_prog [IMOut (s2b "back") (s2b "1"); IHalt; IInCmp (s2b "_") (s2b "1")])
  /\ asm [LS "NEXT" ["2"; "fwd"]]
    = Ok (encode_prog [IMNext (s2b "fwd") (s2b "2"); IHalt; IInCmp (s2b ">") (s2b "2")])
  /\ asm [LS "PREVIOUS" ["3"; "back"]]
    = Ok (encode_prog [IMPrev (s2b "back") (s2b "3"); IHalt; IInCmp (s2b "<") (s2b "3")])
  /\ asm [LS "DOWN" ["foo"; "0"; "to_foo"]; LS "UP" ["1"; "back"]]
    = Ok (encode_prog [IMOut (s2b "to_foo") (s2b "0"); IMOut (s2b "back") (s2b "1"); IHalt;
                       IInCmp (s2b "foo") (s2b "0"); IInCmp (s2b "_") (s2b "1")]).
Proof. repeat split. Qed.
