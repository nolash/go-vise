(* Lemmas for the flag preprocessor of the assembler command (C16):
   preprocessing a source of documented form yields the source with the flag names replaced by
   the numbers of the table, or is refused; composition with AsmProofs. *)
From Vise Require Import Bytes Errors Consts Codec BytesProofs CodecProofs AsmModel AsmProofs AsmPreModel.
Local Open Scope N_scope.

Lemma pp_lex_fuel_nil f : pp_lex_fuel f [] = Some [].
Proof. destruct f; reflexivity. Qed.

Lemma pp_lex_upper c r : is_upper c = true -> pp_lex (c :: r) = None.
Proof. intros H. unfold pp_lex. cbn [List.length pp_lex_fuel]. rewrite H. reflexivity. Qed.

Lemma pp_lex_sym_word c r :
  is_upper c = false -> is_digit c = false -> is_sym_start c = true -> forallb is_word r = true ->
  pp_lex (c :: r) = Some [c :: r].
Proof.
  intros Hu Hd Hs Hr. unfold pp_lex. cbn [List.length pp_lex_fuel].
  rewrite Hu, Hd, Hs, span_all, pp_lex_fuel_nil by exact Hr. reflexivity.
Qed.

Definition arg_single (a : list N) : Prop := pp_lex a = None \/ pp_lex a = Some [a].

Lemma single_shaped a : sym_shaped a -> arg_single a.
Proof.
  intros (c & r & -> & Hd & Hs & Hr).
  destruct (is_upper c) eqn:Hu; [left; apply pp_lex_upper, Hu|right; apply pp_lex_sym_word; assumption].
Qed.

Lemma single_node a : is_node_text a = true -> arg_single a.
Proof. intros H. apply single_shaped, node_text_shaped, H. Qed.

Lemma pp_lex_numfirst c r :
  is_digit c = true -> forallb is_alnum r = true -> pp_lex (c :: r) = Some [c :: r].
Proof.
  intros Hd Hr. unfold pp_lex. cbn [List.length pp_lex_fuel].
  rewrite (digit_not_upper c Hd), Hd, span_all, pp_lex_fuel_nil by exact Hr. reflexivity.
Qed.

Lemma digit_alnum x : is_digit x = true -> is_alnum x = true.
Proof. unfold is_alnum. intros ->. apply orb_true_r. Qed.

Lemma single_num a : is_num_text a = true -> arg_single a.
Proof.
  intros H. destruct (num_text_cons a H) as [c [r [-> [Hc Hr]]]]. right.
  apply pp_lex_numfirst; [exact Hc|]. eapply forallb_impl; [exact digit_alnum|exact Hr].
Qed.

Lemma single_mode a : is_mode_text a = true -> arg_single a.
Proof. intros H. apply single_num, (mode_is_num a H). Qed.

(* also for a selector that starts with a digit (1a, 00) and so is not sym_shaped: rule NumFirst takes it whole *)
Lemma single_sel a : is_selector_text a = true -> arg_single a.
Proof.
  intros H. destruct (starts_with is_digit a) eqn:Hd; [|apply single_shaped, sel_text_shaped; assumption].
  destruct (sel_text_cases a H) as [->|(c & r & -> & Hal)]; [discriminate Hd|].
  cbn [forallb] in Hal. apply andb_true_iff in Hal as [_ Hr]. right. apply pp_lex_numfirst; assumption.
Qed.

Lemma pp_lex_args_single args t :
  Forall arg_single args -> pp_lex_args args = Some t -> t = args.
Proof.
  intros H. revert t. induction H as [|a r Ha Hr IH]; intros t Ht; cbn [pp_lex_args] in Ht.
  - inversion Ht. reflexivity.
  - destruct Ha as [E|E]; rewrite E in Ht; [discriminate|].
    destruct (pp_lex_args r) as [t'|]; [|discriminate]. inversion Ht. rewrite (IH t' eq_refl). reflexivity.
Qed.

Lemma pp_front_line_single op args x :
  Forall arg_single args -> pp_front_line (L op args) = Some x -> x = (op, args).
Proof.
  intros H. unfold pp_front_line. cbn [l_op l_args]. destruct (opword_ok op); [|discriminate].
  destruct (pp_lex_args args) as [t|] eqn:E; [|discriminate].
  rewrite (pp_lex_args_single args t H E). destruct (3 <? len args); [discriminate|].
  intros Hx. inversion Hx. reflexivity.
Qed.

Definition line_valid (l : line) : Prop :=
  (exists i, plain_instr l = Some i) \/ (exists pq, batch_instrs l = Some pq).

Lemma valid_args_single l : line_valid l -> Forall arg_single (l_args l).
Proof.
  (* a concrete argument list in every case, each argument by the single_* lemma of its kind *)
  intros [[i H]|[[p q] H]]; [apply plain_instr_spec in H|apply batch_instrs_spec in H]; destruct H;
    repeat (apply Forall_cons; [auto using single_node, sym_is_node, single_sel, single_num, single_mode|]); apply Forall_nil.
Qed.

Lemma batch_all_valid ls pq : batch_all ls = Some pq -> Forall line_valid ls.
Proof.
  revert pq. induction ls as [|l r IH]; intros pq H; [constructor|].
  cbn [batch_all] in H. destruct (batch_instrs l) as [[p q]|] eqn:El; [|discriminate].
  destruct (batch_all r) as [[ps qs]|] eqn:Er; [|discriminate].
  constructor; [right; eexists; exact El|eapply IH; reflexivity].
Qed.

Lemma valid_lines src p : expand_opt src = Some p -> Forall line_valid src.
Proof.
  revert p. induction src as [|l r IH]; intros p H; [constructor|].
  cbn [expand_opt] in H. destruct (plain_instr l) as [i|] eqn:Ep.
  - destruct (expand_opt r) as [p'|] eqn:Er; [|discriminate].
    constructor; [left; eexists; exact Ep|eapply IH; reflexivity].
  - destruct (batch_all (l :: r)) as [pq|] eqn:Eb; [|discriminate]. eapply batch_all_valid; exact Eb.
Qed.

Lemma atoi_sym b : is_sym_text b = true -> atoi b = None.
Proof.
  destruct b as [|c r]; [discriminate|]. cbn [is_sym_text]. intros H. apply andb_true_iff in H as [Hc _].
  unfold atoi. destruct (N.eqb_spec c 43) as [->|_]; [discriminate Hc|].
  destruct (N.eqb_spec c 45) as [->|_]; [discriminate Hc|].
  cbn [forallb]. rewrite (alpha_not_digit c Hc), andb_false_r. reflexivity.
Qed.

Lemma num_not_sym b : is_num_text b = true -> is_sym_text b = false.
Proof.
  intros H. destruct (num_text_cons b H) as [c [r [-> [Hc _]]]]. cbn [is_sym_text].
  destruct (is_alpha c) eqn:Ha; [|reflexivity]. rewrite (alpha_not_digit c Ha) in Hc. discriminate Hc.
Qed.

Lemma atoi_num b : is_num_text b = true -> dec_value b < 2 ^ 63 -> atoi b = Some (false, dec_value b).
Proof.
  intros H Hlt. pose proof H as Hn. destruct (num_text_cons b H) as [c [r [-> [Hc Hr]]]].
  unfold atoi.
  destruct (N.eqb_spec c 43) as [->|_]; [discriminate Hc|].
  destruct (N.eqb_spec c 45) as [->|_]; [discriminate Hc|].
  unfold is_num_text in Hn. rewrite Hn. unfold dec_value in *.
  rewrite N.add_0_r, (proj2 (N.ltb_lt _ _) Hlt). reflexivity.
Qed.

Lemma valid_row_inv r :
  valid_row r = true ->
  exists n v tl, r = flag_word :: n :: v :: tl /\ is_sym_text n = true /\ is_num_text v = true
    /\ FLAG_USERSTART <= dec_value v /\ dec_value v < 2 ^ 32.
Proof.
  unfold valid_row. intros H.
  assert (exists f n v tl, r = f :: n :: v :: tl
            /\ bytes_eqb f flag_word && is_sym_text n && is_num_text v
               && (FLAG_USERSTART <=? dec_value v) && (dec_value v <? 2 ^ 32) = true)
    as (f & n & v & tl & -> & H')
    by (destruct r as [|f [|n [|v [|d [|e tl]]]]]; try discriminate; eauto 6).
  apply andb_true_iff in H' as [H' Hlt]. apply andb_true_iff in H' as [H' Hge].
  apply andb_true_iff in H' as [H' Hnum]. apply andb_true_iff in H' as [Hf Hn].
  apply bytes_eqb_eq in Hf. subst f. apply N.leb_le in Hge. apply N.ltb_lt in Hlt. eauto 8.
Qed.

Lemma load_rows_valid rows : forall acc,
  valid_rows rows = true -> names_are_symbols acc ->
  exists tbl, load_rows rows acc = Ok tbl /\ names_are_symbols tbl
    /\ forall k, alookup k tbl = match spec_lookup rows k with Some v => Some v | None => alookup k acc end.
Proof.
  induction rows as [|r rest IH]; intros acc Hv Hacc.
  - exists acc. cbn. auto.
  - cbn [valid_rows forallb] in Hv. apply andb_true_iff in Hv as [Hr Hrest].
    destruct (valid_row_inv r Hr) as (n & v & tl & -> & Hn & Hnum & Hge & Hlt).
    cbn [load_rows]. rewrite bytes_eqb_refl.
    rewrite (atoi_num v Hnum) by (eapply N.lt_trans; [exact Hlt|reflexivity]).
    cbn [orb]. rewrite (proj2 (N.ltb_ge _ _) Hge).
    assert (Hacc' : names_are_symbols ((n, v) :: acc)).
    { intros k w Hk. cbn [alookup] in Hk. destruct (bytes_eqb k n) eqn:E.
      - apply bytes_eqb_eq in E. subst k. exact Hn.
      - eapply Hacc. exact Hk. }
    destruct (IH ((n, v) :: acc) Hrest Hacc') as [tbl [Hl [Hs Hk]]].
    exists tbl. split; [exact Hl|]. split; [exact Hs|]. intros k. rewrite Hk.
    cbn [spec_lookup]. destruct (spec_lookup rest k); [reflexivity|].
    rewrite bytes_eqb_refl. cbn [andb alookup]. rewrite (bytes_eqb_sym n k). destruct (bytes_eqb k n); reflexivity.
Qed.

Lemma load_table_valid rows :
  valid_rows rows = true ->
  exists tbl, load_table rows = Ok tbl /\ names_are_symbols tbl
    /\ forall k, alookup k tbl = spec_lookup rows k.
Proof.
  intros Hv. destruct (load_rows_valid rows [] Hv) as [tbl [Hl [Hs Hk]]]; [intros k v H; discriminate H|].
  exists tbl. split; [exact Hl|]. split; [exact Hs|]. intros k. rewrite Hk. destruct (spec_lookup rows k); reflexivity.
Qed.

Lemma flag_pos_inv {op args b mk} :
  flag_pos (L op args) = Some (b, mk) ->
  exists pre c, args = (pre ++ [b; c])%list /\ mk = (fun v => L op (pre ++ [v; c])%list)
    /\ forall tbl v, pp_line tbl (op, pre ++ [v; c])%list
                     = obind (process_flag tbl (Some v) (Some c) pre) (fun a => Ok (L op a)).
Proof.
  unfold flag_pos. cbn [l_op l_args]. destruct args as [|a0 [|a1 [|a2 [|a3 args]]]]; try discriminate.
  - destruct (opis "CROAK" op) eqn:E; [|discriminate]. apply bytes_eqb_eq in E. subst op.
    intros H. inversion H. exists [], a1. repeat split.
  - destruct (opis "CATCH" op) eqn:E; [|discriminate]. apply bytes_eqb_eq in E. subst op.
    intros H. inversion H. exists [a0], a2. repeat split.
Qed.

Lemma pp_line_noflag tbl l : line_valid l -> flag_pos l = None -> pp_line tbl (l_op l, l_args l) = Ok l.
Proof.
  intros [[i H]|[[p q] H]] Hfp; [apply plain_instr_spec in H|apply batch_instrs_spec in H]; destruct H;
    try discriminate Hfp; reflexivity.
Qed.

(* the flag table as the lookup function resolve takes *)
Definition tlook (tbl : list (list N * list N)) : list N -> option (list N) := fun k => alookup k tbl.

Lemma process_flag_spec tbl b c s :
  names_are_symbols tbl ->
  is_num_text b = true \/ is_sym_text b = true ->
  (exists e, process_flag tbl (Some b) (Some c) s = Err e)
  \/ (is_num_text b = true /\ process_flag tbl (Some b) (Some c) s = Ok (s ++ [b; c])%list)
  \/ (exists v, is_num_text b = false /\ alookup b tbl = Some v
        /\ process_flag tbl (Some b) (Some c) s = Ok (s ++ [v; c])%list).
Proof.
  intros Hn [Hb|Hb]; unfold process_flag; cbn [deref].
  - destruct (atoi b); [right; left; auto|].
    destruct (alookup b tbl) as [v|] eqn:E; [|left; eexists; reflexivity].
    pose proof (Hn b v E) as Hs. rewrite (num_not_sym b Hb) in Hs. discriminate.
  - rewrite (atoi_sym b Hb).
    assert (Hnum : is_num_text b = false).
    { destruct (is_num_text b) eqn:E; [|reflexivity]. rewrite (num_not_sym b E) in Hb. discriminate. }
    destruct (alookup b tbl) as [v|] eqn:E; [|left; eexists; reflexivity].
    right; right. exists v. auto.
Qed.

Lemma pp_line_spec tbl l ld x :
  names_are_symbols tbl ->
  resolve_line (with_default (tlook tbl)) l = Some ld -> line_valid ld ->
  pp_front_line l = Some x ->
  match pp_line tbl x with Ok l2 => resolve_line (tlook tbl) l = Some l2 | Err _ => True | Panic _ => False end.
Proof.
  intros Hn Hres Hv Hf. destruct l as [op args]. unfold resolve_line in *.
  destruct (flag_pos (L op args)) as [[b mk]|] eqn:Efp.
  - destruct (flag_pos_inv Efp) as (pre & c & -> & -> & Hpp).
    assert (Hcls : (is_num_text b = true \/ is_sym_text b = true) /\ exists v, ld = L op (pre ++ [v; c])).
    { destruct (is_num_text b) eqn:Enum.
      - inversion Hres. split; [left; reflexivity|]. exists b. reflexivity.
      - unfold with_default, tlook in Hres. destruct (alookup b tbl) as [v|] eqn:E.
        + inversion Hres. split; [right; eapply Hn; exact E|]. exists v. reflexivity.
        + destruct (is_sym_text b) eqn:Es; [|discriminate]. inversion Hres.
          split; [right; reflexivity|]. eexists. reflexivity. }
    destruct Hcls as [Hcl [v ->]].
    pose proof (valid_args_single _ Hv) as Hs. cbn [l_args] in Hs. apply Forall_app in Hs as [Hpre Hs].
    assert (Hsing : Forall arg_single (pre ++ [b; c])).
    { apply Forall_app. split; [exact Hpre|]. constructor; [|exact (Forall_inv_tail Hs)].
      destruct Hcl; [apply single_num|apply single_node, sym_is_node]; assumption. }
    rewrite (pp_front_line_single _ _ _ Hsing Hf), Hpp.
    destruct (process_flag_spec tbl b c pre Hn Hcl) as [[e He]|[[Hnum He]|[w [Hnum [Hl He]]]]];
      rewrite He; cbn [obind].
    + exact I.
    + rewrite Hnum. reflexivity.
    + rewrite Hnum. unfold tlook. rewrite Hl. reflexivity.
  - inversion Hres; subst ld.
    rewrite (pp_front_line_single _ _ _ (valid_args_single _ Hv) Hf). cbn [l_args].
    rewrite (pp_line_noflag tbl _ Hv Efp : pp_line tbl (op, args) = _). reflexivity.
Qed.

Lemma pp_lines_spec tbl : forall src srcd xs,
  names_are_symbols tbl ->
  resolve (with_default (tlook tbl)) src = Some srcd -> Forall line_valid srcd ->
  pp_front src = Some xs ->
  match pp_lines tbl xs with Ok s2 => resolve (tlook tbl) src = Some s2 | Err _ => True | Panic _ => False end.
Proof.
  induction src as [|l r IH]; intros srcd xs Hn Hres Hv Hf.
  - cbn in Hf. inversion Hf. reflexivity.
  - cbn [resolve] in Hres. destruct (resolve_line (with_default (tlook tbl)) l) as [ld|] eqn:El; [|discriminate].
    destruct (resolve (with_default (tlook tbl)) r) as [rd|] eqn:Er; [|discriminate].
    inversion Hres; subst srcd. inversion Hv as [|? ? Hvl Hvr]; subst.
    cbn [pp_front] in Hf. destruct (pp_front_line l) as [x|] eqn:Ex; [|discriminate].
    destruct (pp_front r) as [xr|] eqn:Exr; [|discriminate]. inversion Hf; subst xs.
    cbn [pp_lines resolve].
    pose proof (pp_line_spec tbl l ld x Hn El Hvl Ex) as Hl. pose proof (IH rd xr Hn eq_refl Hvr eq_refl) as Hr.
    destruct (pp_line tbl x) as [l2|e|n]; cbn [obind]; [|exact I|exact Hl].
    destruct (pp_lines tbl xr) as [s2|e|n]; cbn [obind]; [|exact I|exact Hr]. rewrite Hl, Hr. reflexivity.
Qed.

Lemma resolve_line_default look l l1 :
  resolve_line look l = Some l1 -> resolve_line (with_default look) l = Some l1.
Proof.
  unfold resolve_line, with_default. destruct (flag_pos l) as [[b mk]|]; [|auto].
  destruct (is_num_text b); [auto|]. destruct (look b); [auto|discriminate].
Qed.

Lemma resolve_default look : forall src s1,
  resolve look src = Some s1 -> resolve (with_default look) src = Some s1.
Proof.
  induction src as [|l r IH]; intros s1 H; [exact H|].
  cbn [resolve] in *. destruct (resolve_line look l) as [l1|] eqn:El; [|discriminate].
  destruct (resolve look r) as [r1|] eqn:Er; [|discriminate].
  rewrite (resolve_line_default _ _ _ El), (IH r1 eq_refl). exact H.
Qed.

Lemma resolve_ext look1 look2 : (forall k, look1 k = look2 k) -> forall src, resolve look1 src = resolve look2 src.
Proof.
  intros He. induction src as [|l r IH]; [reflexivity|]. cbn [resolve]. rewrite IH.
  assert (Hl : resolve_line look1 l = resolve_line look2 l).
  { unfold resolve_line. destruct (flag_pos l) as [[b mk]|]; [|reflexivity]. rewrite He. reflexivity. }
  rewrite Hl. reflexivity.
Qed.

Lemma with_default_ext look1 look2 : (forall k, look1 k = look2 k) -> forall k, with_default look1 k = with_default look2 k.
Proof. intros He k. unfold with_default. rewrite He. reflexivity. Qed.

Lemma valid_src_lines src : valid_src src -> Forall line_valid src.
Proof.
  unfold valid_src, valid_srcb. destruct src as [|l r]; [discriminate|].
  destruct (expand_opt (l :: r)) as [p|] eqn:E; [|discriminate]. intros _. eapply valid_lines. exact E.
Qed.

(* preprocessing a source that has the documented form once its names are replaced yields exactly
   that source *)
Theorem pp_run_fidelity_lemma tbl src src1 src2 :
  names_are_symbols tbl ->
  resolve (tlook tbl) src = Some src1 -> valid_src src1 ->
  pp_run tbl src = Ok src2 -> src2 = src1.
Proof.
  intros Hn Hres Hv Hrun. unfold pp_run in Hrun. destruct (pp_front src) as [xs|] eqn:Ef; [|discriminate].
  pose proof (pp_lines_spec tbl src src1 xs Hn (resolve_default _ _ _ Hres) (valid_src_lines _ Hv) Ef) as H.
  rewrite Hrun, Hres in H. inversion H. reflexivity.
Qed.

(* a source of documented form that uses a name the table does not define is refused: an error,
   never a panic, never a translated source *)
Theorem pp_unknown_refused_lemma tbl src srcd :
  names_are_symbols tbl ->
  resolve (tlook tbl) src = None ->
  resolve (with_default (tlook tbl)) src = Some srcd -> valid_src srcd ->
  exists e, pp_run tbl src = Err e.
Proof.
  intros Hn Hnone Hd Hv. unfold pp_run. destruct (pp_front src) as [xs|] eqn:Ef; [|eexists; reflexivity].
  pose proof (pp_lines_spec tbl src srcd xs Hn Hd (valid_src_lines _ Hv) Ef) as H.
  destruct (pp_lines tbl xs) as [s2|e|n]; [rewrite Hnone in H; discriminate H|eexists; reflexivity|destruct H].
Qed.

Lemma cmd_plain_ok src out : cmd_plain src = (out, 0) -> asm src = Ok out.
Proof.
  unfold cmd_plain, asm. destruct (asm_run src) as [w [u|e|s]]; cbn [exit_code]; intros H; inversion H; reflexivity.
Qed.

Theorem cmd_pre_fidelity_lemma rows src src1 out :
  valid_rows rows = true ->
  resolve (spec_lookup rows) src = Some src1 -> valid_src src1 ->
  lossless_selectors src1 = true -> short_syms src1 = true -> decimal_sizes src1 = true ->
  cmd_pre rows src = (out, 0) ->
  parse_all out = Ok (expand src1).
Proof.
  intros Hrows Hres Hv H1 H2 H3 Hcmd.
  destruct (load_table_valid rows Hrows) as [tbl [Hl [Hn Hk]]].
  unfold cmd_pre in Hcmd. rewrite Hl in Hcmd. rewrite <- (resolve_ext (tlook tbl) _ Hk) in Hres.
  destruct (pp_run tbl src) as [src2|e|s] eqn:Erun; [|inversion Hcmd|inversion Hcmd].
  rewrite (pp_run_fidelity_lemma tbl src src1 src2 Hn Hres Hv Erun) in Hcmd.
  apply cmd_plain_ok in Hcmd. apply asm_fidelity_partial_lemma; assumption.
Qed.

Theorem cmd_pre_unknown_refused_lemma rows src srcd :
  valid_rows rows = true ->
  resolve (spec_lookup rows) src = None ->
  resolve (with_default (spec_lookup rows)) src = Some srcd -> valid_src srcd ->
  cmd_pre rows src = ([], 1).
Proof.
  intros Hrows Hnone Hd Hv.
  destruct (load_table_valid rows Hrows) as [tbl [Hl [Hn Hk]]].
  unfold cmd_pre. rewrite Hl.
  rewrite <- (resolve_ext (tlook tbl) _ Hk) in Hnone. rewrite <- (resolve_ext _ _ (with_default_ext (tlook tbl) _ Hk)) in Hd.
  destruct (pp_unknown_refused_lemma tbl src srcd Hn Hnone Hd Hv) as [e He]. rewrite He. reflexivity.
Qed.

(* the repository's example, examples/preprocessor/pp.csv and root.vis: the table and the source of C16pre_nonvacuous *)
Local Open Scope string_scope.
Definition pp_csv : list (list (list N)) :=
  [map s2b ["flag"; "foo"; "8"];
   map s2b ["flag"; "bar"; "10"; "and this is the description of the flag 'bar'"];
   map s2b ["flag"; "baz"; "12"]].
Definition root_vis : list line :=
  [LS "CROAK" ["baz"; "1"]; LS "CATCH" ["last"; "bar"; "1"]; LS "CATCH" ["first"; "foo"; "0"];
   LS "LOAD" ["flag_schmag"; "0"]; LS "MOVE" ["mid"]].
