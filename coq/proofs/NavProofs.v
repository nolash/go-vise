(* C04, component level: vm/input.go:applyTarget (NavModel.apply_target) against
   the move table of doc/texinfo/navigation.texi (nav_spec, in model/NavSpec.v, re-exported
   here) and against the table the code implements (nav_code): apply_target_spec and what follows from it.
   Before it the three patterns of vm/input.go by what they accept, repeated Pop (pops) and Rewind; after it
   sequences of calls (nav_run). *)
From Coq Require Import Lia PeanoNat ZifyN ZifyNat ZifyBool.
From Vise Require Import Bytes Errors Consts CacheModel StateModel NavModel BytesProofs CacheProofs.
From Vise Require Export NavSpec.
Local Open Scope N_scope.

(* The patterns of vm/input.go as gen/Consts.v holds them, regenerated from /repo on every run.  NavModel's matchers
   valid_input_b, valid_ctrl_b and valid_sym_b are written by hand against these texts: when the Go source changes a
   pattern, the build stops here. *)
Lemma input_regex_pinned : input_regex_src = "^\+?[a-zA-Z0-9].*$"%string.
Proof. reflexivity. Qed.
Lemma ctrl_regex_pinned : ctrl_regex_src = "^[><_^.]$"%string.
Proof. reflexivity. Qed.
Lemma sym_regex_pinned : sym_regex_src = "^[a-zA-Z0-9][a-zA-Z0-9_]+$"%string.
Proof. reflexivity. Qed.

(* "_catch" byte by byte.  Unlike the patterns above, catch_sym is written by hand in NavModel: nothing generated from
   /repo is compared here. *)
Lemma catch_sym_val : catch_sym = [95; 99; 97; 116; 99; 104].
Proof. reflexivity. Qed.

Lemma valid_ctrl_char s :
  valid_ctrl_b s = true <-> s = t_up \/ s = t_next \/ s = t_prev \/ s = t_top \/ s = t_same.
Proof.
  unfold t_up, t_next, t_prev, t_top, t_same. split.
  - destruct s as [|c [|d r]]; cbn [valid_ctrl_b]; try discriminate. intros H.
    assert (Hc : c = 62 \/ c = 60 \/ c = 95 \/ c = 94 \/ c = 46) by lia.
    destruct Hc as [->|[->|[->|[->| ->]]]]; tauto.
  - intros [->|[->|[->|[->| ->]]]]; reflexivity.
Qed.

Lemma valid_sym_char s :
  valid_sym_b s = true <->
  s = catch_sym \/
  exists c r, s = c :: r /\ r <> [] /\ is_alnum c = true /\ Forall (fun x => is_symchar x = true) r.
Proof.
  unfold valid_sym_b. rewrite orb_true_iff, bytes_eqb_eq. split.
  - intros [H|H]; [left; exact H|right].
    destruct s as [|c [|d r]]; try discriminate. apply andb_true_iff in H. destruct H as [Hc Hr].
    exists c, (d :: r). split; [reflexivity|]. split; [discriminate|]. split; [exact Hc|].
    apply forallb_Forall. exact Hr.
  - intros [H|H]; [left; exact H|right]. destruct H as (c & r & -> & Hne & Hc & Hr).
    destruct r as [|d r]; [contradiction|]. apply andb_true_iff. split; [exact Hc|].
    apply forallb_Forall. exact Hr.
Qed.

Lemma valid_sym_len s : valid_sym_b s = true -> 2 <= len s.
Proof.
  intros H. apply valid_sym_char in H. destruct H as [->|(c & r & -> & Hne & _)].
  - vm_compute. discriminate.
  - destruct r; [contradiction|]. rewrite !len_cons. lia.
Qed.

Lemma plus_match_ite (i : bytes) :
  match i with 43 :: r => r | _ => i end =
  match i with a :: r => if a =? 43 then r else i | [] => i end.
Proof.
  destruct i as [|a r]; [reflexivity|]. destruct a as [|p]; [reflexivity|].
  (* 43 has six binary digits *)
  do 6 (try (destruct p as [p|p|]; try reflexivity)).
Qed.

Lemma alnum_not_plus c : is_alnum c = true -> (c =? 43) = false.
Proof. unfold is_alnum. lia. Qed.

Lemma nolf_Forall r : forallb (fun x => negb (x =? 10)) r = true <-> Forall (fun x => x <> 10) r.
Proof.
  rewrite forallb_Forall. split; intros H; eapply Forall_impl; try exact H; cbv beta; intros a Ha; lia.
Qed.

(* Go's `.` does not match LF *)
Lemma valid_input_char i :
  valid_input_b i = true <->
  exists c r, (i = c :: r \/ i = 43 :: c :: r) /\ is_alnum c = true /\ Forall (fun x => x <> 10) r.
Proof.
  unfold valid_input_b. rewrite plus_match_ite. split.
  - destruct i as [|a r]; [discriminate|]. destruct (N.eqb_spec a 43) as [->|_].
    + destruct r as [|c r']; [discriminate|]. rewrite andb_true_iff, nolf_Forall. exists c, r'. auto.
    + rewrite andb_true_iff, nolf_Forall. exists a, r. auto.
  - intros (c & r & [-> | ->] & Hc & Hr); [rewrite (alnum_not_plus _ Hc)|change (43 =? 43) with true; cbv iota];
      rewrite andb_true_iff, nolf_Forall; auto.
Qed.

Lemma valid_target_char t : valid_target_b t = true <-> valid_sym_b t = true \/ valid_ctrl_b t = true.
Proof.
  unfold valid_target_b. destruct t as [|c r].
  - split; [discriminate|]. intros [H|H]; [vm_compute in H|cbn in H]; discriminate.
  - apply orb_true_iff.
Qed.

Lemma sym_not_single t c : valid_sym_b t = true -> bytes_eqb t [c] = false.
Proof.
  intros H. apply valid_sym_len in H. destruct t as [|a [|b r]].
  - reflexivity.
  - rewrite !len_cons, len_nil in H. lia.
  - cbn [bytes_eqb]. apply andb_false_r.
Qed.

Lemma sym_not_ctrl t : valid_sym_b t = true -> valid_ctrl_b t = false.
Proof.
  intros H. apply valid_sym_len in H. destruct t as [|a [|b r]]; try reflexivity.
  rewrite !len_cons, len_nil in H. lia.
Qed.

Lemma target_cases t :
  valid_target_b t = false \/ t = t_up \/ t = t_next \/ t = t_prev \/ t = t_top \/ t = t_same
  \/ valid_sym_b t = true.
Proof.
  destruct (valid_target_b t) eqn:E; [|left; reflexivity]. right.
  apply valid_target_char in E. destruct E as [E|E]; [tauto|].
  apply valid_ctrl_char in E. tauto.
Qed.

Lemma doc_name_differs :
  doc_name_b (s2b "x") = true /\ valid_sym_b (s2b "x") = false        (* one-letter names *)
  /\ doc_name_b (s2b "1ab") = false /\ valid_sym_b (s2b "1ab") = true.  (* leading digit *)
Proof. vm_compute. auto. Qed.

Lemma ctrl_match_ite {A} (t : bytes) (X Y Z W V D : A) :
  match t with [95] => X | [62] => Y | [60] => Z | [94] => W | [46] => V | _ => D end =
  if bytes_eqb t t_up then X else if bytes_eqb t t_next then Y else if bytes_eqb t t_prev then Z
  else if bytes_eqb t t_top then W else if bytes_eqb t t_same then V else D.
Proof.
  unfold t_up, t_next, t_prev, t_top, t_same.
  destruct t as [|a r]; [reflexivity|].
  destruct a as [|p]; [destruct r; reflexivity|].
  (* the five tokens are 46, 60, 62, 94, 95: at most seven binary digits *)
  do 7 (try (destruct p as [p|p|]; try (destruct r; reflexivity))).
Qed.

(* do_up, do_next, do_prev, do_named: the branches of NavModel.apply_target, copied out as functions so that they can
   be named (apply_up … apply_named below hold by unfolding).  An edit of apply_target has to be repeated here. *)
Definition do_up (st : state) (ca : cache) : state * cache * bytes * stat :=
  match st_up st with
  | Ok (sym', st') =>
    match cache_pop ca with
    | Ok ca' => (st', ca', sym', SOk)
    | Err e => (st', ca, sym', SErr e None)
    | Panic n => (st', ca, sym', SPanic n)
    end
  | Err e => (st, ca, [], SErr e None)
  | Panic n => (st, ca, where_sym st, SPanic n)
  end.
Definition do_next (st : state) (ca : cache) : state * cache * bytes * stat :=
  match st_next st with
  | Ok st' => (st', ca, where_sym st, SOk)
  | Err e => (st, ca, where_sym st, SErr e None)
  | Panic n => (st, ca, where_sym st, SPanic n)
  end.
Definition do_prev (st : state) (ca : cache) : state * cache * bytes * stat :=
  match st_previous st with
  | Ok st' => (st', ca, where_sym st, SOk)
  | Err EIndex => (st, ca, where_sym st, SErr EIndex (Some msg_index))
  | Err e => (st, ca, where_sym st, SErr e None)
  | Panic n => (st, ca, where_sym st, SPanic n)
  end.
Definition do_named (t : bytes) (st : state) (ca : cache) : state * cache * bytes * stat :=
  if MaxLevel + 1 <=? len (s_path st) then (st, ca, t, SErr EGen None)
  else if bytes_eqb (where_sym st) t then (st, ca, t, SErr EGen None)
  else match st_down st t with
       | Ok st' => (st', cache_push ca, t, SOk)
       | Err e => (st, ca, t, SErr e None)
       | Panic n => (st, ca, t, SPanic n)
       end.

Lemma apply_invalid t st ca :
  valid_target_b t = false -> apply_target t st ca = (st, ca, where_sym st, SErr EGen None).
Proof. intros H. unfold apply_target. rewrite H. reflexivity. Qed.
Lemma apply_up st ca : apply_target t_up st ca = do_up st ca.
Proof. reflexivity. Qed.
Lemma apply_next st ca : apply_target t_next st ca = do_next st ca.
Proof. reflexivity. Qed.
Lemma apply_prev st ca : apply_target t_prev st ca = do_prev st ca.
Proof. reflexivity. Qed.
Lemma apply_top st ca :
  apply_target t_top st ca = rewind (S (List.length (s_path st))) (where_sym st) st ca.
Proof. reflexivity. Qed.
Lemma apply_same st ca : apply_target t_same st ca = (st, ca, where_sym st, SOk).
Proof. reflexivity. Qed.
Lemma apply_named t st ca : valid_sym_b t = true -> apply_target t st ca = do_named t st ca.
Proof.
  intros H. unfold apply_target. cbv zeta. rewrite ctrl_match_ite.
  assert (Hv : valid_target_b t = true) by (apply valid_target_char; left; exact H).
  rewrite Hv. cbn [negb]. unfold t_up, t_next, t_prev, t_top, t_same.
  rewrite !(sym_not_single t _ H). reflexivity.
Qed.

Lemma nav_spec_up p : nav_spec p t_up = if len (fst p) <=? 1 then None else Some (removelast (fst p), 0).
Proof. destruct p; reflexivity. Qed.
Lemma nav_spec_top p :
  nav_spec p t_top = if len (fst p) <=? 1 then Some p else Some (firstn 1 (fst p), 0).
Proof. destruct p; reflexivity. Qed.
Lemma nav_spec_same p : nav_spec p t_same = Some p.
Proof. destruct p; reflexivity. Qed.
Lemma nav_spec_next p :
  nav_spec p t_next = match fst p with [] => None | _ => Some (fst p, w16 (snd p + 1)) end.
Proof. destruct p; reflexivity. Qed.
Lemma nav_spec_prev p :
  nav_spec p t_prev =
  match fst p with [] => None | _ => if snd p =? 0 then None else Some (fst p, snd p - 1) end.
Proof. destruct p; reflexivity. Qed.
Lemma nav_spec_named p t : valid_sym_b t = true -> nav_spec p t = Some (fst p ++ [t], 0).
Proof.
  intros H. destruct p as [path idx]. unfold nav_spec, t_up, t_next, t_prev, t_top, t_same.
  rewrite !(sym_not_single t _ H), H. reflexivity.
Qed.
Lemma invalid_not_sym t : valid_target_b t = false -> valid_sym_b t = false.
Proof.
  intros H. destruct (valid_sym_b t) eqn:E; [|reflexivity].
  rewrite (proj2 (valid_target_char t) (or_introl E)) in H. discriminate.
Qed.
Lemma nav_spec_invalid p t : valid_target_b t = false -> nav_spec p t = None.
Proof.
  intros H. destruct p as [path idx]. unfold nav_spec. rewrite (invalid_not_sym t H).
  assert (Hn : forall x, valid_target_b x = true -> bytes_eqb t x = false)
    by (intros x Hx; apply bytes_eqb_neq; congruence).
  rewrite !Hn by reflexivity. reflexivity.
Qed.

Lemma pops_keeps (P : cache -> Prop) :
  (forall ca ca', P ca -> cache_pop ca = Ok ca' -> P ca') -> forall n ca, P ca -> P (pops n ca).
Proof.
  intros Hpop. induction n as [|n IH]; intros ca H; cbn [pops]; [exact H|].
  destruct (cache_pop ca) eqn:E; [apply IH; eauto|exact H|exact H].
Qed.

Lemma pops_ne n ca : c_frames ca <> [] -> c_frames (pops n ca) <> [].
Proof.
  apply (pops_keeps (fun ca => c_frames ca <> [])). intros c c' Hne Hp.
  destruct (pop_levels c Hne) as (c2 & E & Hne' & _). congruence.
Qed.

Lemma pops_CInv n ca : CInv ca -> CInv (pops n ca) /\ c_size (pops n ca) = c_size ca.
Proof.
  intros Hc. apply (pops_keeps (fun c => CInv c /\ c_size c = c_size ca)); [|auto].
  intros c c' [Hi Hs] Hp. destruct (cache_pop_spec c c' Hi Hp) as (Hi' & Hs' & _). split; congruence.
Qed.

Lemma pops_base n ca : hd_error (c_frames ca) = Some [] -> hd_error (c_frames (pops n ca)) = Some [].
Proof. apply (pops_keeps (fun c => hd_error (c_frames c) = Some [])), pop_base. Qed.

Lemma pops_levels n : forall ca,
  N.of_nat n + 1 <= cache_levels ca -> cache_levels (pops n ca) + N.of_nat n = cache_levels ca.
Proof.
  induction n as [|n IH]; intros ca Hl; [cbn [pops]; lia|]. cbn [pops].
  assert (Hne : c_frames ca <> []) by (apply levels_ne; lia).
  destruct (pop_levels ca Hne) as (ca' & Hp & Hne' & Hlv). rewrite Hp.
  destruct (cache_levels ca =? 1) eqn:E; [lia|].
  specialize (IH ca'). lia.
Qed.

Lemma pops_failed : forall k ca e, cache_pop ca = Err e -> pops k ca = ca.
Proof. intros [|k] ca e H; cbn [pops]; [reflexivity|]. rewrite H. reflexivity. Qed.

Lemma state_eta st : st = set_path_idx st (s_path st) (s_idx st).
Proof. destruct st; reflexivity. Qed.

Lemma length_removelast {A} (l : list A) : l <> [] -> S (List.length (removelast l)) = List.length l.
Proof.
  intros Hne. destruct (exists_last Hne) as [pre [a ->]]. rewrite removelast_last, app_length. cbn. lia.
Qed.

Lemma where_sym_set st p i : where_sym (set_path_idx st p i) = last p [].
Proof. reflexivity. Qed.

Lemma rewind_status fuel : forall sym st ca, snd (rewind fuel sym st ca) = SOk.
Proof.
  induction fuel as [|f IH]; intros sym st ca; [reflexivity|]. cbn [rewind].
  unfold st_top, st_up. destruct (s_path st) as [|a [|b l]]; try reflexivity.
  destruct (cache_pop ca) eqn:Ep; try reflexivity; [apply IH|].
  pose proof (pop_never_panics ca) as Hn. rewrite Ep in Hn. discriminate.
Qed.

Lemma st_top_deep st e r z : s_path st = e :: r ++ [z] -> st_top st = Ok false.
Proof. intros H. unfold st_top. rewrite H. destruct r; reflexivity. Qed.
Lemma st_up_ne st :
  s_path st <> [] ->
  st_up st = Ok (last (removelast (s_path st)) [], set_path_idx st (removelast (s_path st)) 0).
Proof. intros H. unfold st_up. destruct (s_path st); [contradiction|reflexivity]. Qed.
Lemma st_up_flags : forall s sym s', st_up s = Ok (sym, s') -> s_flags s' = s_flags s.
Proof. unfold st_up. intros s sym s' H. destruct (s_path s); [discriminate|]. injection H as _ <-. reflexivity. Qed.
Lemma st_down_keeps : forall s sym s', st_down s sym = Ok s' -> s_lang s' = s_lang s /\ s_flags s' = s_flags s.
Proof.
  unfold st_down. intros s sym s' H. destruct (MaxLevel <? len (s_path s)); [discriminate|].
  destruct (s_path s); [|destruct (bytes_eqb _ sym); [discriminate|]]; injection H as <-; auto.
Qed.

Lemma rewind_cons e : forall rest fuel sym st ca,
  s_path st = e :: rest -> (List.length rest < fuel)%nat -> c_frames ca <> [] ->
  rewind fuel sym st ca =
  (match rest with [] => st | _ => set_path_idx st [e] 0 end,
   pops (List.length rest) ca,
   match rest with [] => sym | _ => e end, SOk).
Proof.
  induction rest as [|z rest IH] using rev_ind; intros [|f] sym st ca Hp Hf Hne; try (cbn in Hf; lia); cbn [rewind].
  - unfold st_top. rewrite Hp. reflexivity.
  - rewrite app_length, Nat.add_1_r in *. cbn [pops].
    rewrite (st_top_deep st e rest z Hp), st_up_ne, Hp by (rewrite Hp; discriminate).
    rewrite (removelast_last (e :: rest) z : removelast (e :: rest ++ [z]) = e :: rest).
    destruct (pop_levels ca Hne) as (ca' & -> & Hne' & _).
    rewrite (IH f _ (set_path_idx st (e :: rest) 0) ca' eq_refl) by (lia || exact Hne').
    destruct rest as [|r1 rest1]; [|destruct (rest1 ++ [z]) eqn:E; [destruct rest1; discriminate|]]; reflexivity.
Qed.

(* "^" with the fuel applyTarget gives it *)
Lemma rewind_spec st ca sym :
  c_frames ca <> [] ->
  rewind (S (List.length (s_path st))) sym st ca =
  match s_path st with
  | e :: (_ :: _) as rest => (set_path_idx st [e] 0, pops (List.length rest) ca, e, SOk)
  | _ => (st, ca, sym, SOk)
  end.
Proof.
  intros Hne. destruct (s_path st) as [|e rest] eqn:Ep.
  - cbn [rewind List.length]. unfold st_top. rewrite Ep. reflexivity.
  - rewrite (rewind_cons e rest _ sym st ca Ep); [|cbn [List.length]; lia|exact Hne]. destruct rest; reflexivity.
Qed.

Lemma nav_code_guard p t : up_at_entry p t = false -> nav_code p t = nav_spec p t.
Proof. intros H. unfold nav_code. rewrite H. reflexivity. Qed.

Lemma nav_code_not_up p t : bytes_eqb t t_up = false -> nav_code p t = nav_spec p t.
Proof. intros H. apply nav_code_guard. unfold up_at_entry. rewrite H. reflexivity. Qed.

(* "_" in the code's table: one row for every non-empty stack, as State.Up has it *)
Lemma nav_code_up p :
  nav_code p t_up = match fst p with [] => None | _ :: _ => Some (removelast (fst p), 0) end.
Proof.
  destruct p as [[|a [|b l]] i]; [reflexivity|reflexivity|].
  unfold nav_code, up_at_entry. rewrite nav_spec_up. cbn [fst]. change (bytes_eqb t_up t_up) with true.
  rewrite !len_cons. destruct (_ =? 1) eqn:E1; [lia|]. destruct (_ <=? 1) eqn:E2; [lia|]. reflexivity.
Qed.

Lemma nav_code_invalid p t : valid_target_b t = false -> nav_code p t = None.
Proof.
  intros H. rewrite nav_code_not_up; [apply nav_spec_invalid, H|].
  apply bytes_eqb_neq. intros ->. discriminate.
Qed.

(* What a row of the table does to depth and index: a name pushes one level at index 0, any other row does not deepen
   the stack and keeps the index a uint16.  This is the arithmetic apply_levels and apply_wf need. *)
Lemma nav_code_shape p t p' :
  nav_code p t = Some p' ->
  (if valid_sym_b t then fst p' = fst p ++ [t] /\ snd p' = 0
   else (List.length (fst p') <= List.length (fst p))%nat /\ (snd p < 65536 -> snd p' < 65536)).
Proof.
  destruct p as [path idx]. destruct (valid_sym_b t) eqn:Es.
  { rewrite (nav_code_not_up _ _ (sym_not_single t _ Es)), (nav_spec_named _ _ Es). intros H. injection H as <-. auto. }
  destruct (target_cases t) as [E|[E|[E|[E|[E|[E|E]]]]]]; try subst t; [| | | | | |congruence].
  - rewrite (nav_code_invalid _ _ E). discriminate.
  - rewrite nav_code_up. cbn [fst snd].
    destruct path as [|a l]; [discriminate|]. intros H. injection H as <-.
    pose proof (length_removelast (a :: l) ltac:(discriminate)) as Hl. cbn [fst snd removelast] in *. lia.
  - rewrite nav_code_not_up, nav_spec_next by reflexivity. cbn [fst snd].
    destruct path; [discriminate|]. intros H. injection H as <-. cbn [fst snd].
    split; [lia|]. intros _. apply N.mod_lt. discriminate.
  - rewrite nav_code_not_up, nav_spec_prev by reflexivity. cbn [fst snd].
    destruct path; [discriminate|]. destruct (idx =? 0); [discriminate|].
    intros H. injection H as <-. cbn [fst snd]. lia.
  - rewrite nav_code_not_up, nav_spec_top by reflexivity. cbn [fst snd].
    destruct (len path <=? 1); intros H; injection H as <-; cbn [fst snd]; [lia|].
    split; [|lia]. destruct path; cbn [List.length firstn]; lia.
  - rewrite nav_code_not_up, nav_spec_same by reflexivity.
    intros H. injection H as <-. lia.
Qed.

Definition down_refused (t : bytes) (st : state) : bool :=
  (MaxLevel + 1 <=? len (s_path st)) || bytes_eqb (where_sym st) t.

(* State.Down's two panics are behind exactly these two checks *)
Lemma do_named_eq t st ca :
  do_named t st ca =
  if down_refused t st then (st, ca, t, SErr EGen None)
  else (set_path_idx st (s_path st ++ [t]) 0, cache_push ca, t, SOk).
Proof.
  unfold do_named, down_refused, st_down, where_sym.
  destruct (MaxLevel + 1 <=? len (s_path st)) eqn:E1; [reflexivity|]. cbn [orb].
  destruct (bytes_eqb (last (s_path st) []) t) eqn:E0; [reflexivity|].
  destruct (MaxLevel <? len (s_path st)) eqn:E2; [lia|].
  destruct (s_path st); reflexivity.
Qed.

Lemma apply_target_spec {t st ca st' ca' sym r} :
  c_frames ca <> [] -> apply_target t st ca = (st', ca', sym, r) ->
  match (if valid_sym_b t && down_refused t st then None else nav_code (pos_of st) t) with
  | Some (p, i) =>
      r = SOk /\ st' = set_path_idx st p i /\ sym = last p []
      /\ ca' = (if valid_sym_b t then cache_push ca else pops (List.length (s_path st) - List.length p) ca)
  | None => (exists e m, r = SErr e m) /\ st' = st /\ ca' = ca
  end.
Proof.
  intros Hne. unfold pos_of. destruct (valid_sym_b t) eqn:Es; cbn [andb].
  { rewrite (apply_named _ _ _ Es), do_named_eq, (nav_code_not_up _ _ (sym_not_single t _ Es)), (nav_spec_named _ _ Es).
    cbn [fst]. destruct (down_refused t st); intros H; injection H as <- <- <- <-; [eauto|].
    repeat split. symmetry. apply last_last. }
  destruct (target_cases t) as [E|[E|[E|[E|[E|[E|E]]]]]]; try subst t; [| | | | | |congruence].
  - rewrite (apply_invalid _ _ _ E), (nav_code_invalid _ _ E). intros H. injection H as <- <- <- <-. eauto.
  - rewrite apply_up, nav_code_up. unfold do_up, st_up. cbn [fst].
    destruct (s_path st) as [|a l] eqn:Ep; [intros H; injection H as <- <- <- <-; eauto|].
    destruct (pop_levels ca Hne) as (ca1 & Hpop & _ & _). rewrite Hpop. intros H. injection H as <- <- <- <-.
    assert (Hl : a :: l <> []) by discriminate. apply length_removelast in Hl.
    replace (List.length (a :: l) - List.length (removelast (a :: l)))%nat with 1%nat by lia.
    cbn [pops]. rewrite Hpop. auto.
  - rewrite apply_next, nav_code_not_up, nav_spec_next by reflexivity.
    unfold do_next, st_next, where_sym. cbn [fst snd].
    destruct (s_path st); intros H; injection H as <- <- <- <-; [eauto|]. rewrite Nat.sub_diag. auto.
  - rewrite apply_prev, nav_code_not_up, nav_spec_prev by reflexivity.
    unfold do_prev, st_previous, where_sym. cbn [fst snd].
    destruct (s_path st); [|destruct (s_idx st =? 0)]; intros H; injection H as <- <- <- <-; [eauto|eauto|].
    rewrite Nat.sub_diag. auto.
  - rewrite apply_top, rewind_spec, nav_code_not_up, nav_spec_top by (exact Hne || reflexivity).
    unfold where_sym. cbn [fst].
    destruct (s_path st) as [|e [|e2 rest]] eqn:Ep; intros H; injection H as <- <- <- <-;
      [repeat split; rewrite <- Ep; apply state_eta ..|].
    rewrite !len_cons. destruct (_ <=? 1) eqn:E1; [lia|]. auto.
  - rewrite apply_same, nav_code_not_up, nav_spec_same by reflexivity.
    intros H. injection H as <- <- <- <-. rewrite Nat.sub_diag. repeat split. apply state_eta.
Qed.

Lemma apply_ok_exact {t st ca st' ca' sym} :
  c_frames ca <> [] ->
  apply_target t st ca = (st', ca', sym, SOk) ->
  nav_code (pos_of st) t = Some (pos_of st')
  /\ sym = where_sym st'
  /\ st' = set_path_idx st (s_path st') (s_idx st')
  /\ ca' = (if valid_sym_b t then cache_push ca
            else pops (List.length (s_path st) - List.length (s_path st')) ca).
Proof.
  intros Hne H. pose proof (apply_target_spec Hne H) as Sp.
  destruct (valid_sym_b t && down_refused t st); [destruct Sp as ((e & m & Hr) & _); discriminate|].
  destruct (nav_code (pos_of st) t) as [[p i]|]; [|destruct Sp as ((e & m & Hr) & _); discriminate].
  destruct Sp as (_ & -> & -> & ->). repeat split.
Qed.

(* the frame is needed: without one, "_" moves the position and then fails on Pop *)
Lemma apply_fail_unchanged {t st ca st' ca' sym r} :
  c_frames ca <> [] ->
  apply_target t st ca = (st', ca', sym, r) -> r <> SOk -> st' = st /\ ca' = ca.
Proof.
  intros Hne H Hr. pose proof (apply_target_spec Hne H) as Sp.
  destruct (if valid_sym_b t && down_refused t st then None else nav_code (pos_of st) t) as [[p i]|];
    [destruct Sp as [-> _]; contradiction|tauto].
Qed.

Lemma apply_keeps_frames {t st ca st' ca' sym r} :
  c_frames ca <> [] -> apply_target t st ca = (st', ca', sym, r) -> c_frames ca' <> [].
Proof.
  intros Hne H. pose proof (apply_target_spec Hne H) as Sp.
  destruct (if valid_sym_b t && down_refused t st then None else nav_code (pos_of st) t) as [[p i]|];
    [|destruct Sp as (_ & _ & ->); exact Hne].
  destruct Sp as (_ & _ & _ & ->). destruct (valid_sym_b t); [apply cache_push_frames|apply pops_ne, Hne].
Qed.

Lemma nav_inv_frames st ca : nav_inv st ca -> c_frames ca <> [].
Proof. unfold nav_inv. intros H. apply levels_ne. lia. Qed.

Lemma apply_levels {t st ca st' ca' sym r} :
  nav_inv st ca -> apply_target t st ca = (st', ca', sym, r) ->
  nav_inv st' ca' /\ cache_levels ca' + len (s_path st) = cache_levels ca + len (s_path st').
Proof.
  intros Hinv H. pose proof (apply_target_spec (nav_inv_frames _ _ Hinv) H) as Sp. unfold nav_inv in *.
  destruct (valid_sym_b t && down_refused t st); [destruct Sp as (_ & -> & ->); lia|].
  destruct (nav_code (pos_of st) t) as [[p i]|] eqn:Hc; [|destruct Sp as (_ & -> & ->); lia].
  destruct Sp as (_ & -> & _ & ->). apply nav_code_shape in Hc. cbn [pos_of fst snd s_path set_path_idx] in *.
  destruct (valid_sym_b t).
  - destruct Hc as [-> _]. rewrite push_levels, len_app, len_cons, len_nil. lia.
  - pose proof (pops_levels (List.length (s_path st) - List.length p) ca) as Hpl. unfold len in *. lia.
Qed.

Lemma apply_wf {t st ca st' ca' sym r} :
  wf_nav st ca -> apply_target t st ca = (st', ca', sym, r) -> wf_nav st' ca'.
Proof.
  intros (Hinv & Hd & Hi) H. split; [apply (apply_levels Hinv H)|].
  pose proof (apply_target_spec (nav_inv_frames _ _ Hinv) H) as Sp.
  destruct (valid_sym_b t && down_refused t st) eqn:Er; [destruct Sp as (_ & -> & _); auto|].
  destruct (nav_code (pos_of st) t) as [[p i]|] eqn:Hc; [|destruct Sp as (_ & -> & _); auto].
  destruct Sp as (_ & -> & _). apply nav_code_shape in Hc. cbn [pos_of fst snd s_path s_idx set_path_idx] in *.
  unfold down_refused, len in *. destruct (valid_sym_b t).
  - destruct Hc as [-> ->]. rewrite app_length. cbn [List.length]. lia.
  - lia.
Qed.

Lemma lockstep_lemma t st ca st' ca' sym r :
  wf_nav st ca -> apply_target t st ca = (st', ca', sym, r) ->
  wf_nav st' ca' /\ cache_levels ca' + len (s_path st) = cache_levels ca + len (s_path st').
Proof.
  intros Hw H. split; [eapply apply_wf; eauto|]. destruct Hw as [Hinv _].
  apply (apply_levels Hinv H).
Qed.

(* the finding K-C04-up-at-entry: "_" at the entry node returns without error and empties the stack, a move
   for which the documented table has no row *)
Lemma apply_up_at_entry st ca e :
  s_path st = [e] -> 1 <= cache_levels ca ->
  exists ca', cache_pop ca = Ok ca'
    /\ apply_target t_up st ca = (set_path_idx st [] 0, ca', [], SOk)
    /\ nav_spec (pos_of st) t_up = None.
Proof.
  intros Hp Hl. apply levels_ne in Hl. destruct (pop_levels ca Hl) as (ca' & Hpop & _ & _).
  exists ca'. split; [exact Hpop|]. split.
  - rewrite apply_up. unfold do_up, st_up. rewrite Hp, Hpop. reflexivity.
  - rewrite nav_spec_up. unfold pos_of. cbn [fst]. rewrite Hp. reflexivity.
Qed.

(* Single calls with the answer written out, for any cache; those up to next_never_fails are the clauses of
   props/C04nav.C04_failures_exact *)
Lemma fail_prev_at_zero st ca :
  s_path st <> [] -> s_idx st = 0 ->
  apply_target t_prev st ca = (st, ca, where_sym st, SErr EIndex (Some msg_index)).
Proof.
  intros Hp Hi. rewrite apply_prev. unfold do_prev, st_previous. destruct (s_path st); [contradiction|].
  rewrite Hi. reflexivity.
Qed.
Lemma fail_lateral_empty st ca :
  s_path st = [] ->
  apply_target t_prev st ca = (st, ca, [], SErr EGen None)
  /\ apply_target t_next st ca = (st, ca, [], SErr EGen None).
Proof.
  intros Hp. rewrite apply_prev, apply_next. unfold do_prev, do_next, st_previous, st_next, where_sym. rewrite Hp. auto.
Qed.
Lemma fail_up_empty st ca : s_path st = [] -> apply_target t_up st ca = (st, ca, [], SErr EGen None).
Proof. intros Hp. rewrite apply_up. unfold do_up, st_up. rewrite Hp. reflexivity. Qed.
Lemma fail_down_refused t st ca :
  valid_sym_b t = true -> down_refused t st = true -> apply_target t st ca = (st, ca, t, SErr EGen None).
Proof. intros E Hr. rewrite (apply_named _ _ _ E), do_named_eq, Hr. reflexivity. Qed.
Lemma fail_depth t st ca :
  valid_sym_b t = true -> MaxLevel + 1 <= len (s_path st) ->
  apply_target t st ca = (st, ca, t, SErr EGen None).
Proof. intros E Hd. apply (fail_down_refused _ _ _ E). unfold down_refused. lia. Qed.
Lemma fail_same t st ca :
  valid_sym_b t = true -> where_sym st = t -> apply_target t st ca = (st, ca, t, SErr EGen None).
Proof.
  intros E Hw. apply (fail_down_refused _ _ _ E). unfold down_refused. rewrite Hw, bytes_eqb_refl. apply orb_true_r.
Qed.
Lemma next_never_fails st ca :
  s_path st <> [] ->
  apply_target t_next st ca = (set_path_idx st (s_path st) (w16 (s_idx st + 1)), ca, where_sym st, SOk).
Proof. intros Hp. rewrite apply_next. unfold do_next, st_next. destruct (s_path st); [contradiction|reflexivity]. Qed.
Lemma apply_prev_ok st ca :
  s_path st <> [] -> s_idx st <> 0 ->
  apply_target t_prev st ca = (set_path_idx st (s_path st) (s_idx st - 1), ca, where_sym st, SOk).
Proof.
  intros H H0. rewrite apply_prev. unfold do_prev, st_previous. destruct (s_path st); [contradiction|].
  destruct (s_idx st =? 0) eqn:E; [apply N.eqb_eq in E; contradiction|reflexivity].
Qed.

Lemma apply_named_from_empty t st ca :
  valid_sym_b t = true -> s_path st = [] ->
  apply_target t st ca = (set_path_idx st [t] 0, cache_push ca, t, SOk).
Proof.
  intros Hv Hp. rewrite (apply_named _ _ _ Hv), do_named_eq. unfold down_refused, where_sym. rewrite Hp.
  destruct t; [vm_compute in Hv; discriminate|reflexivity].
Qed.

Lemma rewind_pos_only fuel : forall sym st ca,
  exists p i, fst (fst (fst (rewind fuel sym st ca))) = set_path_idx st p i.
Proof.
  induction fuel as [|fuel IH]; intros sym st ca;
    assert (Same : exists p i, st = set_path_idx st p i) by (exists (s_path st), (s_idx st); apply state_eta);
    cbn [rewind]; [exact Same|].
  destruct (st_top st) as [[|]|e|n]; try exact Same.
  unfold st_up. destruct (s_path st) as [|x l]; [exact Same|].
  destruct (cache_pop ca) as [ca1|e|n]; try (eexists _, _; reflexivity).
  destruct (IH (last (removelast (x :: l)) []) (set_path_idx st (removelast (x :: l)) 0) ca1) as (p & i & ->).
  exists p, i. reflexivity.
Qed.

(* no frame hypothesis here: on a cache without frames Pop fails, it does not panic *)
Lemma apply_target_always t st ca :
  is_spanic (snd (apply_target t st ca)) = false
  /\ exists p i, fst (fst (fst (apply_target t st ca))) = set_path_idx st p i.
Proof.
  assert (Same : exists p i, st = set_path_idx st p i) by (exists (s_path st), (s_idx st); apply state_eta).
  destruct (target_cases t) as [E|[E|[E|[E|[E|[E|E]]]]]]; try subst t.
  - rewrite (apply_invalid _ _ _ E). auto.
  - rewrite apply_up. unfold do_up, st_up. destruct (s_path st); [auto|]. pose proof (pop_never_panics ca) as Hn.
    destruct (cache_pop ca); [..|discriminate]; (split; [reflexivity|eexists _, _; reflexivity]).
  - rewrite apply_next. unfold do_next, st_next. destruct (s_path st); [auto|split; [reflexivity|eexists _, _; reflexivity]].
  - rewrite apply_prev. unfold do_prev, st_previous. destruct (s_path st); [auto|].
    destruct (s_idx st =? 0); [auto|split; [reflexivity|eexists _, _; reflexivity]].
  - rewrite apply_top, rewind_status. split; [reflexivity|apply rewind_pos_only].
  - rewrite apply_same. auto.
  - rewrite (apply_named _ _ _ E), do_named_eq. destruct (down_refused t st); [auto|split; [reflexivity|eexists _, _; reflexivity]].
Qed.
Lemma apply_never_panics t st ca : is_spanic (snd (apply_target t st ca)) = false.
Proof. apply apply_target_always. Qed.
Lemma apply_target_pos_only t st ca : exists p i, fst (fst (fst (apply_target t st ca))) = set_path_idx st p i.
Proof. apply apply_target_always. Qed.

Lemma apply_stays {t st ca st' ca' nsym s} :
  c_frames ca <> [] -> apply_target t st ca = (st', ca', nsym, s) -> s <> SOk -> st' = st /\ ca' = ca /\ is_spanic s = false.
Proof.
  intros Hne Ha Hs. destruct (apply_fail_unchanged Hne Ha Hs) as [-> ->].
  pose proof (apply_never_panics t st ca) as Hp. rewrite Ha in Hp. auto.
Qed.

Lemma nav_run_fold (I : state -> cache -> Prop) :
  (forall st ca, I st ca -> c_frames ca <> []) ->
  (forall t st ca st' ca' sym r, I st ca -> apply_target t st ca = (st', ca', sym, r) -> I st' ca') ->
  forall ts st ca st2 ca2 log, I st ca -> nav_run st ca ts = (st2, ca2, log) ->
  I st2 ca2 /\ nav_fold nav_code (pos_of st) log = Some (pos_of st2).
Proof.
  intros Hne Hstep. induction ts as [|t ts IH]; intros st ca st2 ca2 log Hi H; cbn [nav_run] in H.
  - injection H as <- <- <-. auto.
  - destruct (apply_target t st ca) as [[[st1 ca1] sym] r] eqn:Ea.
    destruct (nav_run st1 ca1 ts) as [[st3 ca3] log3] eqn:Er. injection H as <- <- <-.
    destruct (IH _ _ _ _ _ (Hstep _ _ _ _ _ _ _ Hi Ea) Er) as [Hi2 Hf]. split; [exact Hi2|].
    destruct r;
      [cbn [nav_fold]; rewrite (proj1 (apply_ok_exact (Hne _ _ Hi) Ea)); exact Hf|..];
      (destruct (apply_fail_unchanged (Hne _ _ Hi) Ea) as [-> _]; [discriminate|exact Hf]).
Qed.

Lemma nav_run_code ts st ca st2 ca2 log :
  1 <= cache_levels ca -> nav_run st ca ts = (st2, ca2, log) ->
  nav_fold nav_code (pos_of st) log = Some (pos_of st2).
Proof.
  intros Hl H. apply levels_ne in Hl.
  apply (nav_run_fold (fun _ ca => c_frames ca <> [])) in H; [tauto|auto|..|exact Hl].
  intros t st0 ca0 st' ca' sym r. apply apply_keeps_frames.
Qed.

Lemma fold_spec_code ms : forall p, up_free p ms = true -> nav_fold nav_spec p ms = nav_fold nav_code p ms.
Proof.
  induction ms as [|m ms IH]; intros p H; [reflexivity|]. cbn [up_free] in H. cbn [nav_fold].
  apply andb_true_iff in H. destruct H as [Hg Hr]. apply negb_true_iff in Hg.
  rewrite <- (nav_code_guard _ _ Hg). destruct (nav_code p m) as [p'|]; [apply IH; exact Hr|reflexivity].
Qed.
