(* C02 at engine level: walking the pages of a sink node with the "next" / "previous" selectors.
   A request of the walk resumes the node's routes (its INCMP lines) after the HALT; one of them fires a
   lateral move; the node's code is fetched and run again up to the HALT; Flush renders the page of the
   new index.  The file goes through that from the inside out: what Page.Render answers on the page the
   node builds, for every index (on RenderProofs); the run of the node's code and of its routes
   (on RoutingProofs); Vm.Render and the engine's request; last, an application that meets every guard. *)
From Coq Require Import Lia ZArith.
From Coq Require Import ZifyN ZifyNat ZifyBool.
From Vise Require Import Bytes Errors Consts EngConsts Codec CacheModel StateModel NavModel NavSpec RenderModel
  VmModel EngineModel BytesProofs CodecProofs CacheProofs NavProofs VmProofs RenderProofs RoutingProofs.
From Vise Require SizeProofs EngineProofs.
Local Open Scope N_scope.

(* the page the node's prologue builds (fields that matter for Page.Render) *)
Definition node_page (pg : page) (k val : bytes) (out : N) (br : browse) : Prop :=
  p_map pg = [(k, val)] /\ p_err pg = None /\ p_extra pg = []
  /\ (exists z0, p_sizer pg = Some z0 /\ z_crsrs z0 = [] /\ z_sink z0 = k /\ z_out z0 = out)
  /\ (exists m, p_menu pg = Some m /\ m_items m = [] /\ m_browse m = br /\ m_page_count m = 0
        /\ m_sink m = false /\ m_keep m = true /\ m_sep m = default_sep /\ m_has_rs m = true).

(* the guards of the page-level lift, on the inputs of the node *)
Definition page_ok (c : cache) (gt gm : bytes -> res bytes) (sym k val : bytes) (out : N) (br : browse)
  (src : bytes) (a b : list tpl_item) (xa xb : bytes) : Prop :=
  k <> [] /\ cache_reserved c k = Ok 0 /\ 0 < out /\ out < 4294967296
  /\ (forall x, is_panic (gt x) = false) /\ gt sym = Ok src
  /\ tpl_parse (tpl_source None [] src) = Some (a ++ TVar k :: b)
  /\ tmentions k a = false /\ tmentions k b = false
  /\ (forall w, (forall nm, nm <> k -> alookup nm w = alookup nm [(k, val)]) ->
        tpl_exec a w = Ok xa /\ tpl_exec b w = Ok xb)
  /\ b_next_avail br = true /\ b_prev_avail br = true
  /\ gm (b_next_title br) = Ok (b_next_title br) /\ gm (b_prev_title br) = Ok (b_prev_title br)
  /\ len xa + len xb <= out
  /\ rows_ok (split_on nl val) = true /\ rows_size (split_on nl val) < 4294967296 /\ len (split_on nl val) < 65536
  /\ budget_ok (split_on nl val) (out - (len xa + len xb)) (browse_sizes br) = true.

(* text of page i of n showing the rows p *)
Definition page_text (xa xb : bytes) (br : browse) (n i : N) (p : list bytes) : bytes :=
  (xa ++ join_with [nl] p ++ xb) ++ opt_menu (join_with [nl] (browse_lines br default_sep (i + 1 <? n) (0 <? i))).

(* the pages: a function of the value, the size and the browse labels only *)
Definition pages_of_node (val : bytes) (out : N) (br : browse) (xa xb : bytes)
  (r : bytes) (n : N) (cs : list N) (pages : list (list bytes)) : Prop :=
  join_sink (split_on nl val) (out - (len xa + len xb)) (browse_sizes br) [0] = (Ok (r, n), cs)
  /\ List.concat pages = split_on nl val /\ len pages = n /\ 0 < n /\ n < 65536
  /\ (forall i p, nth_error pages i = Some p ->
        sink_page r cs (N.of_nat i) = Ok (join_with [nl] p)
        /\ len (join_with [nl] p) + nav (browse_sizes br) (N.of_nat i) n <= out - (len xa + len xb)).

Lemma pages_of_node_count {val out br xa xb r n cs pages} :
  pages_of_node val out br xa xb r n cs pages -> len pages = n /\ n < 65536.
Proof. intros (_ & _ & Hlp & _ & Hn16 & _). auto. Qed.

Lemma node_pages_exist {c gt gm sym k val out br src a b xa xb} :
  page_ok c gt gm sym k val out br src a b xa xb ->
  exists r n cs pages, pages_of_node val out br xa xb r n cs pages.
Proof.
  (* the guards on the rows, the last four of page_ok, are all that joinSink's lemmas ask *)
  intros Hok.
  destruct (join_sink_budget (split_on nl val) (out - (len xa + len xb)) (browse_sizes br) (split_on_nonempty nl val))
    as (r & n & cs & pages & Hj & Hcat & Hlp & [Hn Hn16] & Hpages & _); [apply Hok..|].
  exists r, n, cs, pages. repeat (split; [assumption|]). exact Hpages.
Qed.

Lemma single_sink_one c k val : cache_reserved c k = Ok 0 -> single_sink c k [(k, val)].
Proof.
  intros H. split.
  - cbn. constructor; [intros []|constructor].
  - intros k' [<-|[]]. cbn [fst]. rewrite bytes_eqb_refl. exact H.
Qed.

(* Page.Render on the node's page at index i shows page i, or fails with GetAt's plain error ("no more values in
   index", not a BrowseError) from n on: RenderProofs.page_render_sink for a menu without items *)
Lemma node_render {c gt gm pg sym k val out br src a b xa xb r n cs pages} :
  page_ok c gt gm sym k val out br src a b xa xb -> node_page pg k val out br ->
  pages_of_node val out br xa xb r n cs pages ->
  (forall i p, nth_error pages (N.to_nat i) = Some p ->
     exists pg', page_render c gt gm pg sym i = (Ok (page_text xa xb br n i p), pg'))
  /\ (forall i, n <= i -> exists pg', page_render c gt gm pg sym i = (Err EGen, pg')).
Proof.
  intros (Hk & Hres & Hout & Hout32 & _ & Hgt & Hparse & _ & _ & Hexab & Hna & Hpa & Hnt & Hpt & Hpref & Hrok & Hrsz & Hrlen & Hbud)
         (Hmap & Herr & Hextra & (z0 & Hz0 & Hcrs & <- & <-) & (m & Hm & Hit & <- & Hpc & Hsk & Hkeep & Hsep & Hrs))
         (Hj & Hcat & Hlp & Hn & Hn16 & Hpages).
  destruct (page_render_sink c gt gm pg sym z0 m val xa xb [] (z_out z0 - (len xa + len xb)) r n cs pages) as [Hin Hpast];
    try assumption; rewrite ?Hmap, ?Herr, ?Hextra, ?Hit; try reflexivity.
  - (* 0 < z_out z0 < 2^32 *) split; assumption.
  - (* vm_menu: the browse labels resolve to themselves *) constructor; unfold title_for; rewrite ?Hrs; assumption.
  - (* single_sink *) apply single_sink_one. exact Hres.
  - (* the sink is mapped to val *) cbn [alookup]. rewrite bytes_eqb_refl. reflexivity.
  - (* around: the template texts *) exists src, a, b. auto.
  - (* no menu lines: the rows get what xa and xb leave of the output size *)
    change (rows_size []) with 0. clear - Hpref. lia.
  - (* sink_pages; its last part is the partition theorem: every index from n on is refused by GetAt *)
    repeat (split; [assumption || (split; assumption)|]).
    apply (join_sink_partition _ _ _ r n cs (split_on_nonempty nl val) Hrok Hrsz Hrlen Hj).
  - (* RenderProofs counts the pages in nat *)
    split; [intros i p Hp; rewrite <- (N2Nat.id i); exact (Hin _ _ Hp)|exact Hpast].
Qed.

Definition prologue (k nt ns pt ps : bytes) : bytes :=
  encode (ILoad k 0) ++ encode (IMap k) ++ encode (IMNext nt ns) ++ encode (IMPrev pt ps) ++ encode IHalt.
Definition routes (ns ps : bytes) (l2 : list (bytes * bytes)) : bytes :=
  incmp_block ((t_next, ns) :: (t_prev, ps) :: l2).
(* LOAD k 0; MAP k; MNEXT nt ns; MPREV pt ps; HALT; INCMP > ns; INCMP < ps; further INCMP lines *)
Definition node_code (k nt ns pt ps : bytes) (l2 : list (bytes * bytes)) : bytes :=
  prologue k nt ns pt ps ++ routes ns ps l2.
Definition node_wf (k nt ns pt ps : bytes) (l2 : list (bytes * bytes)) : Prop :=
  wf_sym k /\ wf_sym nt /\ wf_sym ns /\ wf_sym pt /\ wf_sym ps /\ wf_block l2.

Lemma routes_ne ns ps l2 : routes ns ps l2 <> [].
Proof. unfold routes. rewrite <- (app_nil_r (incmp_block _)). apply incmp_block_cons_ne. Qed.

Lemma encode_app_ne i (x : bytes) : encode i ++ x <> [].
Proof. destruct (encode_shape i) as (a & b & t & ->). discriminate. Qed.

Definition reset_page (pg : page) : page := upd_menu menu_reset (page_reset (page_with_error pg None)).

Lemma prelude_pg v : v_pg (loop_pre v) = if getf (v_st v) FLAG_WAIT then reset_page (v_pg v) else v_pg v.
Proof. unfold loop_pre. cbn [v_pg vset_pg]. rewrite getf_resetf_other by discriminate. reflexivity. Qed.

(* the page right after Vm.Reset on a page that carries no error *)
Definition fresh_page (sep : bytes) (pg : page) (out : N) : Prop :=
  p_map pg = [] /\ p_sink pg = None /\ p_err pg = None /\ p_extra pg = []
  /\ (exists z, p_sizer pg = Some z /\ z_crsrs z = [] /\ z_sink z = [] /\ z_out z = out)
  /\ p_menu pg = Some (menu_with_resource (vm_new_menu sep)).

Definition walk_browse (nt ns pt ps : bytes) : browse := mkBrowse true ns nt true ps pt.

(* v' is v up to the page, the log and the flags other than INMATCH and READIN, its flag field well formed and
   TERMINATE clear.  The steps below are stated on explicit machines (page_step, halt_step) and do not go through it. *)
Definition keeps (v v' : vmst) : Prop :=
  same_but_flags (v_st v) (v_st v') /\ v_ca v' = v_ca v /\ v_w v' = v_w v /\ v_taint v' = v_taint v
  /\ flags_ok (v_st v') /\ getf (v_st v') FLAG_TERMINATE = false
  /\ getf (v_st v') FLAG_INMATCH = getf (v_st v) FLAG_INMATCH
  /\ getf (v_st v') FLAG_READIN = getf (v_st v) FLAG_READIN.

Lemma keeps_trans a b c : keeps a b -> keeps b c -> keeps a c.
Proof.
  intros (A1 & A2 & A3 & A4 & A5 & A6 & A7 & A8) (B1 & B2 & B3 & B4 & B5 & B6 & B7 & B8).
  unfold keeps. split; [eapply sbf_trans; eassumption|]. repeat split; try congruence; assumption.
Qed.

Lemma keeps_pg v pg : flags_ok (v_st v) -> getf (v_st v) FLAG_TERMINATE = false -> keeps v (vset_pg v pg).
Proof. intros Hf Ht. unfold keeps. cbn. split; [apply sbf_refl|]. repeat split; assumption. Qed.

(* in the middle of a run: an instruction whose handler only edits the page (by g) and leaves code to run takes one
   unit of fuel, so "unless the fuel runs out the run ends in Q" passes from the code left to the whole.
   The machine the instruction leaves is spelt by its fields: a tower of vset_pg (vlog ...) over several
   instructions is costly to compare with anything *)
Lemma page_step (Q : hres -> Prop) {rs sep lang} i {rest} (g : page -> page) {v} :
  wf_instr i -> is_halt i = false -> rest <> [] -> midrun (v_st v) -> getf (v_st v) FLAG_TERMINATE = false ->
  (let u := vlog v (EvInstr (opcode_of i)) in exec_instr rs sep lang i rest u = (vset_pg u (g (v_pg v)), rest, SOk)) ->
  (let v' := mkVm (v_st v) (v_ca v) (g (v_pg v)) (v_w v) (EvInstr (opcode_of i) :: v_log v) (v_taint v) in
   forall fuel, out_of_fuel (run fuel rs sep lang rest v') \/ Q (run fuel rs sep lang rest v')) ->
  forall fuel, out_of_fuel (run fuel rs sep lang (encode i ++ rest) v) \/ Q (run fuel rs sep lang (encode i ++ rest) v).
Proof.
  intros Hwf Hh Hr M Ht He K [|fuel]; [left; reflexivity|].
  rewrite run_unfold, prelude_midrun, Ht, Hh by assumption. cbn [fst snd].
  rewrite He, run_post_ok_nonempty by exact Hr. apply K.
Qed.
Lemma halt_step rs sep lang rest v fuel :
  midrun (v_st v) -> getf (v_st v) FLAG_TERMINATE = false ->
  run (S fuel) rs sep lang (encode IHalt ++ rest) v
  = (mkVm (setf (v_st v) FLAG_WAIT) (v_ca v) (v_pg v) (v_w v) (EvInstr op_HALT :: v_log v) (v_taint v), rest, SOk).
Proof. intros M Ht. rewrite run_unfold, prelude_midrun, Ht by (exact I || exact M). reflexivity. Qed.

(* Map of a zero-size symbol on a page without a sink: the symbol becomes the sink *)
Definition page_mapped (k val : bytes) (pg : page) : page :=
  mkPage (aset k val (p_map pg)) (Some k) (p_menu pg) (option_map (fun z => sizer_set z k 0) (p_sizer pg))
         (p_err pg) (p_extra pg).
Lemma page_map_sink c pg k val :
  cache_get c k = Ok val -> cache_reserved c k = Ok 0 -> p_sink pg = None -> page_map c pg k = Ok (page_mapped k val pg).
Proof. intros Hg Hr Hs. unfold page_map. rewrite Hg, Hr, Hs. reflexivity. Qed.

(* LOAD is skipped (the symbol is visible), MAP / MNEXT / MPREV build the node's page, HALT stops with the
   routes pending *)
Lemma prologue_run rs sep k nt ns pt ps l2 val out lang v :
  node_wf k nt ns pt ps l2 -> m_sep (vm_new_menu sep) = default_sep ->
  midrun (v_st v) -> getf (v_st v) FLAG_TERMINATE = false ->
  cache_get (v_ca v) k = Ok val -> cache_reserved (v_ca v) k = Ok 0 ->
  fresh_page sep (v_pg v) out ->
  forall fuel,
  out_of_fuel (run fuel rs sep lang (node_code k nt ns pt ps l2) v) \/
  exists pg lg, run fuel rs sep lang (node_code k nt ns pt ps l2) v
                = (mkVm (setf (v_st v) FLAG_WAIT) (v_ca v) pg (v_w v) lg (v_taint v), routes ns ps l2, SOk)
    /\ node_page pg k val out (walk_browse nt ns pt ps).
Proof.
  intros (Wk & Wnt & Wns & Wpt & Wps & Wl2) Hsep M Ht Hget Hres
         (Hmap & Hsink & Herr & Hextra & (z & Hz & Hzc & Hzs & Hzo) & Hmenu).
  unfold node_code, prologue. rewrite <- !app_assoc.
  pose (Q := fun h : hres => exists pg lg,
          h = (mkVm (setf (v_st v) FLAG_WAIT) (v_ca v) pg (v_w v) lg (v_taint v), routes ns ps l2, SOk)
          /\ node_page pg k val out (walk_browse nt ns pt ps)).
  apply (page_step Q (ILoad k 0) (fun pg => pg)); try assumption; try reflexivity;
    [exact (conj Wk (eq_refl : wf_num 0))|apply encode_app_ne| |].
  { cbv zeta. cbn [exec_instr]. rewrite (run_load_visible _ _ _ _ _ _ val) by exact Hget. destruct v; reflexivity. }
  apply (page_step Q (IMap k) (page_mapped k val)); try assumption; try reflexivity; [apply encode_app_ne| |].
  { cbv zeta. cbn [exec_instr]. unfold run_map. rewrite (page_map_sink _ _ k val) by assumption. reflexivity. }
  cbn [v_st v_ca v_pg v_w v_log v_taint].
  apply (page_step Q (IMNext nt ns) (upd_menu (with_browse_next nt ns))); try assumption; try reflexivity;
    [exact (conj Wnt Wns)|apply encode_app_ne|].
  cbn [v_st v_ca v_pg v_w v_log v_taint].
  apply (page_step Q (IMPrev pt ps) (upd_menu (with_browse_prev pt ps))); try assumption; try reflexivity;
    [exact (conj Wpt Wps)|apply encode_app_ne|].
  cbn [v_st v_ca v_pg v_w v_log v_taint].
  intros [|fuel]; [left; reflexivity|right]. rewrite halt_step by assumption.
  eexists _, _. split; [reflexivity|]. cbn [v_pg].
  unfold upd_menu, page_mapped. cbn [p_menu]. rewrite Hmenu. unfold node_page.
  cbn [p_menu p_map p_sink p_sizer p_err p_extra]. rewrite Hmap, Hz, Herr, Hextra.
  split; [reflexivity|]. split; [reflexivity|]. split; [reflexivity|]. split.
  - exists (sizer_set z k 0). split; [reflexivity|]. cbn [sizer_set z_crsrs z_sink z_out N.eqb]. repeat split; assumption.
  - eexists. split; [reflexivity|]. unfold vm_new_menu, new_menu in *. cbn in Hsep |- *. repeat split. exact Hsep.
Qed.

Lemma upd_menu_fields f pg :
  p_map (upd_menu f pg) = p_map pg /\ p_sink (upd_menu f pg) = p_sink pg /\ p_err (upd_menu f pg) = p_err pg
  /\ p_extra (upd_menu f pg) = p_extra pg /\ p_sizer (upd_menu f pg) = p_sizer pg.
Proof. unfold upd_menu. destruct (p_menu pg); repeat split. Qed.

Lemma fresh_after_resume sep pg z :
  p_sizer pg = Some z -> fresh_page sep (vm_reset sep (reset_page pg)) (z_out z).
Proof.
  intros Hz. unfold vm_reset, page_with_menu, reset_page.
  destruct (upd_menu_fields menu_reset (page_reset (page_with_error pg None))) as (_ & _ & U3 & _ & U5).
  unfold fresh_page. cbn [p_map p_sink p_err p_extra p_sizer p_menu page_set_menu page_reset].
  rewrite U3, U5. cbn [p_sizer p_err page_reset page_with_error]. rewrite Hz.
  repeat split. eexists. repeat split.
Qed.

(* the machine waiting at page j of the node *)
Definition at_page (nd k val : bytes) (out j : N) (v : vmst) : Prop :=
  s_path (v_st v) <> [] /\ where_sym (v_st v) = nd /\ s_idx (v_st v) = j
  /\ flags_ok (v_st v) /\ getf (v_st v) FLAG_TERMINATE = false /\ getf (v_st v) FLAG_WAIT = true
  /\ cache_get (v_ca v) k = Ok val /\ cache_reserved (v_ca v) k = Ok 0
  /\ (exists z, p_sizer (v_pg v) = Some z /\ z_out z = out).

(* the run of the pending routes on the input: the machine waits again, at page j' of the same node, on
   the node's page *)
Definition walks_to (rs : rsrc) (sep nd k nt ns pt ps : bytes) (l2 : list (bytes * bytes)) (val : bytes) (out j' : N)
  (input : bytes) (fuel : nat) (lang : option bytes) (v : vmst) : Prop :=
  out_of_fuel (run fuel rs sep lang (routes ns ps l2) v) \/
  exists vH, run fuel rs sep lang (routes ns ps l2) v = (vH, routes ns ps l2, SOk)
    /\ at_page nd k val out j' vH
    /\ node_page (v_pg vH) k val out (walk_browse nt ns pt ps)
    /\ getf (v_st vH) FLAG_DIRTY = true
    /\ s_path (v_st vH) = s_path (v_st v) /\ s_input (v_st vH) = Some input /\ s_lang (v_st vH) = s_lang (v_st v)
    /\ s_code (v_st vH) = s_code (v_st v) /\ s_bitsize (v_st vH) = s_bitsize (v_st v)
    /\ v_ca vH = v_ca v /\ v_w vH = v_w v /\ v_taint vH = v_taint v.

Lemma walk_move_run {rs sep nd k nt ns pt ps l2 val out} j {j'} input l1 d s l2r {fuel lang v} :
  node_wf k nt ns pt ps l2 -> m_sep (vm_new_menu sep) = default_sep ->
  rs_code rs nd = Ok (node_code k nt ns pt ps l2) ->
  routes ns ps l2 = incmp_block (l1 ++ (d, s) :: l2r) ->
  wf_block l1 -> wf_sym d -> wf_sym s -> wf_block l2r ->
  no_match input l1 = true -> sel_match input s = true -> distinct_after l2r input = true ->
  (forall st ca, s_path st = s_path (v_st v) -> s_idx st = j ->
     apply_target d st ca = (set_path_idx st (s_path st) j', ca, where_sym st, SOk)) ->
  at_page nd k val out j v -> s_input (v_st v) = Some input ->
  walks_to rs sep nd k nt ns pt ps l2 val out j' input fuel lang v.
Proof.
  intros Hwf Hsep Hcode Hroutes Wl1 Wd Ws Wl2r Hnm Hsm Hdist Happ
         (Hpath & Hwhere & Hidx & Hf & Ht & Hw & Hget & Hres & (z & Hz & Hzo)) Hin.
  pose proof (resume_is_start input v Ht Hin Hw Hf) as Hs.
  (* vI: the machine the handler of the firing line is entered with; stM: the state applyTarget is called on *)
  destruct (at_match_facts lang v l1 input Hs) as (Ap & Aca & _ & _ & Af & _ & B1 & B2 & B3 & B4 & B5 & B6).
  set (vI := snd (at_match lang v l1)) in *.
  pose proof (match_st_flags_ok _ Af) as M6. rewrite <- (match_st_pos (v_st vI)) in Ap.
  set (stM := match_st (v_st vI)) in *.
  destruct (pos_path_idx _ _ Ap) as [Hpp Hpi].
  pose proof (Happ stM (v_ca vI) Hpp (eq_trans Hpi Hidx)) as Ha.
  rewrite (pos_where _ _ Ap), Hwhere in Ha.
  set (st' := set_path_idx stM (s_path stM) j') in *.
  (* the move is made, the remaining lines are passed over, the node's code is fetched *)
  destruct (at_most_one_move_partial_lemma fuel rs sep lang input l1 d s l2r [] v st' (v_ca vI) nd _
              Hs Wl1 Wd Ws Wl2r Hnm Hsm Hdist Ha Hcode) as (Hrun & _).
  rewrite app_nil_r, <- Hroutes in Hrun. cbn [List.app] in Hrun. fold vI in Hrun.
  destruct Hrun as [Hrun|(f' & _ & Hrun)]; [left; exact Hrun|]. unfold walks_to.
  rewrite Hrun, run_post_ok_nonempty by (unfold node_code, prologue; rewrite <- app_assoc; apply encode_app_ne). clear Hrun.
  destruct (fired_eq rs sep lang input l1 d s l2r v st' (v_ca vI) nd Hs _ _ eq_refl) as (El & (SM & ST & SI) & _).
  fold vI in El. rewrite El, Aca. cbn [fst snd]. clear El.
  (* and run again on the page reset twice: when execution resumed, and by the move *)
  assert (Hfr : fresh_page sep (vm_reset sep (v_pg (loop_pre v))) out)
    by (rewrite prelude_pg, Hw, <- Hzo; apply fresh_after_resume, Hz).
  match goal with |- context [run f' rs sep ?L _ ?u] =>
    destruct (prologue_run rs sep k nt ns pt ps l2 val out L u Hwf Hsep SM ST Hget Hres Hfr f') as [Hp|(pg & lg & Hp & NH)] end;
    [left; exact Hp|].
  right. eexists. split; [exact Hp|]. cbn [v_st v_ca v_pg v_w v_taint].
  (* the state is st' with WAIT set; st' is stM at index j', and stM differs from v's state in flags only *)
  pose proof NH as (_ & _ & _ & (z1 & N4 & _ & _ & N7) & _). destruct SM as (_ & _ & SD).
  split; [|split; [exact NH|]].
  - unfold at_page, where_sym. cbn [v_st v_ca v_pg]. rewrite getf_setf_other by discriminate.
    rewrite (getf_setf_builtin st' FLAG_WAIT M6) by reflexivity.
    change (s_path (setf st' FLAG_WAIT)) with (s_path stM). rewrite Hpp.
    split; [exact Hpath|]. split; [exact Hwhere|]. split; [reflexivity|]. split; [exact (flags_ok_setf st' _ M6)|].
    split; [exact ST|]. split; [reflexivity|]. split; [exact Hget|]. split; [exact Hres|]. eauto.
  - split; [rewrite getf_setf_other by discriminate; exact SD|]. split; [exact Hpp|]. split; [exact SI|].
    split; [symmetry; exact B5|]. split; [symmetry; exact B1|]. split; [symmetry; exact B3|]. auto.
Qed.

(* the guards on the selectors: next and previous differ, next is not the wildcard, no other route
   repeats either of them *)
Definition sel_ok (ns ps : bytes) (l2 : list (bytes * bytes)) : Prop :=
  bytes_eqb ps ns = false /\ bytes_eqb ns ps = false /\ bytes_eqb ns star = false
  /\ distinct_after l2 ns = true /\ distinct_after l2 ps = true.

Lemma sel_match_self s : sel_match s s = true.
Proof. unfold sel_match. rewrite bytes_eqb_refl. reflexivity. Qed.

(* on the input ps the line "> ns" is passed without a match: "< ps" is the first line that matches *)
Lemma prev_is_second {k nt ns pt ps l2} :
  node_wf k nt ns pt ps l2 -> sel_ok ns ps l2 -> wf_block [(t_next, ns)] /\ no_match ps [(t_next, ns)] = true.
Proof.
  intros (_ & _ & Wns & _) (_ & S2 & S3 & _). split; [constructor; [exact (conj wf_sym_next Wns)|constructor]|].
  unfold no_match, sel_match. cbn [forallb snd]. rewrite S2, S3. reflexivity.
Qed.

(* the two lateral moves of the walk: from page j, the input leads to page j' *)
Inductive lateral (ns ps : bytes) (j : N) : bytes -> N -> Prop :=
| lat_next : lateral ns ps j ns (w16 (j + 1))
| lat_prev : j <> 0 -> lateral ns ps j ps (j - 1).

Lemma walk_lateral_run {rs sep nd k nt ns pt ps l2 val out j j' input} fuel lang v :
  node_wf k nt ns pt ps l2 -> m_sep (vm_new_menu sep) = default_sep ->
  rs_code rs nd = Ok (node_code k nt ns pt ps l2) -> sel_ok ns ps l2 ->
  lateral ns ps j input j' ->
  at_page nd k val out j v -> s_input (v_st v) = Some input ->
  walks_to rs sep nd k nt ns pt ps l2 val out j' input fuel lang v.
Proof.
  intros Hwf Hsep Hcode Hsel Hlat Hat Hin.
  pose proof Hwf as (_ & _ & _ & _ & Wps & Wl2). pose proof Hat as (Hpath & _ & Hidx & _).
  destruct Hlat as [|Hj].
  - (* ">" is the first line *)
    destruct Hsel as (S1 & _ & _ & S4 & _).
    apply (walk_move_run j ns [] t_next ns ((t_prev, ps) :: l2));
      try assumption; try reflexivity.
    + constructor.
    + exact wf_sym_next.
    + apply Hwf.
    + constructor; [exact (conj wf_sym_prev Wps)|exact Wl2].
    + apply sel_match_self.
    + unfold distinct_after. cbn [forallb snd]. rewrite S1. exact S4.
    + intros st ca Hp Hi. rewrite <- Hi. apply next_never_fails. rewrite Hp. exact Hpath.
  - (* "<" is the second line *)
    destruct (prev_is_second Hwf Hsel) as [Wn Hnm].
    apply (walk_move_run j ps [(t_next, ns)] t_prev ps l2);
      try assumption; try reflexivity.
    + exact wf_sym_prev.
    + apply sel_match_self.
    + apply Hsel.
    + intros st ca Hp Hi. rewrite <- Hi. apply apply_prev_ok; [rewrite Hp; exact Hpath|rewrite Hi; exact Hj].
Qed.

Lemma page_render_sizer c gt gm pg sym idx z :
  p_sizer pg = Some z ->
  exists z', p_sizer (snd (page_render c gt gm pg sym idx)) = Some z' /\ z_out z' = z_out z.
Proof.
  intros Hz. pose proof (SizeProofs.page_render_out c gt gm pg sym idx) as H.
  unfold page_out in H. rewrite Hz in H.
  destruct (p_sizer (snd (page_render c gt gm pg sym idx))) as [z'|]; [|discriminate].
  exists z'. split; [reflexivity|]. cbn [option_map] in H. congruence.
Qed.

(* the engine between two requests of the walk *)
Definition steady (c : config) (nd k val : bytes) (code : bytes) (ca : cache) (j : N) (e : engine) : Prop :=
  e_initd e = true /\ e_execd e = true /\ e_exiting e = false /\ e_exit e = []
  /\ s_code (v_st (e_v e)) = code /\ getf (v_st (e_v e)) FLAG_DIRTY = false
  /\ v_ca (e_v e) = ca /\ at_page nd k val (c_out c) j (e_v e).

(* the application around the node, and the guards of the page-level lift *)
Definition walk_app (rs : rsrc) (c : config) (nd k nt ns pt ps : bytes) (l2 : list (bytes * bytes))
  (val : bytes) (ca : cache) (src : bytes) (a b : list tpl_item) (xa xb : bytes) : Prop :=
  node_wf k nt ns pt ps l2 /\ m_sep (vm_new_menu (c_sep c)) = default_sep
  /\ rs_code rs nd = Ok (node_code k nt ns pt ps l2) /\ sel_ok ns ps l2 /\ nd <> []
  /\ valid_input_b ns = true /\ valid_input_b ps = true
  /\ (forall L, page_ok ca (rs_tpl rs L) (rs_menu rs L) nd k val (c_out c) (walk_browse nt ns pt ps) src a b xa xb).

(* the machine Exec runs the pending code on: at_page speaks of neither the input nor the code *)
Lemma at_page_exec nd k val out j v input :
  at_page nd k val out j v ->
  at_page nd k val out j (vset_st (vset_st v (set_input_raw (v_st v) (Some input)))
                            (set_code (v_st (vset_st v (set_input_raw (v_st v) (Some input)))) [])).
Proof. intros H. exact H. Qed.

(* one lateral request of the walk, given what Page.Render answers for index j' on the node's page (node_render
   says what, for every index): Exec runs the routes to the next HALT, Flush renders page j' *)
Lemma engine_lateral_step {fuel rs c e nd k nt ns pt ps l2 val ca src a b xa xb j j' input} (res : res bytes) :
  walk_app rs c nd k nt ns pt ps l2 val ca src a b xa xb ->
  steady c nd k val (routes ns ps l2) ca j e ->
  lateral ns ps j input j' ->
  (forall gt gm pg, page_ok ca gt gm nd k val (c_out c) (walk_browse nt ns pt ps) src a b xa xb ->
     node_page pg k val (c_out c) (walk_browse nt ns pt ps) ->
     exists pg', page_render ca gt gm pg nd j' = (res, pg')) ->
  res <> Err EBrowse -> (forall m, res <> Panic m) ->
  r_exec (snd (request_long fuel rs c e input)) = SFuel \/
  (snd (request_long fuel rs c e input)
     = mkResp true SOk (match res with Ok o => o | _ => [] end) (match res with Err er => FErr er | _ => FOk end)
   /\ steady c nd k val (routes ns ps l2) ca j' (fst (request_long fuel rs c e input))
   /\ s_path (v_st (e_v (fst (request_long fuel rs c e input)))) = s_path (v_st (e_v e))
   /\ v_w (e_v (fst (request_long fuel rs c e input))) = v_w (e_v e)).
Proof.
  intros (Hwf & Hsep & Hcode & Hsel & Hnd & Hvns & Hvps & Hpo) Hst Hlat Hrender Hnb Hnp.
  pose proof Hst as (Hi & Hx & Hexi & Hex & Hc & Hd & Hca & Hat).
  assert (Hin : 0 < len input /\ len input <= INPUT_LIMIT /\ valid_input_b input = true).
  { destruct Hwf as (_ & _ & (_ & Wns) & _ & (_ & Wps) & _). unfold INPUT_LIMIT. destruct Hlat; repeat split; first [assumption | clear - Wns Wps; lia]. }
  destruct Hin as (Hl0 & Hl & Hvin).
  pose proof (routes_ne ns ps l2) as Hrne.
  unfold request_long. rewrite EngineProofs.eng_exec_delivered;
    [|exact Hi|right; auto|unfold EngineProofs.refused_bool; rewrite Hvin, (proj2 (N.ltb_ge _ _) Hl), Bool.andb_false_r; reflexivity
     |left; rewrite (proj2 (N.eqb_neq _ 0) (N.neq_sym _ _ (N.lt_neq _ _ Hl0))); apply Bool.andb_false_r].
  set (v0 := vset_st (e_v e) (set_input_raw (v_st (e_v e)) (Some input))).
  set (e1 := mkEng v0 true [] false false).
  rewrite EngineProofs.eng_exec_inner_run by (change (s_code (v_st (e_v e)) <> []); rewrite Hc; exact Hrne).
  change (s_code (v_st (e_v e1))) with (s_code (v_st (e_v e))). rewrite Hc.
  destruct (walk_lateral_run fuel (s_lang (v_st (e_v e1))) (vset_st (e_v e1) (set_code (v_st (e_v e1)) []))
              Hwf Hsep Hcode Hsel Hlat (at_page_exec nd k val (c_out c) j (e_v e) input Hat) eq_refl)
    as [Hfu|(vH & Hrun & AtH & NpH & DH & PH & _ & _ & _ & _ & CaH & WH & _)].
  - left. unfold out_of_fuel in Hfu. destruct (run _ _ _ _ _ _) as [[v1 b1] s1]. cbn [snd] in Hfu. subst s1. reflexivity.
  - right.
    pose proof AtH as (PaH & WhH & IdH & FH & TmH & WaH & GH & RH & (zH & ZH & ZoH)).
    rewrite Hrun. cbv beta iota zeta. rewrite TmH, EngineProofs.set_code_eng_cons by exact Hrne.
    unfold eset_v. cbn [e_v e_initd e_exit e_exiting e_execd e1].
    set (v2 := vset_st vH (set_code (v_st vH) (routes ns ps l2))).
    set (e2 := mkEng v2 true [] false true).
    (* Flush: the page *)
    set (L := s_lang (v_st (e_v e2))).
    assert (Hcav : v_ca v2 = ca) by (change (v_ca v2) with (v_ca vH); rewrite CaH; exact Hca).
    destruct (Hrender _ _ (v_pg v2) (Hpo L) NpH) as [pg' Hpr]. rewrite <- Hcav in Hpr.
    change (s_idx (v_st vH)) with (s_idx (v_st v2)) in IdH. rewrite <- IdH in Hpr.
    pose proof (EngineProofs.vm_render_waiting fuel rs (c_sep c) L v2 nd _ pg' DH WhH Hnd Hpr Hnb) as Hvr.
    rewrite EngineProofs.eng_flush_plain by reflexivity. fold L. change (e_v e2) with v2. rewrite Hvr. cbn [snd fst].
    split; [destruct res as [o|er|m]; [reflexivity..|destruct (Hnp m eq_refl)]|]. split; [|split; [exact PH|exact WH]].
    unfold steady, at_page. cbn [e_initd e_execd e_exiting e_exit e_v eset_v e2 v_st v_ca v_pg vlog vset_pg vset_st].
    rewrite getf_resetf_same, !getf_resetf_other by discriminate.
    repeat split; try assumption; [apply flags_ok_resetf; exact FH|].
    destruct (page_render_sizer (v_ca v2) (rs_tpl rs L) (rs_menu rs L) (v_pg v2) nd (s_idx (v_st v2)) zH ZH) as (z' & Hz' & Ho').
    rewrite Hpr in Hz'. exists z'. split; [exact Hz'|congruence].
Qed.

Lemma lat_next_small ns ps j : j + 1 < 65536 -> lateral ns ps j ns (j + 1).
Proof. intros H. rewrite <- (w16_small _ H). constructor. Qed.

Fixpoint nexts (m : nat) (fuel : nat) (rs : rsrc) (c : config) (e : engine) (ns : bytes) : engine * list response :=
  match m with
  | O => (e, [])
  | S m' =>
    let '(e1, r1) := request_long fuel rs c e ns in
    let '(e2, rl) := nexts m' fuel rs c e1 ns in
    (e2, r1 :: rl)
  end.

Lemma nexts_S m fuel rs c e ns :
  nexts (S m) fuel rs c e ns
  = (fst (nexts m fuel rs c (fst (request_long fuel rs c e ns)) ns),
     snd (request_long fuel rs c e ns) :: snd (nexts m fuel rs c (fst (request_long fuel rs c e ns)) ns)).
Proof.
  cbn [nexts]. destruct (request_long fuel rs c e ns) as [e1 r1]. cbn [fst snd].
  destruct (nexts m fuel rs c e1 ns). reflexivity.
Qed.

Definition page_resp (xa xb : bytes) (br : browse) (n : N) (pages : list (list bytes)) (i : N) : response :=
  mkResp true SOk (page_text xa xb br n i (nth (N.to_nat i) pages [])) FOk.

(* Fixtures of props/C02walk.v (C02walk_nonvacuous).  ex_app and ex_cfg hide RoutingProofs' fixtures of the same
   names in a file that imports both. *)
Definition ex_val : bytes :=
  s2b "aaaa" ++ [nl] ++ s2b "bbbb" ++ [nl] ++ s2b "cccc" ++ [nl] ++ s2b "dddd" ++ [nl] ++ s2b "eeee" ++ [nl] ++ s2b "ffff".
Definition ex_src : bytes := s2b "T" ++ [nl] ++ s2b "{{.foo}}".
Definition ex_code : bytes := node_code (s2b "foo") (s2b "next") (s2b "11") (s2b "back") (s2b "22") [].
Definition ex_app : VmModel.app :=
  mkApp [(s2b "root", ex_code)] [(s2b "root", ex_src)] [] [(s2b "foo", [mkFres ex_val false 0 [] [] false])].
Definition ex_cfg : config := mkCfg 26 (s2b "root") 0 0 [] [] false None.
Definition ex_rs : rsrc := app_rsrc ex_app.
(* the engine after the request that enters the node (page 0) *)
Definition ex_e0 : engine := fst (request_long 100 ex_rs ex_cfg (new_engine ex_cfg None [] []) []).
Definition ex_ca : cache := v_ca (e_v ex_e0).
Definition ex_br : browse := walk_browse (s2b "next") (s2b "11") (s2b "back") (s2b "22").

Lemma ex_walk_app :
  walk_app ex_rs ex_cfg (s2b "root") (s2b "foo") (s2b "next") (s2b "11") (s2b "back") (s2b "22") []
           ex_val ex_ca ex_src [TLit (s2b "T" ++ [nl])] [] (s2b "T" ++ [nl]) [].
Proof.
  unfold walk_app.
  (* node_wf; the separator, the code served, sel_ok, nd <> []; both selectors are valid input *)
  split; [repeat split; try (apply wf_symb_true; reflexivity); constructor|].
  split; [reflexivity|]. split; [reflexivity|]. split; [repeat split|]. split; [discriminate|].
  split; [reflexivity|]. split; [reflexivity|].
  (* page_ok, in the order of its definition: the symbol and the output size *)
  intros L. unfold page_ok.
  split; [discriminate|]. split; [reflexivity|]. split; [reflexivity|]. split; [reflexivity|].
  (* the template: no lookup panics, the node's source whatever the language, its parse *)
  split.
  { intros x. unfold ex_rs, app_rsrc. cbn [rs_tpl]. destruct (lookup_lang (a_tpl ex_app) x L); reflexivity. }
  split.
  { destruct L as [l|]; vm_compute; reflexivity. }
  split; [reflexivity|]. split; [reflexivity|]. split; [reflexivity|].
  split; [intros w _; split; reflexivity|].
  (* the browse labels: available, resolving to themselves *)
  split; [reflexivity|]. split; [reflexivity|].
  split; [destruct L as [l|]; reflexivity|]. split; [destruct L as [l|]; reflexivity|].
  (* the static text fits; the rows and the budget *)
  split; [vm_compute; discriminate|].
  split; [reflexivity|]. split; [reflexivity|]. split; [reflexivity|]. reflexivity.
Qed.
