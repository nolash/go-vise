(* Why the correspondence may judge a LARGE disassembler case (CDisasmEnc) without
   evaluating the decoder model: for the encoding of a well-formed, non-empty program the model's
   answer is given by the round-trip theorem of C14. *)
From Vise Require Import Bytes Errors Consts Codec BytesProofs CodecProofs CorrBase CodecCorr.
From Coq Require Import Bool.
Local Open Scope N_scope.

(* that the command's output was the listing print_prog p (checked by corr_ok unless the listing holds a '%')
   is not part of the conclusion *)
Theorem disasm_enc_by_theorem : forall p b ex out,
  corr_ok (CDisasmEnc p b ex out) = true ->
  b = encode_prog p /\ to_string b = Ok (print_prog p) /\ ex = 0.
Proof.
  intros p b ex out H. cbn [corr_ok] in H.
  (* the five conjuncts of corr_ok, from the right: the output, the exit status, b, p non-empty, p well-formed *)
  apply andb_true_iff in H as [H _]. apply andb_true_iff in H as [H Hex]. apply andb_true_iff in H as [H Hb].
  apply andb_true_iff in H as [Hwf Hne]. apply bytes_eqb_eq in Hb. subst b.
  split; [reflexivity|]. split; [|apply N.eqb_eq, Hex].
  apply disasm_lemma; [apply wf_progb_true, Hwf|]. destruct p; [discriminate Hne|discriminate].
Qed.
