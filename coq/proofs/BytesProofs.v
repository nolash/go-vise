(* Facts about what model/Bytes.v defines, for every other proof file: lists with their length in N
   (len, take, drop, nth_error against len), byte strings around a separator (join_with, split_on, index_of),
   bytes_eqb as equality, association lists keyed by byte strings (a lookup after aset or aremove,
   the keys after aset), the bind of outcomes, big-endian numbers (be, unbe), and the arithmetic modulo 2^8, 2^16
   and 2^32 (w8, w16, w32, sub32) where nothing wraps or the wrap cancels. *)
From Coq Require Import Lia ZArith.
From Coq Require Import ZifyN ZifyNat ZifyBool.
From Vise Require Import Bytes.
Local Open Scope N_scope.

Lemma len_app {A} (a b : list A) : len (a ++ b) = len a + len b.
Proof. unfold len. rewrite app_length. lia. Qed.

Lemma len_cons {A} (x : A) (l : list A) : len (x :: l) = 1 + len l.
Proof. unfold len. cbn [List.length]. lia. Qed.

Lemma len_nil {A} : len (@nil A) = 0.
Proof. reflexivity. Qed.

Lemma len_rep b n : len (rep b n) = n.
Proof.
  unfold len, rep. assert (H : forall k, List.length (repeat_b b k) = k) by (induction k; cbn; congruence).
  rewrite H. lia.
Qed.

Lemma take_app_exact {A} (a b : list A) n : n = len a -> take n (a ++ b) = a.
Proof.
  intros ->. unfold take, len. rewrite Nat2N.id.
  rewrite firstn_app, Nat.sub_diag, firstn_O, app_nil_r. apply firstn_all.
Qed.

Lemma drop_app_exact {A} (a b : list A) n : n = len a -> drop n (a ++ b) = b.
Proof.
  intros ->. unfold drop, len. rewrite Nat2N.id.
  rewrite skipn_app, Nat.sub_diag, skipn_O, skipn_all. reflexivity.
Qed.

Lemma take_app_le {A} (a c : list A) n : n <= len a -> take n (a ++ c) = take n a.
Proof.
  intros H. unfold take, len in *. rewrite firstn_app.
  replace (N.to_nat n - List.length a)%nat with O by lia. cbn [firstn]. apply app_nil_r.
Qed.
Lemma drop_app_le {A} (a c : list A) n : n <= len a -> drop n (a ++ c) = drop n a ++ c.
Proof.
  intros H. unfold drop, len in *. rewrite skipn_app.
  replace (N.to_nat n - List.length a)%nat with O by lia. reflexivity.
Qed.

Lemma drop_0 {A} (l : list A) : drop 0 l = l.
Proof. reflexivity. Qed.

Lemma drop_S {A} n (x : A) l : drop (1 + n) (x :: l) = drop n l.
Proof. unfold drop. replace (N.to_nat (1 + n)) with (S (N.to_nat n)) by lia. reflexivity. Qed.

Lemma len_take {A} (l : list A) n : n <= len l -> len (take n l) = n.
Proof. unfold len, take. intros H. rewrite firstn_length. lia. Qed.

Lemma len_drop {A} (l : list A) n : len (drop n l) = len l - n.
Proof. unfold len, drop. rewrite skipn_length. lia. Qed.

Lemma nth_error_below {A} (l : list A) i : i < len l -> exists p, nth_error l (N.to_nat i) = Some p.
Proof.
  intros H. destruct (nth_error l (N.to_nat i)) as [p|] eqn:E; [exists p; reflexivity|].
  apply nth_error_None in E. unfold len in H. lia.
Qed.

Lemma nth_error_snoc_cases {A} (l : list A) x i p :
  nth_error (l ++ [x]) i = Some p ->
  ((i < List.length l)%nat /\ nth_error l i = Some p) \/ (i = List.length l /\ p = x).
Proof.
  intros H. destruct (Nat.lt_ge_cases i (List.length l)) as [Hlt|Hge].
  - left. split; [exact Hlt|]. rewrite nth_error_app1 in H by exact Hlt. exact H.
  - right. rewrite nth_error_app2 in H by exact Hge.
    destruct (i - List.length l)%nat as [|k] eqn:E.
    + cbn in H. inversion H. split; [lia|reflexivity].
    + cbn in H. destruct k; discriminate.
Qed.

Lemma nth_error_firstn_skipn {A} (l : list A) i p :
  nth_error l i = Some p -> l = firstn i l ++ p :: skipn (S i) l.
Proof.
  revert i. induction l as [|x l IH]; intros [|i] H; cbn in H; try discriminate.
  - inversion H. reflexivity.
  - cbn [firstn skipn app]. f_equal. apply IH. exact H.
Qed.

Lemma nth_error_map_seq {B} (f : nat -> B) k n i : (i < n)%nat -> nth_error (map f (seq k n)) i = Some (f (k + i)%nat).
Proof.
  intros H. rewrite nth_error_map. rewrite nth_error_nth' with (d := 0%nat) by (rewrite seq_length; exact H).
  rewrite seq_nth by exact H. reflexivity.
Qed.

Lemma map_seq_nth {A} (f : nat -> A) (l : list A) k :
  (forall i p, nth_error l i = Some p -> f (k + i)%nat = p) -> map f (seq k (List.length l)) = l.
Proof.
  revert k. induction l as [|x l IH]; intros k H; [reflexivity|].
  cbn [List.length seq map]. f_equal.
  - specialize (H 0%nat x eq_refl). rewrite Nat.add_0_r in H. exact H.
  - apply IH. intros i p Hi. specialize (H (S i) p Hi). rewrite <- H. f_equal. lia.
Qed.

Lemma length_concat_ok {A} (pages : list (list A)) :
  Forall (fun p => p <> []) pages -> (List.length pages <= List.length (List.concat pages))%nat.
Proof.
  induction 1 as [|q pages Hq _ IH]; [reflexivity|]. cbn [List.concat List.length]. rewrite app_length.
  destruct q; [congruence|]. cbn [List.length]. lia.
Qed.

Lemma forallb_Forall {A} (f : A -> bool) l : forallb f l = true <-> Forall (fun x => f x = true) l.
Proof. rewrite forallb_forall, Forall_forall. reflexivity. Qed.

Lemma forallb_impl {A} (f g : A -> bool) l :
  (forall x, f x = true -> g x = true) -> forallb f l = true -> forallb g l = true.
Proof. rewrite !forallb_Forall. intros H. apply Forall_impl. exact H. Qed.

Lemma notin_cons (b x : N) a : ~ In b (x :: a) -> (x =? b) = false /\ ~ In b a.
Proof.
  intros H. split; [apply N.eqb_neq; intros ->; apply H; left; reflexivity|].
  intros Hin. apply H. right. exact Hin.
Qed.

Lemma existsb_eqb_In b (v : bytes) : existsb (fun x => x =? b) v = false -> ~ In b v.
Proof.
  intros H Hin. assert (existsb (fun x => x =? b) v = true); [|congruence].
  apply existsb_exists. exists b. split; [exact Hin|apply N.eqb_refl].
Qed.

Lemma join_with_cons2 sep (x y : bytes) l :
  join_with sep (x :: y :: l) = x ++ sep ++ join_with sep (y :: l).
Proof. reflexivity. Qed.

Lemma join_with_snoc sep (l : list bytes) v :
  l <> [] -> join_with sep (l ++ [v]) = join_with sep l ++ sep ++ v.
Proof.
  induction l as [|x l IH]; intros Hne; [congruence|].
  destruct l as [|y l].
  - reflexivity.
  - change ((x :: y :: l) ++ [v]) with (x :: y :: (l ++ [v])).
    rewrite join_with_cons2. change (y :: l ++ [v]) with ((y :: l) ++ [v]).
    rewrite IH by discriminate. rewrite join_with_cons2. rewrite <- !app_assoc. reflexivity.
Qed.

Lemma len_join_with_sep (s1 s2 : bytes) (l : list bytes) :
  len s1 = len s2 -> len (join_with s1 l) = len (join_with s2 l).
Proof.
  intros Hs. induction l as [|x l IH]; [reflexivity|]. destruct l as [|y l]; [reflexivity|].
  rewrite !join_with_cons2, !len_app, IH, Hs. reflexivity.
Qed.

Lemma In_join_with x sep (l : list bytes) :
  In x (join_with sep l) -> In x sep \/ exists v, In v l /\ In x v.
Proof.
  induction l as [|a l IH]; [intros []|].
  destruct l as [|b l].
  - cbn [join_with]. intros H. right. exists a. split; [left; reflexivity|exact H].
  - rewrite join_with_cons2. intros H. apply in_app_or in H as [H|H].
    + right. exists a. split; [left; reflexivity|exact H].
    + apply in_app_or in H as [H|H]; [left; exact H|].
      destruct (IH H) as [H1|[v [Hv Hx]]]; [left; exact H1|].
      right. exists v. split; [right; exact Hv|exact Hx].
Qed.

Lemma index_of_notin b (a : bytes) : ~ In b a -> index_of b a = None.
Proof.
  induction a as [|x a IH]; intros H; [reflexivity|]. apply notin_cons in H as [E H].
  cbn [index_of]. rewrite E, IH by exact H. reflexivity.
Qed.

Lemma index_of_app b (a rest : bytes) : ~ In b a -> index_of b (a ++ b :: rest) = Some (len a).
Proof.
  induction a as [|x a IH]; intros H; cbn [app index_of]; [rewrite N.eqb_refl; reflexivity|].
  apply notin_cons in H as [E H]. rewrite E, IH, len_cons by exact H. f_equal. lia.
Qed.

Lemma split_on_app_sep sep (a rest : bytes) :
  ~ In sep a -> split_on sep (a ++ sep :: rest) = a :: split_on sep rest.
Proof.
  induction a as [|x a IH]; intros H; cbn [app split_on]; [rewrite N.eqb_refl; reflexivity|].
  apply notin_cons in H as [E H]. rewrite E, IH by exact H. reflexivity.
Qed.

Lemma split_on_no_sep sep (a : bytes) : ~ In sep a -> split_on sep a = [a].
Proof.
  induction a as [|x a IH]; intros H; [reflexivity|]. apply notin_cons in H as [E H].
  cbn [split_on]. rewrite E, IH by exact H. reflexivity.
Qed.

Lemma split_on_nonempty sep l : split_on sep l <> [].
Proof.
  induction l as [|x l IH]; [discriminate|]. cbn [split_on]. destruct (x =? sep); [discriminate|].
  destruct (split_on sep l); [congruence|discriminate].
Qed.

Lemma bytes_eqb_refl a : bytes_eqb a a = true.
Proof. induction a as [|x a IH]; cbn; [reflexivity|]. rewrite N.eqb_refl, IH. reflexivity. Qed.

Lemma bytes_eqb_eq a b : bytes_eqb a b = true <-> a = b.
Proof.
  split.
  - revert b. induction a as [|x a IH]; intros [|y b]; cbn; try discriminate; [reflexivity|].
    intros H. apply andb_true_iff in H as [H1 H2]. apply N.eqb_eq in H1. subst. f_equal. auto.
  - intros ->. apply bytes_eqb_refl.
Qed.

Lemma bytes_eqb_spec a b : reflect (a = b) (bytes_eqb a b).
Proof. apply iff_reflect. symmetry. apply bytes_eqb_eq. Qed.

Lemma beqb_false a b : bytes_eqb a b = false -> a <> b.
Proof. destruct (bytes_eqb_spec a b); [discriminate|auto]. Qed.
Lemma bytes_eqb_neq a b : a <> b -> bytes_eqb a b = false.
Proof. destruct (bytes_eqb_spec a b); [contradiction|reflexivity]. Qed.
Lemma bytes_eqb_sym a b : bytes_eqb a b = bytes_eqb b a.
Proof.
  destruct (bytes_eqb_spec a b) as [->|H]; symmetry; [apply bytes_eqb_refl|apply bytes_eqb_neq; congruence].
Qed.

Lemma bytes_leb_refl a : bytes_leb a a = true.
Proof. induction a as [|x a IH]; cbn; [reflexivity|]. rewrite N.ltb_irrefl. exact IH. Qed.

Lemma alookup_app {V} k (a b : list (bytes * V)) :
  alookup k (a ++ b) = match alookup k a with Some v => Some v | None => alookup k b end.
Proof.
  induction a as [|[k' v'] a IH]; [reflexivity|]. cbn [alookup app]. destruct (bytes_eqb k k'); [reflexivity|exact IH].
Qed.

Lemma alookup_aset_same {V} k (v : V) f : alookup k (aset k v f) = Some v.
Proof.
  induction f as [|[k' v'] f IH]; cbn; [rewrite bytes_eqb_refl; reflexivity|].
  destruct (bytes_eqb k k') eqn:E; cbn; [rewrite bytes_eqb_refl; reflexivity|]. rewrite E. exact IH.
Qed.

Lemma alookup_aset_other {V} k k2 (v : V) f : k2 <> k -> alookup k2 (aset k v f) = alookup k2 f.
Proof.
  intros Hne. apply bytes_eqb_neq in Hne. induction f as [|[k' v'] f IH]; cbn; [rewrite Hne; reflexivity|].
  destruct (bytes_eqb_spec k k') as [<-|_]; cbn; [rewrite Hne; reflexivity|].
  destruct (bytes_eqb k2 k'); [reflexivity|exact IH].
Qed.

Lemma aset_aset {V} k (v w : V) f : aset k w (aset k v f) = aset k w f.
Proof.
  induction f as [|[k' v'] f IH]; cbn; [rewrite bytes_eqb_refl; reflexivity|].
  destruct (bytes_eqb k k') eqn:E; cbn; [rewrite bytes_eqb_refl; reflexivity|]. rewrite E, IH. reflexivity.
Qed.

Lemma aset_same {V} k (v : V) f : alookup k f = Some v -> aset k v f = f.
Proof.
  induction f as [|[k' v'] f IH]; cbn; [discriminate|].
  destruct (bytes_eqb_spec k k') as [<-|_]; intros H; [injection H as <-|rewrite IH by exact H]; reflexivity.
Qed.

Lemma alookup_aremove_same {V} k (f : list (bytes * V)) : alookup k (aremove k f) = None.
Proof.
  induction f as [|[k' v'] f IH]; cbn; [reflexivity|].
  destruct (bytes_eqb k k') eqn:E; [exact IH|]. cbn. rewrite E. exact IH.
Qed.

Lemma alookup_aremove_other {V} k k2 (f : list (bytes * V)) : k2 <> k -> alookup k2 (aremove k f) = alookup k2 f.
Proof.
  intros Hne. apply bytes_eqb_neq in Hne. induction f as [|[k' v'] f IH]; cbn; [reflexivity|].
  destruct (bytes_eqb_spec k k') as [<-|_]; cbn; [rewrite Hne; exact IH|].
  destruct (bytes_eqb k2 k'); [reflexivity|exact IH].
Qed.

Lemma alookup_in_pair {V} k (f : list (bytes * V)) v : alookup k f = Some v -> In (k, v) f.
Proof.
  induction f as [|[k' v'] f IH]; cbn; [discriminate|].
  destruct (bytes_eqb_spec k k') as [<-|_]; intros H; [injection H as <-; left; reflexivity|right; auto].
Qed.

Lemma alookup_in {V} k (f : list (bytes * V)) v : alookup k f = Some v -> In k (map fst f).
Proof. intros H. apply (in_map fst _ _ (alookup_in_pair k f v H)). Qed.

Lemma alookup_none {V} k (f : list (bytes * V)) : alookup k f = None <-> ~ In k (map fst f).
Proof.
  induction f as [|[k' v'] f IH]; cbn; [tauto|].
  destruct (bytes_eqb_spec k k') as [<-|Hne]; [split; [discriminate|tauto]|].
  rewrite IH. split; [intros H [H1|H1]; [congruence|auto]|auto].
Qed.

Lemma ahas_in {V} k (f : list (bytes * V)) : ahas k f = true <-> In k (map fst f).
Proof.
  unfold ahas. destruct (alookup k f) eqn:E.
  - apply alookup_in in E. tauto.
  - apply alookup_none in E. split; [discriminate|tauto].
Qed.

Lemma keys_aset {V} k (v : V) f :
  map fst (aset k v f) = if ahas k f then map fst f else map fst f ++ [k].
Proof.
  unfold ahas. induction f as [|[k' v'] f IH]; cbn; [reflexivity|].
  destruct (bytes_eqb_spec k k') as [<-|_]; [reflexivity|]. cbn. rewrite IH.
  destruct (alookup k f); reflexivity.
Qed.

Lemma NoDup_aset {V} k (v : V) l : NoDup (map fst l) -> NoDup (map fst (aset k v l)).
Proof.
  intros H. rewrite keys_aset. destruct (ahas k l) eqn:E; [exact H|].
  apply (NoDup_Add (Add_app k _ [])). rewrite app_nil_r. split; [exact H|]. rewrite <- ahas_in. congruence.
Qed.

Lemma obind_ok {E A B} (o : outcome E A) (f : A -> outcome E B) b :
  obind o f = Ok b -> exists a, o = Ok a /\ f a = Ok b.
Proof. destruct o; try discriminate. intros H. exists a. split; [reflexivity|exact H]. Qed.

Lemma obind_no_panic {E A B} (o : outcome E A) (f : A -> outcome E B) :
  is_panic o = false -> (forall a, is_panic (f a) = false) -> is_panic (obind o f) = false.
Proof. intros H Hf. destruct o; [apply Hf|reflexivity|discriminate]. Qed.

Lemma len_be k : forall n, len (be k n) = N.of_nat k.
Proof. induction k as [|k IH]; intros n; cbn [be]; [reflexivity|]. rewrite len_app, IH, len_cons, len_nil. lia. Qed.

Lemma be_bytes_ok k : forall n, Forall (fun x => x < 256) (be k n).
Proof.
  induction k as [|k IH]; intros n; cbn [be]; [constructor|].
  apply Forall_app. split; [apply IH|]. constructor; [|constructor].
  apply N.mod_lt. lia.
Qed.

Lemma fold_be k : forall n acc,
  fold_left (fun acc b => acc * 256 + b) (be k n) acc = acc * 256 ^ N.of_nat k + n mod 256 ^ N.of_nat k.
Proof.
  induction k as [|k IH]; intros n acc.
  - cbn. rewrite N.mod_1_r. lia.
  - cbn [be]. rewrite fold_left_app. cbn [fold_left]. rewrite IH.
    rewrite Nat2N.inj_succ, N.pow_succ_r'.
    set (p := 256 ^ N.of_nat k).
    assert (Hp : p <> 0) by (subst p; apply N.pow_nonzero; lia).
    rewrite (N.mod_mul_r n 256 p) by lia. lia.
Qed.

Lemma unbe_be k n : n < 256 ^ N.of_nat k -> unbe (be k n) = n.
Proof. intros H. unfold unbe. rewrite fold_be. rewrite N.mod_small by exact H. lia. Qed.

Lemma w8_small n : n <= 255 -> w8 n = n.
Proof. intros H. apply N.mod_small. lia. Qed.
Lemma w32_small x : x < 4294967296 -> w32 x = x.
Proof. apply N.mod_small. Qed.
Lemma w16_small x : x < 65536 -> w16 x = x.
Proof. apply N.mod_small. Qed.

Lemma w32_add a b : w32 (w32 a + w32 b) = w32 (a + b).
Proof. symmetry. apply N.add_mod. discriminate. Qed.

Lemma sub_mod m a b : m <> 0 -> b <= a -> (a mod m + m - b mod m) mod m = (a - b) mod m.
Proof.
  intros Hm Hba. pose proof (N.mod_lt b m Hm) as Hr. pose proof (N.div_mod b m Hm) as Hb.
  rewrite <- N.add_sub_assoc, N.add_mod_idemp_l by lia.
  replace (a + (m - b mod m)) with (a - b + (1 + b / m) * m) by nia.
  apply N.mod_add, Hm.
Qed.

Lemma sub32_w32 a b : b <= a -> sub32 (w32 a) (w32 b) = w32 (a - b).
Proof.
  intros H. unfold sub32, w32. rewrite N.mod_mod by discriminate. apply sub_mod; [discriminate|exact H].
Qed.

Lemma sub32_small a b : b <= a -> a < 4294967296 -> sub32 a b = a - b.
Proof. intros Hb Ha. unfold sub32. lia. Qed.
