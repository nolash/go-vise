(* The engine's functions as equations: Reset (reset_sc_eq), Flush (eng_flush_unfold, eng_flush_cases), then Init and Exec
   as chains of steps (then_ok, then_go; a case rule or an equation for each step; eng_init_steps, eng_exec_steps,
   eng_exec_inner_cases).  A request starts from one of two entry equations, Init on a `settled` engine (eng_init_settled)
   or on a new engine object without entry function (init_new_plain); then Exec is `exec_tail`, and the request is what
   follows Exec (`long_finish`) applied to it.  Then refused input on a long-lived engine (`refused`, `delivered`), and
   persisted operation: a request to a new engine around the stored session (request_persisted_long,
   request_persisted_fresh), stored sessions compared up to what Init does to them (norm_snap, pw_eqv).  Then histories
   (serve_long, serve_pers) and C17 over them (as_if_never_sent_pers, as_if_never_sent_long).  Last the boolean forms of
   the hypotheses, and the application, configurations and inputs of the concrete runs in props/C17.v and props/C07.v. *)
From Coq Require Import Lia.
From Vise Require Import Bytes Errors Consts EngConsts Codec CacheModel StateModel NavModel RenderModel VmModel EngineModel
  BytesProofs CodecProofs NavProofs VmProofs.
Local Open Scope N_scope.

Lemma eset_v_same : forall e, eset_v e (e_v e) = e.
Proof. destruct e; reflexivity. Qed.

Lemma encode_nonempty : forall i, encode i <> [].
Proof. intros i. destruct (encode_shape i) as [a [b [t H]]]. rewrite H. discriminate. Qed.

Lemma state_eta_input : forall s, set_input_raw s (s_input s) = s.
Proof. destruct s; reflexivity. Qed.

Lemma vm_render_clean : forall fuel rs sep lang v,
  getf (v_st v) FLAG_DIRTY = false -> vm_render fuel rs sep lang v = (v, RROk []).
Proof. intros fuel rs sep lang v H. unfold vm_render. rewrite H. reflexivity. Qed.

Lemma vm_render_waiting fuel rs sep L v nd r pg' :
  getf (v_st v) FLAG_DIRTY = true -> where_sym (v_st v) = nd -> nd <> [] ->
  page_render (v_ca v) (rs_tpl rs L) (rs_menu rs L) (v_pg v) nd (s_idx (v_st v)) = (r, pg') ->
  r <> Err EBrowse ->
  vm_render fuel rs sep L v
  = (vlog (vset_pg (vset_st v (resetf (v_st v) FLAG_DIRTY)) pg') (EvRender nd (s_idx (v_st v)) L), rres_of r).
Proof.
  intros Hd Hw Hn Hr Hb. unfold vm_render. rewrite Hd. cbn [negb].
  change (where_sym (v_st (vset_st v (resetf (v_st v) FLAG_DIRTY)))) with (where_sym (v_st v)). rewrite Hw.
  destruct nd as [|x t]; [congruence|].
  cbn [v_st v_ca v_pg vset_st]. change (s_idx (resetf (v_st v) FLAG_DIRTY)) with (s_idx (v_st v)).
  rewrite Hr. destruct r as [o|e|p]; try reflexivity. destruct e; try reflexivity. congruence.
Qed.

Lemma unwind_empty : forall fuel st ca, s_path st = [] -> unwind (S fuel) st ca = (st, ca, SErr EGen None).
Proof. intros fuel st ca H. cbn [unwind]. unfold st_top. rewrite H. reflexivity. Qed.

(* Engine.reset on state and cache alone (eng_reset_inner_sc), so that it can be stated and computed without a machine *)
Definition reset_sc (st0 : state) (ca0 : cache) : state * cache * stat :=
  let '(st, ca, s) := unwind (S (List.length (s_path st0))) st0 ca0 in
  match s with
  | SOk => let st := match st_restart st with Ok st' => st' | _ => st end in
           (resetf (resetf st FLAG_TERMINATE) FLAG_DIRTY, ca, SOk)
  | _ => (st, ca, s)
  end.

Lemma eng_reset_inner_sc : forall v,
  eng_reset_inner v = let '(st, ca, s) := reset_sc (v_st v) (v_ca v) in (vset_ca (vset_st v st) ca, s).
Proof.
  intros v. unfold eng_reset_inner, reset_sc.
  destruct (unwind _ (v_st v) (v_ca v)) as [[st ca] s]. destruct s; reflexivity.
Qed.

(* the left side is one Pop as unwind writes it: a Pop that fails leaves the cache as it is *)
Lemma pops_step : forall k ca, pops k (match cache_pop ca with Ok c => c | _ => ca end) = pops (S k) ca.
Proof.
  intros k ca. cbn [pops]. destruct (cache_pop ca) eqn:E; [reflexivity|destruct k; cbn [pops]; rewrite ?E; reflexivity..].
Qed.

Lemma unwind_all : forall fuel st ca, s_path st <> [] -> (List.length (s_path st) <= fuel)%nat ->
  unwind fuel st ca = (set_path_idx st [] 0, pops (List.length (s_path st)) ca, SOk).
Proof.
  induction fuel as [|f IH]; intros st ca Hp Hl.
  - destruct (s_path st); [congruence|cbn [List.length] in Hl; lia].
  - cbn [unwind]. unfold st_top, st_up. destruct (s_path st) as [|a [|b r]] eqn:Ep; [congruence| |].
    + cbn [removelast List.length]. rewrite <- pops_step. reflexivity.
    + pose proof (length_removelast (a :: b :: r) ltac:(discriminate)) as Hlr.
      rewrite IH; cbn [s_path set_path_idx]; [|cbn [removelast]; destruct r; discriminate|lia].
      rewrite pops_step, Hlr. reflexivity.
Qed.

(* After the unwinding the position is empty, so the Restart that follows fails and is skipped: of the state only the
   position, TERMINATE and DIRTY change (reset_sc_eq). *)
Definition reset_state (st : state) : state :=
  resetf (resetf (set_path_idx st [] 0) FLAG_TERMINATE) FLAG_DIRTY.

Lemma getf_reset_state : forall st i, i <> FLAG_TERMINATE -> i <> FLAG_DIRTY -> getf (reset_state st) i = getf st i.
Proof. intros st i H1 H2. unfold reset_state. rewrite !getf_resetf_other by assumption. reflexivity. Qed.
Lemma getf_reset_state_term : forall st, getf (reset_state st) FLAG_TERMINATE = false.
Proof. intros st. unfold reset_state. rewrite getf_resetf_other by discriminate. apply getf_resetf_same. Qed.

Lemma reset_sc_eq : forall s ca,
  reset_sc s ca =
  match s_path s with
  | [] => (s, ca, SErr EGen None)
  | p => (reset_state s, pops (List.length p) ca, SOk)
  end.
Proof.
  intros s ca. unfold reset_sc. destruct (s_path s) as [|a p] eqn:Ep; [rewrite unwind_empty by exact Ep; reflexivity|].
  rewrite <- Ep, unwind_all by (rewrite Ep; try discriminate; lia). reflexivity.
Qed.

Lemma eng_reset_inner_eq : forall v, s_path (v_st v) <> [] ->
  eng_reset_inner v = (vset_ca (vset_st v (reset_state (v_st v))) (pops (List.length (s_path (v_st v))) (v_ca v)), SOk).
Proof. intros v Hp. rewrite eng_reset_inner_sc, reset_sc_eq. destruct (s_path (v_st v)); [contradiction|reflexivity]. Qed.

Lemma resetf_input : forall s x f, resetf (set_input_raw s x) f = set_input_raw (resetf s f) x.
Proof. reflexivity. Qed.

(* the engine Reset(force) leaves; it never fails (eng_reset_force_eq) *)
Definition forced (c : config) (e : engine) : engine :=
  match s_path (v_st (e_v e)) with
  | [] => e
  | p => eset_v e (vset_ca (vset_st (e_v e) (reset_state (set_code (v_st (e_v e)) (encode (IMove (cfg_root c))))))
                           (pops (List.length p) (v_ca (e_v e))))
  end.

Lemma eng_reset_force_eq : forall c e, eng_reset_force c e = (forced c e, SOk).
Proof.
  intros c e. unfold eng_reset_force, forced. destruct (s_path (v_st (e_v e))) as [|a p] eqn:Ep; [reflexivity|].
  rewrite eng_reset_inner_sc, reset_sc_eq. cbn [v_st v_ca vset_st s_path set_code]. rewrite Ep. reflexivity.
Qed.

(* the exit value alone is larger than the output size.  `+ 0` is the length of the empty page
   (nothing was rendered): spelt as `eng_flush` spells its size check, so that unfolding Flush yields
   this term and not merely an equal one. *)
Definition exit_over (c : config) (x : bytes) : bool :=
  (0 <? c_out c) && (0 <? len x) && (c_out c <? w32 (len x + 0)).

Lemma exit_over_nil : forall c, exit_over c [] = false.
Proof. intros c. unfold exit_over. change (len (@nil N)) with 0. rewrite N.ltb_irrefl, andb_false_r. reflexivity. Qed.

Lemma eng_flush_settled : forall fuel rs c e,
  e_execd e = true -> getf (v_st (e_v e)) FLAG_DIRTY = false -> e_exiting e = false ->
  eng_flush fuel rs c e = if exit_over c (e_exit e) then (e, [], FErr EGen) else (e, e_exit e, FOk).
Proof.
  intros fuel rs c e Hx Hd Hq. destruct e as [v i x q d]. cbn [e_execd e_v e_exiting e_exit] in *. subst.
  unfold eng_flush. cbn [e_execd negb e_v]. rewrite vm_render_clean by exact Hd.
  cbn [eset_v e_exit e_exiting e_v e_initd e_execd]. unfold exit_over. change (len (@nil N)) with 0.
  destruct ((0 <? c_out c) && (0 <? len x) && (c_out c <? w32 (len x + 0))); [reflexivity|].
  destruct x; reflexivity.
Qed.

Lemma eng_flush_idle : forall fuel rs c e,
  e_execd e = true -> getf (v_st (e_v e)) FLAG_DIRTY = false -> e_exiting e = false -> e_exit e = [] ->
  eng_flush fuel rs c e = (e, [], FOk).
Proof.
  intros fuel rs c e Hx Hd Hq He. rewrite eng_flush_settled by assumption.
  rewrite He, exit_over_nil. reflexivity.
Qed.

(* Flush = render, then the part after the render.  `flush_tail`, and below `long_finish`, repeat the
   bodies of `eng_flush` and `request_long` of EngineModel.v from that point on; the equations tying
   them to the model hold by `reflexivity`, so a change to one of these model functions needs the
   same change here. *)
Definition flush_tail (c : config) (e : engine) (r : rres) : engine * bytes * fstat :=
  match r with
  | RRPanic n => (e, [], FPanic n)
  | RRFuel => (e, [], FFuel)
  | _ =>
    let rlen := match r with RROk out => len out | _ => 0 end in
    if (0 <? c_out c) && (0 <? len (e_exit e)) && (c_out c <? w32 (len (e_exit e) + rlen)) then
      if e_exiting e then
        let '(v', _) := eng_reset_inner (e_v e) in
        (mkEng v' (e_initd e) (e_exit e) false (e_execd e), [], FErr EGen)
      else (e, [], FErr EGen)
    else
    match r, e_exit e with
    | RRErr er, [] => (e, [], FErr er)
    | _, _ =>
      let out := (match r with RROk o => o | _ => [] end) ++ e_exit e in
      if e_exiting e then
        let '(v', s) := eng_reset_inner (e_v e) in
        let e' := mkEng v' (e_initd e) (e_exit e) false (e_execd e) in
        match s with
        | SOk => (e', out, FOk)
        | SErr er _ => (e', out, FErr er)
        | SPanic n => (e', out, FPanic n)
        | SFuel => (e', out, FFuel)
        end
      else (e, out, match r with RRErr er => FErr er | _ => FOk end)
    end
  end.

Lemma eng_flush_unfold : forall fuel rs c e,
  eng_flush fuel rs c e =
  if negb (e_execd e) then (e, [], FErr EFlushNoExec) else
  let '(v, r) := vm_render fuel rs (c_sep c) (s_lang (v_st (e_v e))) (e_v e) in flush_tail c (eset_v e v) r.
Proof. reflexivity. Qed.

Lemma eng_flush_cases : forall fuel rs c e,
  let vr := vm_render fuel rs (c_sep c) (s_lang (v_st (e_v e))) (e_v e) in
  let ws := eng_reset_inner (fst vr) in
  let ef := eng_flush fuel rs c e in
  (fst (fst ef) = e \/ fst (fst ef) = eset_v e (fst vr)
   \/ (e_exiting e = true /\ fst (fst ef) = mkEng (fst ws) (e_initd e) (e_exit e) false (e_execd e)))
  /\ (forall n, snd ef = FPanic n -> snd vr = RRPanic n \/ snd ws = SPanic n).
Proof.
  intros fuel rs c e. cbv zeta. destruct (eng_flush fuel rs c e) as [[e' out] f] eqn:H. cbn [fst snd]. revert H. unfold eng_flush.
  destruct (negb (e_execd e)); [intros H; injection H as <- _ <-; split; [auto|discriminate]|].
  destruct (vm_render fuel rs (c_sep c) (s_lang (v_st (e_v e))) (e_v e)) as [v r]. cbv zeta.
  cbn [fst snd e_v eset_v e_exit e_exiting e_initd e_execd].
  destruct (eng_reset_inner v) as [v' s'].
  destruct r; repeat match goal with
    | |- context [if ?cc then _ else _] => destruct cc
    | |- context [match e_exit ?x with _ => _ end] => destruct (e_exit x)
    | |- context [match ?x with SOk => _ | SErr _ _ => _ | SPanic _ => _ | SFuel => _ end] => destruct x
    end; intros H; injection H as <- _ <-; (split; [auto|]); intros m Hm; try discriminate Hm; injection Hm as <-; auto.
Qed.

Lemma eng_flush_plain : forall fuel rs c e,
  e_execd e = true -> e_exit e = [] -> e_exiting e = false ->
  eng_flush fuel rs c e =
  let '(v, r) := vm_render fuel rs (c_sep c) (s_lang (v_st (e_v e))) (e_v e) in
  (eset_v e v, match r with RROk o => o | _ => [] end,
   match r with RROk _ => FOk | RRErr er => FErr er | RRPanic n => FPanic n | RRFuel => FFuel end).
Proof.
  intros fuel rs c e Hx He Hq. unfold eng_flush. rewrite Hx. cbn [negb].
  destruct (vm_render _ _ _ _ _) as [v r]. cbn [eset_v e_exit e_exiting]. rewrite He, Hq.
  cbn [len List.length N.of_nat]. rewrite andb_false_r. destruct r; cbn [andb]; rewrite ?app_nil_r; reflexivity.
Qed.

Lemma flush_before_exec : forall fuel rs c e,
  e_execd e = false -> eng_flush fuel rs c e = (e, [], FErr EFlushNoExec).
Proof. intros fuel rs c e H. unfold eng_flush. rewrite H. reflexivity. Qed.

(* Init and Exec are chains of steps.  A step yields an engine and a status; the chain goes on from that
   engine if the status is OK and stops with both otherwise (`then_ok`).  Two steps, runFirst within Init
   and Init within Exec, also say whether to go on at all (`then_go`). *)
Definition then_ok (x : engine * stat) (k : engine -> engine * bool * stat) : engine * bool * stat :=
  let '(e, s) := x in match s with SOk => k e | _ => (e, false, s) end.
Definition then_go (x : engine * bool * stat) (k : engine -> engine * bool * stat) : engine * bool * stat :=
  let '(e, go, s) := x in then_ok (e, s) (fun e => if go then k e else (e, false, SOk)).

Lemma then_ok_cases (Q : engine * bool * stat -> Prop) x k :
  (snd x = SOk -> Q (k (fst x))) -> (snd x <> SOk -> Q (fst x, false, snd x)) -> Q (then_ok x k).
Proof. destruct x as [e []]; cbn [then_ok fst snd]; intros H1 H2; first [apply H1; reflexivity|apply H2; discriminate]. Qed.

Lemma then_go_cases (Q : engine * bool * stat -> Prop) x k :
  (snd x = SOk -> snd (fst x) = true -> Q (k (fst (fst x)))) ->
  (snd x <> SOk \/ snd (fst x) = false -> Q (fst (fst x), false, snd x)) -> Q (then_go x k).
Proof.
  destruct x as [[e go] s]. cbn [then_go fst snd]. intros H1 H2. apply then_ok_cases; cbn [fst snd]; [|auto].
  intros ->. destruct go; auto.
Qed.

Lemma then_ok_fst (P : engine -> Prop) x k :
  P (fst x) -> (snd x = SOk -> P (fst (fst (k (fst x))))) -> P (fst (fst (then_ok x k))).
Proof. intros H1 H2. apply (then_ok_cases (fun r => P (fst (fst r)))); [exact H2|intros _; exact H1]. Qed.
Lemma then_go_fst (P : engine -> Prop) x k :
  P (fst (fst x)) -> (snd x = SOk -> snd (fst x) = true -> P (fst (fst (k (fst (fst x)))))) -> P (fst (fst (then_go x k))).
Proof. intros H1 H2. apply (then_go_cases (fun r => P (fst (fst r)))); [exact H2|intros _; exact H1]. Qed.

(* The steps, in the order in which Init and Exec take them.  `prepare` is how Engine.prepare begins: a pending
   output is flushed and the bytes dropped; what it does next is `cleared`. *)
Definition prepare (fuel : nat) (rs : rsrc) (c : config) (e : engine) : engine * stat :=
  if e_execd e then let '(e', _, f) := eng_flush fuel rs c e in (e', stat_of_f f) else (e, SOk).
(* SetInput: over INPUT_LIMIT the input is refused (take_input_eq) *)
Definition take_input (input : bytes) (e : engine) : engine * stat :=
  match set_input (v_st (e_v e)) (Some input) with
  | Ok st => (eset_v e (vset_st (e_v e) st), SOk)
  | Err er => (e, SErr er None)
  | Panic n => (e, SPanic n)
  end.
Definition fed (i : bytes) (e : engine) : engine := eset_v e (vset_st (e_v e) (set_input_raw (v_st (e_v e)) (Some i))).
(* a position without pending code in a session that has not terminated, as a failed request leaves it: Init unwinds
   it before MOVE <root> becomes the pending code *)
Definition stale (s : state) : bool :=
  match s_code s, s_path s with [], _ :: _ => negb (getf s FLAG_TERMINATE) | _, _ => false end.
Definition unstale (e : engine) : engine * stat :=
  if stale (v_st (e_v e)) then let '(v', s') := eng_reset_inner (e_v e) in (eset_v e v', s') else (e, SOk).
(* setCode on code that is not empty only stores it (set_code_eng_cons); i is the input the state had before take_input *)
Definition init_done (c : config) (i : option bytes) (e : engine) : engine :=
  let st := v_st (e_v e) in
  let st := match s_code st with [] => set_code st (encode (IMove (cfg_root c))) | _ => st end in
  mkEng (vset_st (e_v e) (set_input_raw st i)) true (e_exit e) (e_exiting e) (e_execd e).
(* Exec's forced reset on an empty input, if configured.  The step never fails: `reset_opt` is the engine it
   answers, and the statements about Exec are written with reset_opt. *)
Definition reset_empty (c : config) (input : bytes) (e : engine) : engine * stat :=
  if c_reset_empty c && (len input =? 0) then eng_reset_force c e else (e, SOk).
Definition reset_opt (c : config) (input : bytes) (e : engine) : engine :=
  if c_reset_empty c && (len input =? 0) then forced c e else e.
Lemma reset_empty_eq c input e : reset_empty c input e = (reset_opt c input e, SOk).
Proof. unfold reset_empty, reset_opt. destruct (_ && _); [apply eng_reset_force_eq|reflexivity]. Qed.
Lemma reset_empty_cases (Q : engine * stat -> Prop) c input e :
  Q (e, SOk) ->
  (let r := eng_reset_inner (vset_st (e_v e) (set_code (v_st (e_v e)) (encode (IMove (cfg_root c))))) in
   Q (eset_v e (fst r), snd r)) ->
  Q (reset_empty c input e).
Proof.
  intros H0 H1. unfold reset_empty, eng_reset_force. destruct (_ && _); [|exact H0].
  destruct (s_path (v_st (e_v e))); [exact H0|]. cbv zeta in *. destruct (eng_reset_inner _). exact H1.
Qed.

Lemma reset_opt_none c input e :
  c_reset_empty c && (len input =? 0) = false \/ s_path (v_st (e_v e)) = [] -> reset_opt c input e = e.
Proof. intros [H|H]; unfold reset_opt, forced; rewrite H; [|destruct (_ && _)]; reflexivity. Qed.

Lemma take_input_eq input e :
  take_input input e = if INPUT_LIMIT <? len input then (e, SErr EGen None) else (fed input e, SOk).
Proof. unfold take_input, set_input. destruct (_ <? _); reflexivity. Qed.
Lemma prepare_idle fuel rs c e : e_execd e = false -> prepare fuel rs c e = (e, SOk).
Proof. intros H. unfold prepare. rewrite H. reflexivity. Qed.
Lemma prepare_cases (Q : engine * stat -> Prop) fuel rs c e :
  (e_execd e = false -> Q (e, SOk)) ->
  (e_execd e = true -> let ef := eng_flush fuel rs c e in Q (fst (fst ef), stat_of_f (snd ef))) ->
  Q (prepare fuel rs c e).
Proof.
  intros H0 H1. unfold prepare. destruct (e_execd e); [|exact (H0 eq_refl)].
  specialize (H1 eq_refl). cbv zeta in H1. destruct (eng_flush fuel rs c e) as [[e' o] f]. exact H1.
Qed.
Lemma unstale_cases (Q : engine * stat -> Prop) e :
  Q (e, SOk) -> (let r := eng_reset_inner (e_v e) in Q (eset_v e (fst r), snd r)) -> Q (unstale e).
Proof.
  intros H0 H1. unfold unstale. destruct (stale _); [|exact H0]. cbv zeta in H1. destruct (eng_reset_inner (e_v e)). exact H1.
Qed.

(* the engine as Engine.prepare leaves it, the step `prepare` done *)
Definition cleared (e : engine) : engine := mkEng (e_v e) (e_initd e) [] false false.
(* the last Flush rendered what there was to render and completed a pending session end; an engine that has not
   executed since its last prepare (a new engine object, `cleared e`) has nothing to flush and is settled too *)
Definition settled (e : engine) : Prop :=
  e_execd e = true -> getf (v_st (e_v e)) FLAG_DIRTY = false /\ e_exiting e = false.
(* a settled engine whose exit value alone exceeds the output size: every further request fails in prepare *)
Definition stuck (c : config) (e : engine) : bool := e_execd e && exit_over c (e_exit e).

Definition init_new (fuel : nat) (c : config) (e : engine) (input : bytes) : engine * bool * stat :=
  then_ok (take_input input e) (fun e3 =>
  then_go (run_first fuel c (s_lang (v_st (e_v e))) e3) (fun e4 =>
  then_ok (unstale e4) (fun e5 => (init_done c (s_input (v_st (e_v e))) e5, true, SOk)))).

Lemma set_code_eng_eq e b :
  set_code_eng e b =
  let v := vset_st (e_v e) (set_code (v_st (e_v e)) b) in
  match b with
  | [] => if getf (v_st (e_v e)) FLAG_DIRTY
          then (mkEng (vset_ca v (snd (cache_last (v_ca (e_v e))))) (e_initd e) (c_last (v_ca (e_v e))) true (e_execd e), false)
          else (eset_v e v, false)
  | _ => (eset_v e v, true)
  end.
Proof. reflexivity. Qed.
Lemma set_code_eng_cons : forall e code, code <> [] ->
  set_code_eng e code = (eset_v e (vset_st (e_v e) (set_code (v_st (e_v e)) code)), true).
Proof. intros e [|x y] H; [congruence|reflexivity]. Qed.

Lemma eng_init_steps fuel rs c e input :
  eng_init fuel rs c e input =
  then_ok (prepare fuel rs c e) (fun e1 =>
  if e_initd e1 then (cleared e1, true, SOk) else init_new fuel c (cleared e1) input).
Proof.
  unfold eng_init, prepare, then_ok at 1.
  destruct (if e_execd e then _ else _) as [e1 []]; try reflexivity. unfold cleared. cbn [e_initd]. destruct (e_initd e1); [reflexivity|].
  unfold init_new, take_input. cbn [e_v].
  destruct (set_input (v_st (e_v e1)) (Some input)) as [st1| |]; try reflexivity. cbn [then_ok].
  destruct (run_first fuel c _ _) as [[e4 r] []]; try reflexivity. cbn [then_go then_ok]. destruct r; [|reflexivity]. cbn [negb].
  unfold unstale, stale.
  (* the last link of the chain is the model's text from `match s4` on, with setCode on MOVE <root> reduced by set_code_eng_cons *)
  assert (E : forall x : engine * stat, then_ok x (fun e5 => (init_done c (s_input (v_st (e_v e1))) e5, true, SOk)) =
                let '(e4', s4) := x in
                match s4 with
                | SOk => let '(e5, cont) := match s_code (v_st (e_v e4')) with
                                            | [] => set_code_eng e4' (encode (IMove (cfg_root c))) | _ => (e4', true) end in
                         (mkEng (vset_st (e_v e5) (set_input_raw (v_st (e_v e5)) (s_input (v_st (e_v e1))))) true
                                (e_exit e5) (e_exiting e5) (e_execd e5), cont, SOk)
                | _ => (e4', false, s4)
                end).
  { intros [e5 []]; try reflexivity. cbn [then_ok]. unfold init_done. cbv zeta.
    destruct (s_code (v_st (e_v e5))); [rewrite set_code_eng_cons by apply encode_nonempty|]; reflexivity. }
  rewrite E. destruct (s_code (v_st (e_v e4))); [|reflexivity]. destruct (s_path (v_st (e_v e4))); [reflexivity|].
  destruct (getf (v_st (e_v e4)) FLAG_TERMINATE); reflexivity.
Qed.

Lemma prepare_settled fuel rs c e : settled e ->
  prepare fuel rs c e = (e, if stuck c e then SErr EGen None else SOk).
Proof.
  intros Hs. unfold prepare, stuck. destruct (e_execd e) eqn:Hx; [|reflexivity].
  destruct (Hs Hx) as [Hd Hq]. rewrite eng_flush_settled by assumption. destruct (exit_over c (e_exit e)); reflexivity.
Qed.

Lemma eng_init_settled fuel rs c e input : settled e ->
  eng_init fuel rs c e input =
  if stuck c e then (e, false, SErr EGen None)
  else if e_initd e then (cleared e, true, SOk) else init_new fuel c (cleared e) input.
Proof. intros Hs. rewrite eng_init_steps, prepare_settled by exact Hs. destruct (stuck c e); reflexivity. Qed.

Lemma eng_init_initd : forall fuel rs c e input,
  e_initd e = true -> settled e ->
  eng_init fuel rs c e input = if stuck c e then (e, false, SErr EGen None) else (cleared e, true, SOk).
Proof. intros fuel rs c e input Hi Hs. rewrite eng_init_settled, Hi by exact Hs. reflexivity. Qed.

(* what init does to the state and the cache of a newly built engine (no entry function) *)
Definition init_sc (c : config) (s : state) (ca : cache) : state * cache :=
  match s_code s with
  | [] =>
    let '(s1, ca1) := if stale s then (let '(st, ca', _) := reset_sc s ca in (st, ca')) else (s, ca) in
    (set_input_raw (set_code s1 (encode (IMove (cfg_root c)))) (s_input s), ca1)
  | _ => (s, ca)
  end.

(* reduces the projections and setters of engines and machines where they meet mkEng and mkVm, and nothing else *)
Ltac ecbv := cbv beta iota zeta delta [eset_v e_v e_initd e_exit e_exiting e_execd vset_st vset_ca v_st v_ca v_pg v_w v_log v_taint].

Lemma init_new_plain fuel c s ca pg w lg t i x q d input : c_first c = None ->
  init_new fuel c (mkEng (mkVm s ca pg w lg t) i x q d) input =
  if INPUT_LIMIT <? len input then (mkEng (mkVm s ca pg w lg t) i x q d, false, SErr EGen None)
  else (let '(s', ca') := init_sc c s ca in mkEng (mkVm s' ca' pg w lg t) true x q d, true, SOk).
Proof.
  intros Hf. unfold init_new, run_first. rewrite take_input_eq, Hf. destruct (_ <? _); [reflexivity|].
  cbn [then_ok then_go]. unfold unstale, init_done, init_sc, fed. ecbv.
  change (stale (set_input_raw s (Some input))) with (stale s).
  destruct (stale s) eqn:Es.
  - (* a stale position is unwound first; the reset keeps the empty code *)
    unfold stale in Es. destruct (s_code s) eqn:Ec; [|discriminate]. destruct (s_path s) eqn:Ep; [discriminate|].
    rewrite eng_reset_inner_sc, !reset_sc_eq. cbn [v_st v_ca s_path set_input_raw]. rewrite Ep. cbn [then_ok]. ecbv.
    cbn [s_code set_input_raw reset_state resetf set_flags set_path_idx]. rewrite Ec. reflexivity.
  - cbn [then_ok]. ecbv. cbn [s_code set_input_raw]. destruct (s_code s); [reflexivity|]. destruct s; reflexivity.
Qed.

Lemma eng_init_fresh fuel rs c s ca pg w lg t x q input : c_first c = None ->
  eng_init fuel rs c (mkEng (mkVm s ca pg w lg t) false x q false) input =
  if INPUT_LIMIT <? len input then (mkEng (mkVm s ca pg w lg t) false [] false false, false, SErr EGen None)
  else (let '(s', ca') := init_sc c s ca in mkEng (mkVm s' ca' pg w lg t) true [] false false, true, SOk).
Proof. intros Hf. rewrite eng_init_settled by (intros H; discriminate H). apply init_new_plain, Hf. Qed.

(* the part of Exec after Init (eng_exec_steps) *)
Definition exec_tail (fuel : nat) (rs : rsrc) (c : config) (e1 : engine) (input : bytes) : engine * bool * stat :=
  then_ok (reset_empty c input e1) (fun e2 =>
  if (0 <? len input) && negb (valid_input_b input) then (e2, true, SErr EGen None)
  else then_ok (take_input input e2) (eng_exec_inner fuel rs c)).

Lemma eng_exec_steps fuel rs c e input :
  eng_exec fuel rs c e input = then_go (eng_init fuel rs c e input) (fun e1 => exec_tail fuel rs c e1 input).
Proof.
  unfold eng_exec, exec_tail, reset_empty, take_input. destruct (eng_init fuel rs c e input) as [[e1 []] []]; try reflexivity.
  cbn [then_go then_ok negb]. destruct (if c_reset_empty c && _ then _ else _) as [e2 []]; try reflexivity.
  cbn [then_ok]. destruct (_ && negb _); [reflexivity|]. destruct (set_input _ _); reflexivity.
Qed.

Lemma eng_exec_inner_run : forall fuel rs c e,
  s_code (v_st (e_v e)) <> [] ->
  eng_exec_inner fuel rs c e =
  let '(v1, b, s) := run fuel rs (c_sep c) (s_lang (v_st (e_v e))) (s_code (v_st (e_v e)))
                         (vset_st (e_v e) (set_code (v_st (e_v e)) [])) in
  match s with
  | SOk =>
    let e1 := mkEng v1 (e_initd e) (e_exit e) (e_exiting e) true in
    if getf (v_st v1) FLAG_TERMINATE then (e1, false, SOk)
    else let '(e2, cont) := set_code_eng e1 b in (e2, cont, SOk)
  | _ => (eset_v e v1, false, s)
  end.
Proof. intros fuel rs c e H. unfold eng_exec_inner. destruct (s_code (v_st (e_v e))); [congruence|reflexivity]. Qed.

Lemma eng_exec_inner_cases (Q : engine * bool * stat -> Prop) fuel rs c e :
  let v0 := vset_st (e_v e) (set_code (v_st (e_v e)) []) in
  (s_code (v_st (e_v e)) = [] -> Q (eset_v e v0, false, SErr EGen None)) ->
  (forall v1 b s, s_code (v_st (e_v e)) <> [] ->
     run fuel rs (c_sep c) (s_lang (v_st (e_v e))) (s_code (v_st (e_v e))) v0 = (v1, b, s) ->
     let e1 := mkEng v1 (e_initd e) (e_exit e) (e_exiting e) true in
     match s with
     | SOk => if getf (v_st v1) FLAG_TERMINATE then Q (e1, false, SOk)
              else Q (fst (set_code_eng e1 b), snd (set_code_eng e1 b), SOk)
     | _ => Q (eset_v e v1, false, s)
     end) ->
  Q (eng_exec_inner fuel rs c e).
Proof.
  intros v0 H0 H1. unfold eng_exec_inner. cbv zeta in *. fold v0.
  destruct (s_code (v_st (e_v e))) as [|x code]; [exact (H0 eq_refl)|].
  destruct (run _ _ _ _ _ _) as [[v1 b] s]. specialize (H1 v1 b s ltac:(discriminate) eq_refl).
  destruct s; try exact H1. destruct (getf (v_st v1) FLAG_TERMINATE); [exact H1|]. destruct (set_code_eng _ b). exact H1.
Qed.

Lemma set_code_eng_log e b : v_log (e_v (fst (set_code_eng e b))) = v_log (e_v e).
Proof.
  unfold set_code_eng. cbv zeta. destruct b; [|reflexivity].
  destruct (getf _ FLAG_DIRTY); [destruct (cache_last (v_ca (e_v e)))|]; reflexivity.
Qed.

Lemma eng_exec_inner_log fuel rs c e : s_code (v_st (e_v e)) <> [] ->
  v_log (e_v (fst (fst (eng_exec_inner fuel rs c e))))
  = v_log (fst (fst (run fuel rs (c_sep c) (s_lang (v_st (e_v e))) (s_code (v_st (e_v e)))
                         (vset_st (e_v e) (set_code (v_st (e_v e)) []))))).
Proof.
  intros H. apply (eng_exec_inner_cases (fun x => v_log (e_v (fst (fst x))) = _)); [contradiction|].
  intros v1 b s _ ->. destruct s; try reflexivity. destruct (getf _ _); [reflexivity|apply set_code_eng_log].
Qed.

Lemma exec_tail_cases : forall fuel rs c e input,
  exec_tail fuel rs c e input =
  let e2 := reset_opt c input e in
  if (0 <? len input) && negb (valid_input_b input) then (e2, true, SErr EGen None)
  else if INPUT_LIMIT <? len input then (e2, false, SErr EGen None)
  else eng_exec_inner fuel rs c (fed input e2).
Proof.
  intros fuel rs c e input. unfold exec_tail. rewrite reset_empty_eq. cbn [then_ok]. cbv zeta.
  destruct (_ && negb _); [reflexivity|]. rewrite take_input_eq. destruct (INPUT_LIMIT <? len input); reflexivity.
Qed.

Lemma eng_exec_initd : forall fuel rs c e input,
  e_initd e = true -> settled e ->
  eng_exec fuel rs c e input =
  if stuck c e then (e, false, SErr EGen None) else exec_tail fuel rs c (cleared e) input.
Proof.
  intros fuel rs c e input Hi Hs. rewrite eng_exec_steps, eng_init_initd by assumption.
  destruct (stuck c e); reflexivity.
Qed.

Lemma eng_exec_fresh : forall fuel rs c s ca pg w lg t input,
  c_first c = None ->
  eng_exec fuel rs c (mkEng (mkVm s ca pg w lg t) false [] false false) input =
  if INPUT_LIMIT <? len input then (mkEng (mkVm s ca pg w lg t) false [] false false, false, SErr EGen None)
  else exec_tail fuel rs c (let '(s', ca') := init_sc c s ca in mkEng (mkVm s' ca' pg w lg t) true [] false false) input.
Proof.
  intros fuel rs c s ca pg w lg t input Hf. rewrite eng_exec_steps, eng_init_fresh by exact Hf.
  destruct (INPUT_LIMIT <? len input); reflexivity.
Qed.

Definition long_finish (fuel : nat) (rs : rsrc) (c : config) (x : engine * bool * stat) : engine * response :=
  let '(e1, cont, s) := x in
  match s with
  | SPanic n => (e1, mkResp cont s [] (FPanic n))
  | SFuel => (e1, mkResp cont s [] FFuel)
  | _ => let '(e2, out, f) := eng_flush fuel rs c e1 in (e2, mkResp cont s out f)
  end.
Lemma request_long_finish : forall fuel rs c e i,
  request_long fuel rs c e i = long_finish fuel rs c (eng_exec fuel rs c e i).
Proof. reflexivity. Qed.
(* after a panic or without fuel Flush is not called, and the engine the request leaves is the one Exec leaves *)
Lemma long_finish_fst (P : engine -> Prop) fuel rs c x :
  P (fst (fst x)) -> P (fst (fst (eng_flush fuel rs c (fst (fst x))))) -> P (fst (long_finish fuel rs c x)).
Proof.
  destruct x as [[e1 cont] s]. cbn [fst long_finish]. intros H1 H2.
  destruct (eng_flush fuel rs c e1) as [[e2 out] f]. destruct s; assumption.
Qed.

(* the inputs Exec refuses before it touches the machine: over INPUT_LIMIT bytes (SetInput), or not empty and not of
   the input pattern (valid_input_b).  The empty input passes both checks. *)
Definition refused (i : bytes) : Prop :=
  INPUT_LIMIT < len i \/ (0 < len i /\ valid_input_b i = false).
Definition refused_bool (i : bytes) : bool :=
  (INPUT_LIMIT <? len i) || ((0 <? len i) && negb (valid_input_b i)).

Lemma exec_tail_accepted fuel rs c e input : refused_bool input = false ->
  exec_tail fuel rs c e input = eng_exec_inner fuel rs c (fed input (reset_opt c input e)).
Proof. intros H. apply orb_false_elim in H as [Hl Hv]. rewrite exec_tail_cases, Hv, Hl. reflexivity. Qed.

Lemma refused_nonempty : forall i, refused i -> 0 < len i.
Proof. intros i [H|[H _]]; unfold INPUT_LIMIT in *; lia. Qed.

Lemma refused_short : forall i, refused i -> (INPUT_LIMIT <? len i) = false -> valid_input_b i = false.
Proof. intros i [H|[_ H]] Hl; [apply N.ltb_ge in Hl; lia|exact H]. Qed.

(* Exec's continue result is true for a pattern failure and false for an over-long input that matches the pattern *)
Lemma exec_tail_refused : forall fuel rs c e1 input,
  refused input -> exec_tail fuel rs c e1 input = (e1, negb (valid_input_b input), SErr EGen None).
Proof.
  intros fuel rs c e1 input Hr. rewrite exec_tail_cases. cbv zeta. pose proof (refused_nonempty _ Hr) as Hlen.
  unfold reset_opt. replace (len input =? 0) with false by (symmetry; apply N.eqb_neq; lia). rewrite andb_false_r.
  replace (0 <? len input) with true by (symmetry; apply N.ltb_lt; exact Hlen). cbn [andb].
  destruct (valid_input_b input) eqn:Hv; cbn [negb]; [|reflexivity].
  destruct Hr as [Hl|[_ Hf]]; [|congruence]. apply N.ltb_lt in Hl. rewrite Hl. reflexivity.
Qed.

Lemma refused_exec_settled : forall fuel rs c e input,
  refused input -> e_initd e = true -> settled e ->
  eng_exec fuel rs c e input =
  if stuck c e then (e, false, SErr EGen None)
  else (cleared e, negb (valid_input_b input), SErr EGen None).
Proof.
  intros fuel rs c e input Hr Hi Hs. rewrite eng_exec_initd by assumption.
  destruct (stuck c e); [reflexivity|]. apply exec_tail_refused. exact Hr.
Qed.

(* settled with no exit value left to write: Engine.prepare changes nothing but the executed mark, and the engine is not stuck *)
Definition delivered (e : engine) : Prop :=
  e_execd e = false \/ (getf (v_st (e_v e)) FLAG_DIRTY = false /\ e_exiting e = false /\ e_exit e = []).

Lemma delivered_settled : forall e, delivered e -> settled e.
Proof. intros e [H|[H1 [H2 _]]] Hx; [congruence|auto]. Qed.
Lemma delivered_not_stuck : forall c e, delivered e -> stuck c e = false.
Proof.
  intros c e [H|[_ [_ H]]]; unfold stuck; [rewrite H; reflexivity|].
  rewrite H, exit_over_nil. apply andb_false_r.
Qed.

Lemma request_long_stuck fuel rs c e input : settled e -> stuck c e = true ->
  request_long fuel rs c e input = (e, mkResp false (SErr EGen None) [] (FErr EGen)).
Proof.
  intros Hs Hk. unfold request_long. rewrite eng_exec_steps, eng_init_settled, Hk by exact Hs. cbn [then_go then_ok].
  unfold stuck in Hk. apply andb_true_iff in Hk as [Hx Ho].
  destruct (Hs Hx) as [Hd Hq]. rewrite eng_flush_settled, Ho by assumption. reflexivity.
Qed.

Lemma refused_long : forall fuel rs c e input,
  refused input -> e_initd e = true -> delivered e ->
  eng_exec fuel rs c e input = (mkEng (e_v e) true [] false false, negb (valid_input_b input), SErr EGen None)
  /\ eng_flush fuel rs c (mkEng (e_v e) true [] false false) = (mkEng (e_v e) true [] false false, [], FErr EFlushNoExec)
  /\ request_long fuel rs c e input
     = (mkEng (e_v e) true [] false false, mkResp (negb (valid_input_b input)) (SErr EGen None) [] (FErr EFlushNoExec)).
Proof.
  intros fuel rs c e input Hr Hi Hd.
  assert (He : eng_exec fuel rs c e input = (mkEng (e_v e) true [] false false, negb (valid_input_b input), SErr EGen None)).
  { rewrite refused_exec_settled by (try assumption; apply delivered_settled; exact Hd).
    rewrite delivered_not_stuck by exact Hd. unfold cleared. rewrite Hi. reflexivity. }
  split; [exact He|]. split; [reflexivity|].
  unfold request_long. rewrite He. reflexivity.
Qed.

Lemma eng_exec_delivered : forall fuel rs c e input,
  e_initd e = true -> delivered e -> refused_bool input = false ->
  c_reset_empty c && (len input =? 0) = false \/ s_path (v_st (e_v e)) = [] ->
  eng_exec fuel rs c e input =
  eng_exec_inner fuel rs c (mkEng (vset_st (e_v e) (set_input_raw (v_st (e_v e)) (Some input))) true [] false false).
Proof.
  intros fuel rs c e input Hi Hd Ha Hr.
  rewrite eng_exec_initd, delivered_not_stuck, exec_tail_accepted, reset_opt_none by (try apply delivered_settled; assumption).
  unfold cleared. rewrite Hi. reflexivity.
Qed.

Lemma request_long_settled : forall fuel rs c e input,
  e_initd e = true -> settled e ->
  request_long fuel rs c e input =
  if stuck c e then (e, mkResp false (SErr EGen None) [] (FErr EGen))
  else long_finish fuel rs c (exec_tail fuel rs c (cleared e) input).
Proof.
  intros fuel rs c e input Hi Hs. destruct (stuck c e) eqn:Hk; [apply request_long_stuck; assumption|].
  rewrite request_long_finish, eng_exec_initd, Hk by assumption. reflexivity.
Qed.

Lemma refused_request_settled : forall fuel rs c e input,
  refused input -> e_initd e = true -> settled e ->
  request_long fuel rs c e input =
  if stuck c e then (e, mkResp false (SErr EGen None) [] (FErr EGen))
  else (cleared e, mkResp (negb (valid_input_b input)) (SErr EGen None) [] (FErr EFlushNoExec)).
Proof.
  intros fuel rs c e input Hr Hi Hs. rewrite request_long_settled by assumption.
  destruct (stuck c e); [reflexivity|]. rewrite exec_tail_refused by exact Hr. reflexivity.
Qed.

Lemma request_long_cleared : forall fuel rs c e input,
  e_initd e = true -> settled e -> stuck c e = false ->
  request_long fuel rs c (cleared e) input = request_long fuel rs c e input.
Proof.
  intros fuel rs c e input Hi Hs Hk.
  rewrite (request_long_settled fuel rs c e) by assumption.
  (* cleared e has not executed: it is settled and not stuck, and clearing it again changes nothing *)
  rewrite (request_long_settled fuel rs c (cleared e)) by (try exact Hi; intros H; discriminate H).
  rewrite Hk. reflexivity.
Qed.

Lemma refused_then_next : forall fuel rs c e bad input,
  refused bad -> e_initd e = true -> settled e ->
  request_long fuel rs c (fst (request_long fuel rs c e bad)) input = request_long fuel rs c e input.
Proof.
  intros fuel rs c e bad input Hr Hi Hs. rewrite (refused_request_settled fuel rs c e bad) by assumption.
  destruct (stuck c e) eqn:Hk; cbn [fst]; [reflexivity|].
  apply request_long_cleared; assumption.
Qed.

(* the session a new engine object is built around (new_engine_sess) *)
Definition sess (c : config) (o : option snapshot) : snapshot :=
  match o with Some sc => sc | None => (fresh_state c, fresh_cache c) end.

Lemma new_engine_sess : forall c o w lg,
  new_engine c o w lg =
  mkEng (mkVm (fst (sess c o)) (snd (sess c o)) (new_vm_page (c_out c) (c_sep c)) w lg false) false [] false false.
Proof. intros c [[s ca]|] w lg; reflexivity. Qed.

(* the page of a new engine (setupVm); BisimProofs compares a session's page with it *)
Definition P0 (c : config) : page := new_vm_page (c_out c) (c_sep c).

(* the record in the store once a persisted request has built its engine: the one loaded, or the fresh session, which
   ensurePersist writes when none can be loaded *)
Definition store0_of (c : config) (o : option snapshot) : option snapshot :=
  match o with Some s => Some s | None => Some (snap_of (fst (sess c None)) (snd (sess c None))) end.

(* A persisted request is a request to a new engine around the stored session.  Of that engine the world keeps the
   counters and the log, and the record becomes what Finish saves of it: nothing if Flush, or Exec before it, ended
   in a panic or for lack of fuel, or if the engine is not initialised; then the record o the request started from stays.
   t is the taint of the world before the request. *)
Definition saved (e : engine) (f : fstat) : option snapshot :=
  match f with FPanic _ | FFuel => None | _ => eng_finish e end.
Definition pers_of (o : option snapshot) (t : bool) (x : engine * response) : pworld * response :=
  let '(e, r) := x in
  (mkPw (match saved e (r_flush r) with Some sn => Some sn | None => o end) (v_w (e_v e)) (v_log (e_v e)) (t || v_taint (e_v e)), r).

Lemma request_persisted_long fuel rs c p input :
  request_persisted fuel rs c p input =
  pers_of (store0_of c (pw_store p)) (pw_taint p) (request_long fuel rs c (new_engine c (pw_store p) (pw_w p) (pw_log p)) input).
Proof.
  unfold request_persisted, request_long, store0_of. destruct (pw_store p) as [[s ca]|];
    (destruct (eng_exec fuel rs c _ input) as [[e1 cont] []]; try reflexivity;
     destruct (eng_flush fuel rs c e1) as [[e2 out] []]; reflexivity).
Qed.

Lemma request_persisted_fresh fuel rs c p input : c_first c = None ->
  request_persisted fuel rs c p input =
  pers_of (store0_of c (pw_store p)) (pw_taint p) (long_finish fuel rs c
    (if INPUT_LIMIT <? len input
     then (mkEng (mkVm (fst (sess c (pw_store p))) (snd (sess c (pw_store p))) (P0 c) (pw_w p) (pw_log p) false) false [] false false,
           false, SErr EGen None)
     else exec_tail fuel rs c
            (let '(s', ca') := init_sc c (fst (sess c (pw_store p))) (snd (sess c (pw_store p))) in
             mkEng (mkVm s' ca' (P0 c) (pw_w p) (pw_log p) false) true [] false false) input)).
Proof. intros Hf. rewrite request_persisted_long, request_long_finish, new_engine_sess, eng_exec_fresh by exact Hf. reflexivity. Qed.

Lemma pers_of_store (Q : option snapshot -> Prop) o t e r :
  Q o -> (e_initd e = true -> Q (Some (snap_of (v_st (e_v e)) (v_ca (e_v e))))) ->
  Q (pw_store (fst (pers_of o t (e, r)))).
Proof.
  intros H0 H1. cbn [pers_of fst pw_store]. unfold saved, eng_finish.
  destruct (r_flush r); try exact H0; (destruct (e_initd e); [exact (H1 eq_refl)|exact H0]).
Qed.

Lemma saved_input : forall e f sn, saved e f = Some sn -> s_input (fst sn) = None.
Proof.
  intros e f sn. unfold saved, eng_finish. destruct f; try discriminate; (destruct (e_initd e); [intros [= <-]; reflexivity|discriminate]).
Qed.

(* the stored session as the next engine's init would leave it *)
Definition norm_snap (c : config) (sn : snapshot) : snapshot :=
  let '(s', ca') := init_sc c (fst sn) (snd sn) in snap_of s' ca'.

Lemma refused_persisted : forall fuel rs c p input,
  refused input -> c_first c = None ->
  request_persisted fuel rs c p input =
  (mkPw (if INPUT_LIMIT <? len input then store0_of c (pw_store p) else Some (norm_snap c (sess c (pw_store p))))
        (pw_w p) (pw_log p) (pw_taint p),
   mkResp (if INPUT_LIMIT <? len input then false else true) (SErr EGen None) [] (FErr EFlushNoExec)).
Proof.
  intros fuel rs c p input Hr Hf. rewrite request_persisted_fresh by exact Hf.
  destruct (INPUT_LIMIT <? len input) eqn:Hl.
  - unfold long_finish. rewrite flush_before_exec by reflexivity.
    cbn [pers_of saved r_flush eng_finish e_initd e_v v_w v_log v_taint]. rewrite orb_false_r. reflexivity.
  - rewrite exec_tail_refused by exact Hr.
    rewrite (refused_short input Hr Hl). cbn [negb]. unfold norm_snap.
    destruct (init_sc c (fst (sess c (pw_store p))) (snd (sess c (pw_store p)))) as [s' ca'].
    unfold long_finish. rewrite flush_before_exec by reflexivity.
    cbn [pers_of saved r_flush eng_finish e_initd e_v v_w v_log v_taint v_st v_ca]. rewrite orb_false_r. reflexivity.
Qed.

(* the stored session holds no input: Finish saves none (saved_input), and only then is norm_snap what Init does
   (norm_snap_init) *)
Definition pw_ok (c : config) (p : pworld) : Prop := s_input (fst (sess c (pw_store p))) = None.
(* the stored sessions have the same normal form: such worlds are served alike (request_persisted_eqv) *)
Definition pw_eqv (c : config) (p q : pworld) : Prop :=
  norm_snap c (sess c (pw_store p)) = norm_snap c (sess c (pw_store q))
  /\ pw_w p = pw_w q /\ pw_log p = pw_log q /\ pw_taint p = pw_taint q.

Lemma fresh_state_flagish c : flagish (new_state (c_flagcount c)) (fresh_state c).
Proof.
  unfold fresh_state. cbv zeta.
  destruct (s_lang _); [eapply flagish_trans; [|apply flagish_setf]|]; apply flagish_set_language.
Qed.

Lemma fresh_state_input : forall c, s_input (fresh_state c) = None.
Proof. intros c. apply (fresh_state_flagish c). Qed.

Lemma getf_fresh : forall c i, i <> FLAG_LANG -> getf (fresh_state c) i = false.
Proof.
  intros c i Hi. unfold fresh_state.
  set (s := st_set_language lang_lookup (new_state (c_flagcount c)) (c_lang c)).
  assert (H : getf s i = false).
  { unfold s. rewrite getf_set_language. unfold getf, new_state. cbn [s_flags]. apply nth_falses. }
  destruct (s_lang s); [rewrite getf_setf_other by exact Hi|]; exact H.
Qed.

Lemma init_sc_input : forall c s ca, s_input (fst (init_sc c s ca)) = s_input s.
Proof.
  intros c s ca. unfold init_sc. destruct (s_code s); [|reflexivity].
  destruct (stale s); [destruct (reset_sc s ca) as [[st ca'] r]|]; reflexivity.
Qed.
Lemma init_sc_code : forall c s ca, s_code (fst (init_sc c s ca)) <> [].
Proof.
  intros c s ca. unfold init_sc. destruct (s_code s) eqn:Ec; [|cbn [fst]; rewrite Ec; discriminate].
  destruct (stale s); [destruct (reset_sc s ca) as [[st ca'] r]|]; cbn [fst s_code set_input_raw set_code]; apply encode_nonempty.
Qed.
Lemma init_sc_nonempty : forall c s ca, s_code s <> [] -> init_sc c s ca = (s, ca).
Proof. intros c s ca H. unfold init_sc. destruct (s_code s); [congruence|reflexivity]. Qed.

Lemma snap_of_none : forall s ca, s_input s = None -> snap_of s ca = (s, ca).
Proof. intros s ca H. unfold snap_of. destruct s; cbn in *; subst; reflexivity. Qed.

Lemma norm_snap_init : forall c sn, s_input (fst sn) = None -> norm_snap c sn = init_sc c (fst sn) (snd sn).
Proof.
  intros c [s ca] H. unfold norm_snap. cbn [fst snd] in *.
  pose proof (init_sc_input c s ca) as Hi. destruct (init_sc c s ca) as [s' ca']. cbn [fst] in Hi.
  apply snap_of_none. congruence.
Qed.

Lemma norm_snap_idem : forall c sn, s_input (fst sn) = None -> norm_snap c (norm_snap c sn) = norm_snap c sn.
Proof.
  intros c sn H. rewrite (norm_snap_init c sn H).
  pose proof (init_sc_input c (fst sn) (snd sn)) as Hi. pose proof (init_sc_code c (fst sn) (snd sn)) as Hc.
  destruct (init_sc c (fst sn) (snd sn)) as [s' ca']. cbn [fst] in *.
  rewrite norm_snap_init by (cbn [fst]; congruence). cbn [fst snd]. apply init_sc_nonempty. exact Hc.
Qed.

Lemma sess_store0 : forall c o, sess c (store0_of c o) = sess c o.
Proof.
  intros c [sn|]; [reflexivity|]. unfold store0_of, sess. cbn [fst snd].
  apply snap_of_none. apply fresh_state_input.
Qed.

Lemma pers_of_eqv : forall c o1 o2 t x,
  norm_snap c (sess c o1) = norm_snap c (sess c o2) ->
  pw_ok c (mkPw o1 [] [] false) -> pw_ok c (mkPw o2 [] [] false) ->
  let '(p', r) := pers_of o1 t x in
  let '(q', r') := pers_of o2 t x in
  r = r' /\ pw_eqv c p' q' /\ pw_ok c p' /\ pw_ok c q'.
Proof.
  intros c o1 o2 t [e r] Hn Hk1 Hk2. unfold pers_of, pw_eqv, pw_ok in *. cbn [pw_store pw_w pw_log pw_taint] in *.
  pose proof (saved_input e (r_flush r)) as Hsv. destruct (saved e (r_flush r)) as [sn|]; [pose proof (Hsv sn eq_refl)|]; auto 8.
Qed.

Lemma request_persisted_eqv : forall fuel rs c p q input,
  c_first c = None -> pw_ok c p -> pw_ok c q -> pw_eqv c p q ->
  let '(p', r) := request_persisted fuel rs c p input in
  let '(q', r') := request_persisted fuel rs c q input in
  r = r' /\ pw_eqv c p' q' /\ pw_ok c p' /\ pw_ok c q'.
Proof.
  intros fuel rs c p q input Hf Hp Hq [Hn [Hw [Hl Ht]]].
  rewrite !request_persisted_fresh by exact Hf.
  rewrite <- Hw, <- Hl, <- Ht.
  assert (Hi : init_sc c (fst (sess c (pw_store p))) (snd (sess c (pw_store p)))
             = init_sc c (fst (sess c (pw_store q))) (snd (sess c (pw_store q)))).
  { rewrite <- !norm_snap_init by assumption. exact Hn. }
  assert (Hn0 : norm_snap c (sess c (store0_of c (pw_store p))) = norm_snap c (sess c (store0_of c (pw_store q)))).
  { rewrite !sess_store0. exact Hn. }
  assert (Hk1 : pw_ok c (mkPw (store0_of c (pw_store p)) [] [] false)).
  { unfold pw_ok. cbn [pw_store]. rewrite sess_store0. exact Hp. }
  assert (Hk2 : pw_ok c (mkPw (store0_of c (pw_store q)) [] [] false)).
  { unfold pw_ok. cbn [pw_store]. rewrite sess_store0. exact Hq. }
  destruct (INPUT_LIMIT <? len input).
  - unfold long_finish. rewrite !flush_before_exec by reflexivity.
    cbn [pers_of saved r_flush eng_finish e_initd e_v v_w v_log v_taint].
    split; [reflexivity|]. split; [|split; assumption].
    unfold pw_eqv. cbn [pw_store pw_w pw_log pw_taint]. auto.
  - rewrite Hi. exact (pers_of_eqv c _ _ _ _ Hn0 Hk1 Hk2).
Qed.

Lemma request_persisted_ok : forall fuel rs c p input,
  pw_ok c p -> pw_ok c (fst (request_persisted fuel rs c p input)).
Proof.
  intros fuel rs c p input Hp. rewrite request_persisted_long.
  destruct (request_long fuel rs c _ input) as [e r]. unfold pers_of, pw_ok in *. cbn [fst pw_store].
  pose proof (saved_input e (r_flush r)) as Hsv. destruct (saved e (r_flush r)) as [sn|]; [exact (Hsv sn eq_refl)|].
  rewrite sess_store0. exact Hp.
Qed.

Lemma pw_eqv_refl : forall c p, pw_eqv c p p.
Proof. intros. unfold pw_eqv. auto. Qed.
Lemma pw_eqv_sym : forall c p q, pw_eqv c p q -> pw_eqv c q p.
Proof. unfold pw_eqv. intros c p q [A [B [C D]]]. auto. Qed.
Lemma pw_eqv_trans : forall c p q r, pw_eqv c p q -> pw_eqv c q r -> pw_eqv c p r.
Proof. unfold pw_eqv. intros c p q r [A [B [C D]]] [A' [B' [C' D']]]. repeat split; congruence. Qed.

Lemma refused_persisted_eqv : forall fuel rs c p input,
  refused input -> c_first c = None -> pw_ok c p ->
  pw_eqv c (fst (request_persisted fuel rs c p input)) p.
Proof.
  intros fuel rs c p input Hr Hf Hp. rewrite refused_persisted by assumption. cbn [fst].
  unfold pw_eqv. cbn [pw_store pw_w pw_log pw_taint]. repeat split.
  destruct (INPUT_LIMIT <? len input).
  - rewrite sess_store0. reflexivity.
  - cbn [sess]. apply norm_snap_idem. exact Hp.
Qed.

(* a history served by either driver; BisimProofs and props/C07, C17 state their theorems over these *)
Fixpoint serve_long (fuel : nat) (rs : rsrc) (c : config) (e : engine) (h : list bytes) : engine * list response :=
  match h with
  | [] => (e, [])
  | i :: h' =>
    let '(e1, r) := request_long fuel rs c e i in
    let '(e2, rr) := serve_long fuel rs c e1 h' in (e2, r :: rr)
  end.
Fixpoint serve_pers (fuel : nat) (rs : rsrc) (c : config) (p : pworld) (h : list bytes) : pworld * list response :=
  match h with
  | [] => (p, [])
  | i :: h' =>
    let '(p1, r) := request_persisted fuel rs c p i in
    let '(p2, rr) := serve_pers fuel rs c p1 h' in (p2, r :: rr)
  end.

Lemma serve_long_app : forall fuel rs c h1 h2 e,
  serve_long fuel rs c e (h1 ++ h2) =
  let '(e1, r1) := serve_long fuel rs c e h1 in
  let '(e2, r2) := serve_long fuel rs c e1 h2 in (e2, r1 ++ r2).
Proof.
  induction h1 as [|i h1 IH]; intros h2 e.
  - cbn [List.app serve_long]. destruct (serve_long fuel rs c e h2); reflexivity.
  - cbn [List.app serve_long]. destruct (request_long fuel rs c e i) as [e1 r]. rewrite IH.
    destruct (serve_long fuel rs c e1 h1) as [e2 r1]. destruct (serve_long fuel rs c e2 h2) as [e3 r2]. reflexivity.
Qed.
Lemma serve_pers_app : forall fuel rs c h1 h2 p,
  serve_pers fuel rs c p (h1 ++ h2) =
  let '(p1, r1) := serve_pers fuel rs c p h1 in
  let '(p2, r2) := serve_pers fuel rs c p1 h2 in (p2, r1 ++ r2).
Proof.
  induction h1 as [|i h1 IH]; intros h2 p.
  - cbn [List.app serve_pers]. destruct (serve_pers fuel rs c p h2); reflexivity.
  - cbn [List.app serve_pers]. destruct (request_persisted fuel rs c p i) as [p1 r]. rewrite IH.
    destruct (serve_pers fuel rs c p1 h1) as [p2 r1]. destruct (serve_pers fuel rs c p2 h2) as [p3 r2]. reflexivity.
Qed.

Lemma serve_pers_ok : forall fuel rs c h p, pw_ok c p -> pw_ok c (fst (serve_pers fuel rs c p h)).
Proof.
  induction h as [|i h IH]; intros p Hp; [exact Hp|].
  cbn [serve_pers]. pose proof (request_persisted_ok fuel rs c p i Hp) as H1.
  destruct (request_persisted fuel rs c p i) as [p1 r]. cbn [fst] in H1.
  specialize (IH p1 H1). destruct (serve_pers fuel rs c p1 h) as [p2 rr]. exact IH.
Qed.

Lemma serve_pers_eqv : forall fuel rs c h p q,
  c_first c = None -> pw_ok c p -> pw_ok c q -> pw_eqv c p q ->
  snd (serve_pers fuel rs c p h) = snd (serve_pers fuel rs c q h)
  /\ pw_eqv c (fst (serve_pers fuel rs c p h)) (fst (serve_pers fuel rs c q h)).
Proof.
  induction h as [|i h IH]; intros p q Hf Hp Hq He; [split; [reflexivity|exact He]|].
  cbn [serve_pers]. pose proof (request_persisted_eqv fuel rs c p q i Hf Hp Hq He) as H1.
  destruct (request_persisted fuel rs c p i) as [p1 r]. destruct (request_persisted fuel rs c q i) as [q1 r'].
  destruct H1 as [Hr [He1 [Hp1 Hq1]]]. subst r'.
  destruct (IH p1 q1 Hf Hp1 Hq1 He1) as [IH1 IH2].
  destruct (serve_pers fuel rs c p1 h) as [p2 rr]. destruct (serve_pers fuel rs c q1 h) as [q2 rr'].
  cbn [fst snd] in *. subst. split; [reflexivity|exact IH2].
Qed.

Lemma serve_long_length : forall fuel rs c h e, List.length (snd (serve_long fuel rs c e h)) = List.length h.
Proof.
  induction h as [|i h IH]; intros e; [reflexivity|]. cbn [serve_long].
  destruct (request_long fuel rs c e i) as [e1 r]. specialize (IH e1).
  destruct (serve_long fuel rs c e1 h) as [e2 rr]. cbn [snd List.length] in *. congruence.
Qed.
Lemma serve_pers_length : forall fuel rs c h p, List.length (snd (serve_pers fuel rs c p h)) = List.length h.
Proof.
  induction h as [|i h IH]; intros p; [reflexivity|]. cbn [serve_pers].
  destruct (request_persisted fuel rs c p i) as [p1 r]. specialize (IH p1).
  destruct (serve_pers fuel rs c p1 h) as [p2 rr]. cbn [snd List.length] in *. congruence.
Qed.

Lemma pw_ok_initial : forall c w lg t, pw_ok c (mkPw None w lg t).
Proof. intros. unfold pw_ok. cbn [pw_store sess fst]. apply fresh_state_input. Qed.

(* C17, persisted operation: a refused input inserted anywhere in a history *)
Lemma as_if_never_sent_pers : forall fuel rs c p h1 bad h2,
  c_first c = None -> pw_ok c p -> refused bad ->
  exists r1 rb r2,
    snd (serve_pers fuel rs c p (h1 ++ [bad] ++ h2)) = r1 ++ [rb] ++ r2
    /\ snd (serve_pers fuel rs c p (h1 ++ h2)) = r1 ++ r2
    /\ List.length r1 = List.length h1
    /\ r_out rb = [] /\ r_exec rb = SErr EGen None /\ r_flush rb = FErr EFlushNoExec
    /\ pw_eqv c (fst (serve_pers fuel rs c p (h1 ++ [bad] ++ h2))) (fst (serve_pers fuel rs c p (h1 ++ h2))).
Proof.
  intros fuel rs c p h1 bad h2 Hf Hp Hr.
  pose proof (serve_pers_ok fuel rs c h1 p Hp) as Hp1. pose proof (serve_pers_length fuel rs c h1 p) as Hl.
  rewrite !serve_pers_app.
  destruct (serve_pers fuel rs c p h1) as [p1 r1]. cbn [fst snd] in Hp1, Hl.
  pose proof (refused_persisted_eqv fuel rs c p1 bad Hr Hf Hp1) as He.
  pose proof (request_persisted_ok fuel rs c p1 bad Hp1) as Hpb.
  cbn [List.app serve_pers]. rewrite (refused_persisted fuel rs c p1 bad Hr Hf) in *. cbn [fst] in He, Hpb.
  destruct (serve_pers_eqv fuel rs c h2 _ p1 Hf Hpb Hp1 He) as [E1 E2].
  destruct (serve_pers fuel rs c _ h2) as [pb2 rr]. destruct (serve_pers fuel rs c p1 h2) as [p12 rr'].
  cbn [fst snd] in *. subst rr'. eexists r1, _, rr. repeat split; try assumption; apply E2.
Qed.

(* C17, long-lived engine: a refused input sent to an initialised engine whose last Flush completed *)
Lemma serve_long_refused : forall fuel rs c e bad h2,
  refused bad -> e_initd e = true -> settled e ->
  exists rb, r_out rb = [] /\ r_exec rb = SErr EGen None
    /\ snd (serve_long fuel rs c e (bad :: h2)) = rb :: snd (serve_long fuel rs c e h2)
    /\ (h2 <> [] -> fst (serve_long fuel rs c e (bad :: h2)) = fst (serve_long fuel rs c e h2)).
Proof.
  intros fuel rs c e bad h2 Hr Hi Hs. exists (snd (request_long fuel rs c e bad)).
  split; [|split]; [rewrite refused_request_settled by assumption; destruct (stuck c e); reflexivity..|].
  cbn [serve_long]. destruct h2 as [|j h2].
  - destruct (request_long fuel rs c e bad) as [eb rb]. split; [reflexivity|congruence].
  - pose proof (refused_then_next fuel rs c e bad j Hr Hi Hs) as Hn.
    destruct (request_long fuel rs c e bad) as [eb rb]. cbn [fst serve_long] in *. rewrite Hn.
    destruct (request_long fuel rs c e j) as [e1 r1]. destruct (serve_long fuel rs c e1 h2) as [e2 rr]. split; reflexivity.
Qed.

Lemma as_if_never_sent_long : forall fuel rs c e h1 bad h2,
  refused bad -> e_initd (fst (serve_long fuel rs c e h1)) = true -> settled (fst (serve_long fuel rs c e h1)) ->
  exists r1 rb r2,
    snd (serve_long fuel rs c e (h1 ++ [bad] ++ h2)) = r1 ++ [rb] ++ r2
    /\ snd (serve_long fuel rs c e (h1 ++ h2)) = r1 ++ r2
    /\ List.length r1 = List.length h1
    /\ r_out rb = [] /\ r_exec rb = SErr EGen None
    /\ (h2 <> [] -> fst (serve_long fuel rs c e (h1 ++ [bad] ++ h2)) = fst (serve_long fuel rs c e (h1 ++ h2))).
Proof.
  intros fuel rs c e h1 bad h2 Hr. pose proof (serve_long_length fuel rs c h1 e) as Hl. rewrite !serve_long_app.
  destruct (serve_long fuel rs c e h1) as [e1 r1]. cbn [fst snd] in *. intros Hi Hs.
  destruct (serve_long_refused fuel rs c e1 bad h2 Hr Hi Hs) as (rb & Ho & Hx & Hsnd & Hfst).
  change ([bad] ++ h2) with (bad :: h2).
  destruct (serve_long fuel rs c e1 (bad :: h2)) as [eb2 rr]. destruct (serve_long fuel rs c e1 h2) as [e12 rr'].
  cbn [fst snd] in *. subst rr. exists r1, rb, rr'. repeat split; assumption.
Qed.

(* boolean forms of the hypotheses (for witnesses) *)
Lemma refused_bool_spec : forall i, refused_bool i = true -> refused i.
Proof.
  intros i H. unfold refused_bool in H. apply orb_true_iff in H as [H|H].
  - left. apply N.ltb_lt. exact H.
  - apply andb_true_iff in H as [H1 H2]. right. split; [apply N.ltb_lt; exact H1|].
    destruct (valid_input_b i); [discriminate|reflexivity].
Qed.
Lemma refused_bool_complete : forall i, refused i -> refused_bool i = true.
Proof.
  intros i [H|[H1 H2]]; unfold refused_bool.
  - apply orb_true_iff. left. apply N.ltb_lt. exact H.
  - apply orb_true_iff. right. rewrite H2. apply andb_true_iff. split; [apply N.ltb_lt; exact H1|reflexivity].
Qed.

Definition settled_b (e : engine) : bool :=
  negb (e_execd e) || (negb (getf (v_st (e_v e)) FLAG_DIRTY) && negb (e_exiting e)).
Lemma settled_b_spec : forall e, settled_b e = true -> settled e.
Proof.
  intros e H Hx. unfold settled_b in H. rewrite Hx in H. cbn [negb orb] in H.
  apply andb_true_iff in H as [H1 H2]. split; [destruct (getf _ _)|destruct (e_exiting e)]; try discriminate; reflexivity.
Qed.
Definition delivered_b (e : engine) : bool :=
  negb (e_execd e) || (negb (getf (v_st (e_v e)) FLAG_DIRTY) && negb (e_exiting e) && match e_exit e with [] => true | _ => false end).
Lemma delivered_b_spec : forall e, delivered_b e = true -> delivered e.
Proof.
  intros e H. unfold delivered_b in H. destruct (e_execd e) eqn:Hx; [|left; exact Hx]. cbn [negb orb] in H.
  apply andb_true_iff in H as [H H3]. apply andb_true_iff in H as [H1 H2]. right.
  split; [destruct (getf _ _); [discriminate|reflexivity]|]. split; [destruct (e_exiting e); [discriminate|reflexivity]|].
  destruct (e_exit e); [reflexivity|discriminate].
Qed.

(* The application, configurations and inputs of the concrete runs in props/C17.v (C17_ex_hypotheses, C17_ex_history,
   C17_ex_norm, C17_refuted_first, C17_refuted_long_first_cont) and props/C07.v (C07_refuted_first, C07_refuted_longbad).
   Three nodes: root -(1)-> foo -(0)-> back; _catch *)
Definition w_nodes : list (bytes * bytes) :=
  [(s2b "root"%string, encode_prog [IHalt; IInCmp (s2b "foo"%string) (s2b "1"%string)]);
   (s2b "foo"%string, encode_prog [IHalt; IInCmp (s2b "_"%string) (s2b "0"%string)]);
   (s2b "_catch"%string, encode_prog [IHalt; IInCmp (s2b "_"%string) (s2b "*"%string)])].
Definition w_app : app :=
  mkApp w_nodes [(s2b "root"%string, s2b "root"%string); (s2b "foo"%string, s2b "foo"%string); (s2b "_catch"%string, s2b "catch"%string)] [] [].
Definition w_cfg : config := mkCfg 0 [] 1 0 [] [] false None.
(* the same with an entry function that echoes the input (case first-refused of go/cmd/vh/engine.go) *)
Definition w_cfg_first : config := mkCfg 0 [] 1 0 [] [] false (Some [mkFres (s2b "f"%string) true 0 [] [] false]).
Definition w_bad : bytes := s2b "!bad"%string.
Definition w_long : bytes := rep 57 300.        (* "999…", 300 bytes: over-long, matches the pattern *)
Definition w_longbad : bytes := rep 33 300.     (* "!!!…", 300 bytes: over-long and malformed *)

(* the log shows a call of the entry function with input i: how C17_refuted_first says that refused bytes reached it *)
Definition got_input (lg : list ev) (i : bytes) : bool :=
  existsb (fun e => match e with
                    | EvFunc s _ (Some x) => bytes_eqb s first_sym && bytes_eqb x i
                    | _ => false
                    end) lg.
