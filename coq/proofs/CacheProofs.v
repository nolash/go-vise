(* The cache model: what each operation does to the frames, the depth of the frame
   stack, and C09: the invariant CInv under arbitrary operation sequences, a rejected operation changes
   nothing, no panic under CInv, Get after Add. *)
From Coq Require Import Lia ZArith.
From Coq Require Import ZifyN ZifyNat ZifyBool.
From Vise Require Import Bytes Errors CacheModel BytesProofs.
Local Open Scope N_scope.

Lemma NoDup_app {A} (a b : list A) :
  NoDup (a ++ b) <-> NoDup a /\ NoDup b /\ (forall x, In x a -> ~ In x b).
Proof.
  induction a as [|y a IH]; cbn.
  - split; [intros H; repeat split; [constructor|exact H|tauto]|tauto].
  - rewrite !NoDup_cons_iff, IH, in_app_iff. split.
    + intros (Hy & Ha & Hb & Hd). repeat split; try tauto. intros x [<-|Hx]; [tauto|auto].
    + intros ((Hy & Ha) & Hb & Hd). repeat split; auto. intros [H|H]; [auto|apply (Hd y); auto].
Qed.

Lemma update_nth_app {A} (pre : list A) x post g :
  update_nth (List.length pre) g (pre ++ x :: post) = pre ++ g x :: post.
Proof. induction pre as [|y pre IH]; cbn; [reflexivity|]. f_equal. exact IH. Qed.

Lemma update_nth_ne {A} n (g : A -> A) l : l <> [] -> update_nth n g l <> [].
Proof. destruct l, n; cbn [update_nth]; congruence. Qed.

Lemma nth_error_app_mid {A} (pre : list A) x post : nth_error (pre ++ x :: post) (List.length pre) = Some x.
Proof. induction pre; cbn; auto. Qed.

Lemma to_nat_len {A} (l : list A) : N.to_nat (len l) = List.length l.
Proof. apply Nat2N.id. Qed.

Lemma w32_add_l a b : w32 (w32 a + b) = w32 (a + b).
Proof. apply N.add_mod_idemp_l. discriminate. Qed.
Lemma w32_idem a : w32 (w32 a) = w32 a.
Proof. apply N.mod_mod. discriminate. Qed.

Lemma cache_eta c : c = mkCache (c_size c) (c_use c) (c_frames c) (c_sizes c) (c_last c).
Proof. destruct c; reflexivity. Qed.

Lemma frame_bytes_cons k v f : frame_bytes ((k, v) :: f) = len v + frame_bytes f.
Proof. reflexivity. Qed.
Lemma total_bytes_cons f fs : total_bytes (f :: fs) = frame_bytes f + total_bytes fs.
Proof. reflexivity. Qed.

Lemma total_bytes_app a b : total_bytes (a ++ b) = total_bytes a + total_bytes b.
Proof. induction a as [|f a IH]; [reflexivity|]. cbn [app]. rewrite !total_bytes_cons, IH. lia. Qed.

Lemma total_split pre (f : frame) post :
  total_bytes (pre ++ f :: post) = total_bytes pre + frame_bytes f + total_bytes post.
Proof. rewrite total_bytes_app, total_bytes_cons. lia. Qed.

Lemma value_le_total fs (f : frame) k v : In f fs -> alookup k f = Some v -> len v <= total_bytes fs.
Proof.
  intros Hf Hk. apply in_split in Hf as (pre & post & ->). rewrite total_split.
  apply alookup_in_pair in Hk. enough (len v <= frame_bytes f) by lia. clear pre post.
  induction f as [|[k' v'] f IH]; [destruct Hk|]. rewrite frame_bytes_cons.
  destruct Hk as [[= _ ->]|Hk]; [lia|]. specialize (IH Hk). lia.
Qed.

Lemma frame_bytes_aset k v f :
  frame_bytes (aset k v f) + len (match alookup k f with Some old => old | None => [] end)
  = frame_bytes f + len v.
Proof.
  induction f as [|[k' v'] f IH]; cbn [alookup aset]; [cbn; lia|].
  destruct (bytes_eqb k k'); rewrite !frame_bytes_cons; lia.
Qed.

Lemma all_keys_cons f fs : all_keys (f :: fs) = map fst f ++ all_keys fs.
Proof. reflexivity. Qed.

Lemma all_keys_app a b : all_keys (a ++ b) = all_keys a ++ all_keys b.
Proof. unfold all_keys. rewrite map_app, concat_app. reflexivity. Qed.

Lemma all_keys_mid pre (f : frame) post :
  all_keys (pre ++ f :: post) = all_keys pre ++ map fst f ++ all_keys post.
Proof. rewrite all_keys_app. reflexivity. Qed.

Lemma in_all_keys fs f k : In f fs -> In k (map fst f) -> In k (all_keys fs).
Proof.
  intros Hf Hk. unfold all_keys. apply in_concat. exists (map fst f). split; [apply in_map; exact Hf|exact Hk].
Qed.

Lemma frame_of_from_none i fs k : frame_of_from i fs k = None <-> ~ In k (all_keys fs).
Proof.
  revert i. induction fs as [|f fs IH]; intros i; cbn [frame_of_from]; [cbn; tauto|].
  rewrite all_keys_cons, in_app_iff, <- (ahas_in k f).
  destruct (ahas k f); [split; [discriminate|tauto]|]. rewrite IH. intuition discriminate.
Qed.

Lemma frame_of_from_some i fs k j :
  frame_of_from i fs k = Some j ->
  exists pre f post, fs = pre ++ f :: post /\ j = i + len pre /\ In k (map fst f)
                     /\ ~ In k (all_keys pre).
Proof.
  revert i. induction fs as [|f fs IH]; intros i; cbn [frame_of_from]; [discriminate|].
  destruct (ahas k f) eqn:E.
  - intros H. injection H as <-. exists [], f, fs. apply ahas_in in E. cbn. repeat split; auto. lia.
  - intros H. apply IH in H. destruct H as (pre & g & post & -> & -> & Hin & Hpre).
    exists (f :: pre), g, post. rewrite len_cons, all_keys_cons, in_app_iff, <- (ahas_in k f), E.
    repeat split; [lia|exact Hin|intuition discriminate].
Qed.

Lemma frame_of_from_app pre : forall i fs k,
  frame_of_from i (pre ++ fs) k =
  match frame_of_from i pre k with Some j => Some j | None => frame_of_from (i + len pre) fs k end.
Proof.
  induction pre as [|f pre IH]; intros i fs k; cbn [app frame_of_from].
  - rewrite len_nil, N.add_0_r. reflexivity.
  - destruct (ahas k f); [reflexivity|]. rewrite IH, len_cons, N.add_assoc. reflexivity.
Qed.

Lemma frame_of_from_skip pre : forall i fs k,
  ~ In k (all_keys pre) -> frame_of_from i (pre ++ fs) k = frame_of_from (i + len pre) fs k.
Proof.
  intros i fs k Hn. apply (frame_of_from_none i) in Hn. rewrite frame_of_from_app, Hn. reflexivity.
Qed.

Lemma frame_of_from_in_pre pre : forall i fs k,
  In k (all_keys pre) ->
  exists j, frame_of_from i (pre ++ fs) k = Some j /\ i <= j < i + len pre
            /\ nth_error (pre ++ fs) (N.to_nat (j - i)) = nth_error pre (N.to_nat (j - i)).
Proof.
  intros i fs k Hin. rewrite frame_of_from_app.
  destruct (frame_of_from i pre k) as [j|] eqn:E; [|apply frame_of_from_none in E; contradiction].
  exists j. split; [reflexivity|].
  apply frame_of_from_some in E. destruct E as (p & f & q & -> & -> & _).
  rewrite len_app, len_cons. split; [lia|].
  replace (N.to_nat (i + len p - i)) with (List.length p) by (rewrite <- to_nat_len; lia).
  rewrite <- app_assoc. cbn [app]. rewrite !nth_error_app_mid. reflexivity.
Qed.

Lemma frame_get_mid pre (f : frame) post k :
  frame_get (pre ++ f :: post) (len pre) k = match alookup k f with Some v => v | None => [] end.
Proof. unfold frame_get. rewrite to_nat_len, nth_error_app_mid. reflexivity. Qed.

Lemma top_index_app c pre top : c_frames c = pre ++ [top] -> N.to_nat (top_index c) = List.length pre.
Proof. intros H. unfold top_index, len. rewrite H, app_length. cbn. lia. Qed.

(* Pop never leaves the cache without a frame: below the last one it starts an empty one *)
Definition keep1 (fs : list frame) : list frame := match fs with [] => [[]] | _ => fs end.

Lemma keep1_ne fs : keep1 fs <> [].
Proof. destruct fs; discriminate. Qed.
Lemma len_keep1 fs : len (keep1 fs) = N.max 1 (len fs).
Proof. destruct fs; [reflexivity|]. cbn [keep1]. rewrite len_cons. lia. Qed.
Lemma total_keep1 fs : total_bytes (keep1 fs) = total_bytes fs.
Proof. destruct fs; reflexivity. Qed.
Lemma all_keys_keep1 fs : all_keys (keep1 fs) = all_keys fs.
Proof. destruct fs; reflexivity. Qed.

Lemma cache_pop_cases c :
  match cache_pop c with
  | Ok c' => exists pre top, c_frames c = pre ++ [top]
      /\ c' = mkCache (c_size c) (fold_left (fun u kv => sub32 u (w32 (len (snd kv)))) top (c_use c))
                      (keep1 pre) (remove_keys top (c_sizes c)) (c_last c)
  | Err _ => c_frames c = []
  | Panic _ => False
  end.
Proof.
  unfold cache_pop. destruct (rev (c_frames c)) as [|top rr] eqn:E;
    apply (f_equal (@rev _)) in E; rewrite rev_involutive in E; [exact E|].
  exists (rev rr), top. split; [exact E|reflexivity].
Qed.

Lemma cache_add_cases c k v l :
  match cache_add c k v l with
  | Ok c' => exists pre top, c_frames c = pre ++ [top] /\ ~ In k (all_keys (c_frames c)) /\ (0 < l -> len v <= l)
      /\ (0 < c_size c -> 0 < len v -> w32 (c_use c + w32 (len v)) <= c_size c)
      /\ c' = mkCache (c_size c) (w32 (c_use c + w32 (len v))) (pre ++ [aset k v top]) (aset k l (c_sizes c)) v
  | Err _ => True
  | Panic _ => c_frames c = []
  end.
Proof.
  unfold cache_add, check_capacity.
  destruct ((0 <? l) && (l <? len v)) eqn:El; [exact I|].
  destruct (frame_of c k) as [i|] eqn:Hnew; [destruct (i =? top_index c); exact I|].
  apply frame_of_from_none in Hnew.
  destruct (c_frames c) as [|f0 fs0] eqn:Ef; [destruct ((0 <? len v) && _); [exact I|reflexivity]|].
  destruct (@exists_last _ (f0 :: fs0)) as (pre & top & Hfs); [discriminate|].
  rewrite (top_index_app c pre top) by congruence. rewrite Hfs in Hnew |- *. rewrite update_nth_app.
  destruct (N.ltb_spec 0 (len v)) as [Hv|Hv]; cbn [andb].
  - (* a non-empty value: the capacity is checked, and a length that wraps to 0 is refused *)
    destruct (N.eqb_spec (c_size c) 0) as [Hc|Hc];
      [|destruct (N.ltb_spec (c_size c) (w32 (c_use c + w32 (len v)))) as [Hover|Hfit]; [exact I|]];
      (destruct (w32 (len v) =? 0); [exact I|]); exists pre, top; repeat split; auto; lia.
  - replace (len v) with 0 by lia. exists pre, top. repeat split; auto; lia.
Qed.

Lemma cache_update_cases c k v :
  let (c', e) := cache_update_raw c k v in
  match e with
  | Some _ => c' = c \/ exists f old, In f (c_frames c) /\ alookup k f = Some old
      /\ c' = mkCache (c_size c) (w32 (sub32 (c_use c) (w32 (len old)) + w32 (len old))) (c_frames c) (c_sizes c) (c_last c)
  | None => exists pre f post old, c_frames c = pre ++ f :: post /\ ~ In k (all_keys pre) /\ alookup k f = Some old
      /\ c' = mkCache (c_size c) (w32 (sub32 (c_use c) (w32 (len old)) + w32 (len v)))
                      (pre ++ aset k v f :: post) (c_sizes c) (c_last c)
      /\ (forall l, alookup k (c_sizes c) = Some l -> 0 < l -> len v <= l)
      /\ (check_capacity (c_size c) (sub32 (c_use c) (w32 (len old))) v =? 0) && (0 <? len v) = false
  end.
Proof.
  unfold cache_update_raw.
  destruct ((0 <? _) && _) eqn:Elim; [auto|].
  destruct (frame_of c k) as [i|] eqn:Efo; [|auto].
  apply frame_of_from_some in Efo as (pre & f & post & Hfs & -> & Hkin & Hpre). rewrite N.add_0_l.
  destruct (alookup k f) as [old|] eqn:Eold; [|apply alookup_none in Eold; contradiction].
  rewrite Hfs, frame_get_mid, Eold. cbn [c_size c_use c_frames c_sizes c_last].
  rewrite to_nat_len, !update_nth_app. cbn [c_size c_use c_frames c_sizes c_last].
  rewrite ?update_nth_app, !aset_aset.
  destruct (_ && (0 <? len v)) eqn:Echk.
  - right. exists f, old. rewrite (aset_same k old f Eold). auto using in_elt.
  - exists pre, f, post, old. repeat split; auto.
    intros l Hl H0. rewrite Hl in Elim. lia.
Qed.

Lemma cache_get_no_panic ca k : is_panic (cache_get ca k) = false.
Proof. unfold cache_get. destruct (frame_of ca k); reflexivity. Qed.

Lemma levels_ne ca : c_frames ca <> [] <-> 1 <= cache_levels ca.
Proof.
  unfold cache_levels. destruct (c_frames ca); [rewrite len_nil|rewrite len_cons]; split; intros H; try lia; try discriminate.
  contradiction.
Qed.

Lemma levels_frames ca ca' : cache_levels ca' = cache_levels ca -> c_frames ca <> [] -> c_frames ca' <> [].
Proof. rewrite !levels_ne. lia. Qed.

Lemma push_levels ca : cache_levels (cache_push ca) = cache_levels ca + 1.
Proof. unfold cache_levels, cache_push. cbn [c_frames]. rewrite len_app, len_cons, len_nil. lia. Qed.

Lemma pop_levels ca :
  c_frames ca <> [] ->
  exists ca', cache_pop ca = Ok ca' /\ c_frames ca' <> []
    /\ cache_levels ca' = (if cache_levels ca =? 1 then 1 else cache_levels ca - 1).
Proof.
  intros Hne. pose proof (cache_pop_cases ca) as C.
  destruct (cache_pop ca) as [ca'| |]; [|contradiction..]. destruct C as (pre & top & Hfs & ->).
  eexists. split; [reflexivity|]. unfold cache_levels. cbn [c_frames]. rewrite Hfs, len_keep1, len_app, len_cons, len_nil.
  split; [apply keep1_ne|]. destruct (_ =? 1) eqn:E; lia.
Qed.

Lemma pop_base ca ca' : hd_error (c_frames ca) = Some [] -> cache_pop ca = Ok ca' -> hd_error (c_frames ca') = Some [].
Proof.
  intros H Hp. pose proof (cache_pop_cases ca) as C. rewrite Hp in C. destruct C as (pre & top & Hfs & ->).
  cbn [c_frames]. rewrite Hfs in H. destruct pre; [reflexivity|exact H].
Qed.

Lemma pop_never_panics ca : is_panic (cache_pop ca) = false.
Proof. pose proof (cache_pop_cases ca). destruct (cache_pop ca); [reflexivity..|contradiction]. Qed.

Lemma cache_reset_levels c : c_frames c <> [] -> cache_levels (cache_reset c) = 1.
Proof. unfold cache_reset, cache_levels. destruct (c_frames c); [congruence|reflexivity]. Qed.

Lemma cache_add_levels ca k v l :
  c_frames ca <> [] ->
  match cache_add ca k v l with
  | Ok ca' => cache_levels ca' = cache_levels ca
  | Err _ => True
  | Panic _ => False
  end.
Proof.
  intros Hne. pose proof (cache_add_cases ca k v l) as C.
  destruct (cache_add ca k v l); [|exact I|contradiction]. destruct C as (pre & top & Hfs & _ & _ & _ & ->).
  unfold cache_levels. cbn [c_frames]. rewrite Hfs, !len_app. reflexivity.
Qed.

Lemma cache_update_levels ca k v : cache_levels (fst (cache_update_raw ca k v)) = cache_levels ca.
Proof.
  pose proof (cache_update_cases ca k v) as C. destruct (cache_update_raw ca k v) as [c' [e|]]; unfold cache_levels; cbn [fst].
  - destruct C as [->|(f & old & _ & _ & ->)]; reflexivity.
  - destruct C as (pre & f & post & old & Hfs & _ & _ & -> & _). cbn [c_frames]. rewrite Hfs, !len_app, !len_cons. reflexivity.
Qed.

Lemma cache_push_frames ca : c_frames (cache_push ca) <> [].
Proof. apply levels_ne. rewrite push_levels. lia. Qed.

Lemma cache_add_frames ca k v l :
  c_frames ca <> [] ->
  match cache_add ca k v l with Ok ca' => c_frames ca' <> [] | Err _ => True | Panic _ => False end.
Proof.
  intros Hne. pose proof (cache_add_levels ca k v l Hne) as H.
  destruct (cache_add ca k v l); [exact (levels_frames _ _ H Hne)|exact H|exact H].
Qed.

Lemma cache_update_frames ca k v : c_frames ca <> [] -> c_frames (fst (cache_update_raw ca k v)) <> [].
Proof. apply levels_frames, cache_update_levels. Qed.

Lemma cache_reset_frames ca : c_frames ca <> [] -> c_frames (cache_reset ca) <> [].
Proof. intros H. apply levels_ne. rewrite cache_reset_levels by exact H. reflexivity. Qed.

Definition limits_hold (c : cache) : Prop :=
  forall f k v, In f (c_frames c) -> alookup k f = Some v ->
    exists l, alookup k (c_sizes c) = Some l /\ (0 < l -> len v <= l).

(* The use counter is the bytes held, mod 2^32; they are within the capacity if one is set (0 is none); no key occurs
   twice, in one frame or in two; a frame exists; every value has a recorded limit and, unless that is 0, is within it;
   the capacity is a uint32. *)
Record CInv (c : cache) : Prop := {
  inv_use : c_use c = w32 (total_bytes (c_frames c));
  inv_cap : 0 < c_size c -> total_bytes (c_frames c) <= c_size c;
  inv_scope : NoDup (all_keys (c_frames c));
  inv_frames : c_frames c <> [];
  inv_limits : limits_hold c;
  inv_cap32 : c_size c < 4294967296
}.

Lemma new_cache_inv cap : cap < 4294967296 -> CInv (new_cache cap).
Proof.
  intros H. constructor; cbn; try reflexivity; try lia; try constructor; try discriminate.
  intros f k v [<-|[]]. cbn. discriminate.
Qed.

(* value lengths stay below 2^32 - capacity: excludes the uint32 wrap of the usage counter,
   which needs more than 4 GiB of cached values *)
Definition op_bounded (cap : N) (o : cop) : Prop :=
  match o with
  | OAdd _ v _ | OUpdate _ v => len v + cap < 4294967296
  | _ => True
  end.

(* What Add and Update share: the caller accounts for the bytes and says what the limit table holds. *)
Lemma set_frame_inv c pre f post k v l use' sizes' last' :
  CInv c -> c_frames c = pre ++ f :: post ->
  In k (map fst f) \/ ~ In k (all_keys (c_frames c)) ->
  use' = w32 (total_bytes (pre ++ aset k v f :: post)) ->
  (0 < c_size c -> total_bytes (pre ++ aset k v f :: post) <= c_size c) ->
  alookup k sizes' = Some l -> (0 < l -> len v <= l) ->
  (forall k2, k2 <> k -> alookup k2 sizes' = alookup k2 (c_sizes c)) ->
  CInv (mkCache (c_size c) use' (pre ++ aset k v f :: post) sizes' last').
Proof.
  intros [_ _ Hnd _ Hlim Hc32] Hfs Hk Huse Hcap Hl Hlv Hothers.
  rewrite Hfs, all_keys_mid in Hnd, Hk.
  assert (Hout : ~ In k (all_keys pre) /\ ~ In k (all_keys post)).
  { destruct Hk as [Hk|Hk]; [|rewrite !in_app_iff in Hk; tauto].
    apply NoDup_app in Hnd as (_ & Hnd & Hpre). apply NoDup_app in Hnd as (_ & _ & Hpost).
    split; [intros H; apply (Hpre k H); apply in_or_app; auto|auto]. }
  constructor; unfold limits_hold; cbn [c_size c_use c_frames c_sizes c_last]; try assumption.
  - rewrite all_keys_mid, keys_aset. destruct (ahas k f) eqn:E; [exact Hnd|].
    rewrite <- app_assoc. cbn [app]. rewrite app_assoc.
    apply (NoDup_Add (Add_app k _ _)). rewrite <- app_assoc. split; [exact Hnd|].
    rewrite !in_app_iff, <- (ahas_in k f), E. intuition discriminate.
  - destruct pre; discriminate.
  - intros g k2 v2 Hg Hk2.
    assert (Hold : forall g, k2 <> k -> In g (c_frames c) -> alookup k2 g = Some v2 ->
                   exists l2, alookup k2 sizes' = Some l2 /\ (0 < l2 -> len v2 <= l2))
      by (intros g' Hne Hg' Hk2'; rewrite (Hothers k2 Hne); eapply Hlim; eassumption).
    assert (Hin : forall g, In g pre \/ In g post -> alookup k2 g = Some v2 -> k2 <> k)
      by (intros g' [H|H] Hv ->; [apply (proj1 Hout)|apply (proj2 Hout)];
          (eapply in_all_keys; [exact H|eapply alookup_in; exact Hv])).
    rewrite Hfs in Hold. apply in_app_or in Hg. destruct Hg as [Hg|[<-|Hg]].
    + apply (Hold g); [eapply Hin; eauto|apply in_or_app; auto|exact Hk2].
    + destruct (bytes_eqb_spec k2 k) as [->|Hne].
      * rewrite alookup_aset_same in Hk2. injection Hk2 as <-. eauto.
      * rewrite alookup_aset_other in Hk2 by exact Hne.
        apply (Hold f); [exact Hne|apply in_or_app; right; left; reflexivity|exact Hk2].
    + apply (Hold g); [eapply Hin; eauto|apply in_or_app; right; right; exact Hg|exact Hk2].
Qed.

Lemma cache_add_inv c k v l c' :
  CInv c -> len v + c_size c < 4294967296 -> cache_add c k v l = Ok c' ->
  CInv c' /\ c_size c' = c_size c.
Proof.
  intros Hc Hb H. pose proof Hc as [Huse Hcap _ _ _ _].
  pose proof (cache_add_cases c k v l) as C. rewrite H in C. destruct C as (pre & top & Hfs & Hnew & Hl & Hfit & ->).
  split; [|reflexivity].
  assert (Htot : total_bytes (pre ++ [aset k v top]) = total_bytes (c_frames c) + len v).
  { pose proof (frame_bytes_aset k v top) as Hb'.
    replace (alookup k top) with (@None bytes) in Hb'.
    - rewrite Hfs, !total_split. cbn in *. lia.
    - symmetry. apply alookup_none. intros Hin. apply Hnew. rewrite Hfs, all_keys_mid, !in_app_iff. auto. }
  apply (set_frame_inv c pre top [] k v l); auto.
  - rewrite Htot, Huse, w32_add. reflexivity.
  - rewrite Htot. intros Hp. specialize (Hcap Hp). specialize (Hfit Hp).
    destruct (N.eq_0_gt_0_cases (len v)) as [Hz|Hz]; [lia|].
    rewrite Huse, w32_add, w32_small in Hfit by lia. auto.
  - apply alookup_aset_same.
  - intros k2 Hne2. apply alookup_aset_other, Hne2.
Qed.

Lemma cache_update_raw_spec c k v :
  CInv c -> len v + c_size c < 4294967296 ->
  let r := cache_update_raw c k v in
  CInv (fst r) /\ c_size (fst r) = c_size c /\ (snd r <> None -> fst r = c).
Proof.
  intros Hc Hb. pose proof Hc as [Huse Hcap _ _ Hlim _]. cbv zeta.
  pose proof (cache_update_cases c k v) as C. destruct (cache_update_raw c k v) as [c' [e|]] eqn:E; cbn [fst snd].
  - (* refused: the blanked value and its bytes were put back *)
    destruct C as [->|(f & old & Hf & Eold & ->)]; [auto|]. pose proof (value_le_total _ _ _ _ Hf Eold) as Hle.
    rewrite Huse, sub32_w32, w32_add, N.sub_add, <- Huse, <- cache_eta by exact Hle. auto.
  - (* replaced: blanking the old value had released exactly its bytes *)
    destruct C as (pre & f & post & old & Hfs & _ & Eold & -> & Hlimit & Echk).
    split; [|split; [reflexivity|intros H; exfalso; apply H; reflexivity]].
    pose proof (frame_bytes_aset k v f) as Hnew. pose proof (frame_bytes_aset k [] f) as Hblank.
    rewrite Eold in Hnew, Hblank.
    assert (Htot : total_bytes (pre ++ aset k v f :: post) + len old = total_bytes (c_frames c) + len v)
      by (rewrite Hfs, !total_split; lia).
    assert (Hold_le : len old <= total_bytes (c_frames c)) by (rewrite Hfs, total_split; cbn in Hblank; lia).
    rewrite Huse, sub32_w32 in Echk |- * by exact Hold_le.
    destruct (Hlim f k old) as [l [Hl _]]; [rewrite Hfs; apply in_or_app; right; left; reflexivity|exact Eold|].
    apply (set_frame_inv c pre f post k v l); auto.
    + left. eapply alookup_in, Eold.
    + rewrite w32_add. f_equal. lia.
    + intros Hp. specialize (Hcap Hp). unfold check_capacity in Echk.
      destruct (N.eqb_spec (c_size c) 0); [lia|].
      destruct (N.ltb_spec (c_size c) (w32 (w32 (total_bytes (c_frames c) - len old) + w32 (len v)))) as [Hex|Hok];
        [|rewrite w32_add, w32_small in Hok by lia]; lia.
Qed.

Lemma fold_release (top : frame) : forall T, frame_bytes top <= T ->
  fold_left (fun u kv => sub32 u (w32 (len (snd kv)))) top (w32 T) = w32 (T - frame_bytes top).
Proof.
  induction top as [|[k v] top IH]; intros T H; cbn [fold_left]; [cbn; f_equal; lia|].
  rewrite frame_bytes_cons in H. cbn [snd]. rewrite sub32_w32 by lia. rewrite IH by lia.
  rewrite frame_bytes_cons. f_equal. lia.
Qed.

Lemma alookup_remove_keys (top : frame) : forall (s : list (bytes * N)) k,
  alookup k (remove_keys top s) = if ahas k top then None else alookup k s.
Proof.
  unfold remove_keys, ahas. induction top as [|[k' v] top IH]; intros s k; [reflexivity|].
  cbn [fold_left fst alookup]. rewrite IH.
  destruct (alookup k top); [destruct (bytes_eqb k k'); reflexivity|].
  destruct (bytes_eqb_spec k k') as [->|Hne]; [apply alookup_aremove_same|apply alookup_aremove_other, Hne].
Qed.

Lemma cache_pop_spec c c' :
  CInv c -> cache_pop c = Ok c' ->
  CInv c' /\ c_size c' = c_size c /\
  exists pre top, c_frames c = pre ++ [top]
    /\ c_frames c' = keep1 pre
    /\ total_bytes (c_frames c') + frame_bytes top = total_bytes (c_frames c)
    /\ (forall k, In k (map fst top) -> ~ In k (all_keys (c_frames c')) /\ alookup k (c_sizes c') = None).
Proof.
  intros [Huse Hcap Hnd Hne Hlim Hc32] H. pose proof (cache_pop_cases c) as C. rewrite H in C.
  destruct C as (pre & top & Hfs & ->). rewrite Hfs in Huse, Hcap, Hnd |- *. cbn [c_size c_use c_frames c_sizes c_last].
  rewrite all_keys_mid, app_nil_r in Hnd. apply NoDup_app in Hnd as (Hndpre & _ & Hdisj).
  assert (Htot : total_bytes (pre ++ [top]) = total_bytes pre + frame_bytes top)
    by (rewrite total_split; cbn; lia).
  rewrite Htot in *. rewrite total_keep1, all_keys_keep1.
  split; [|split; [reflexivity|]].
  - constructor; unfold limits_hold; cbn [c_size c_use c_frames c_sizes c_last]; rewrite ?total_keep1, ?all_keys_keep1; try assumption.
    + rewrite Huse, fold_release by lia. f_equal. lia.
    + lia.
    + apply keep1_ne.
    + intros g k2 v2 Hg Hk2.
      assert (Hg' : In g pre) by (destruct pre; [destruct Hg as [<-|[]]; discriminate|exact Hg]).
      destruct (Hlim g k2 v2) as [l [Hl Hle]]; [rewrite Hfs; apply in_or_app; auto|exact Hk2|].
      exists l. split; [|exact Hle]. rewrite alookup_remove_keys.
      destruct (ahas k2 top) eqn:E; [|exact Hl]. apply ahas_in in E. exfalso. apply (Hdisj k2); [|exact E].
      eapply in_all_keys; [exact Hg'|eapply alookup_in; exact Hk2].
  - exists pre, top. do 3 (split; [reflexivity|]). intros k Hk. split; [intros Hin; apply (Hdisj k Hin Hk)|].
    rewrite alookup_remove_keys. apply ahas_in in Hk. rewrite Hk. reflexivity.
Qed.

Lemma cache_reset_inv c : CInv c -> CInv (cache_reset c) /\ c_size (cache_reset c) = c_size c.
Proof.
  intros [Huse Hcap Hnd Hne Hlim Hc32]. unfold cache_reset.
  destruct (c_frames c) as [|f0 rest] eqn:Efs; [contradiction|]. split; [|reflexivity].
  rewrite total_bytes_cons in Hcap. rewrite all_keys_cons in Hnd. apply NoDup_app in Hnd as (Hnd & _).
  constructor; unfold limits_hold; cbn [c_size c_use c_frames c_sizes c_last]; try assumption.
  - cbn. f_equal. lia.
  - cbn. lia.
  - rewrite all_keys_cons. cbn. rewrite app_nil_r. exact Hnd.
  - discriminate.
  - intros g k v [<-|[]] Hk. apply (Hlim f0 k v); [rewrite Efs; left; reflexivity|exact Hk].
Qed.

Lemma cache_push_inv c : CInv c -> CInv (cache_push c) /\ c_size (cache_push c) = c_size c.
Proof.
  intros [Huse Hcap Hnd Hne Hlim Hc32]. unfold cache_push. split; [|reflexivity].
  constructor; unfold limits_hold; cbn [c_size c_use c_frames c_sizes c_last]; try assumption.
  - rewrite total_bytes_app. cbn. rewrite N.add_0_r. exact Huse.
  - rewrite total_bytes_app. cbn. lia.
  - rewrite all_keys_app. cbn. rewrite app_nil_r. exact Hnd.
  - destruct (c_frames c); discriminate.
  - intros g k v Hg Hk. apply in_app_or in Hg. destruct Hg as [Hg|[<-|[]]]; [eauto|discriminate].
Qed.

Lemma cache_last_inv c : CInv c -> CInv (snd (cache_last c)) /\ c_size (snd (cache_last c)) = c_size c.
Proof. intros [? ? ? ? ? ?]. split; [constructor; assumption|reflexivity]. Qed.

Lemma cache_step_inv c o :
  CInv c -> op_bounded (c_size c) o ->
  CInv (fst (cache_step c o)) /\ c_size (fst (cache_step c o)) = c_size c.
Proof.
  intros Hinv Hb. destruct o as [k v l|k v|k| | | |]; cbn [cache_step op_bounded] in *.
  - destruct (cache_add c k v l) as [c'|e|s] eqn:E; cbn [fst]; auto.
    eapply cache_add_inv; eauto.
  - pose proof (cache_update_raw_spec c k v Hinv ltac:(lia)) as H. cbv zeta in H.
    destruct (cache_update_raw c k v) as [c' [e|]]; cbn [fst snd] in *; tauto.
  - destruct (cache_get c k); cbn [fst]; auto.
  - apply cache_push_inv; assumption.
  - destruct (cache_pop c) as [c'|e|s] eqn:E; cbn [fst]; auto.
    destruct (cache_pop_spec c c' Hinv E) as [H1 [H2 _]]. auto.
  - apply cache_reset_inv; assumption.
  - pose proof (cache_last_inv c Hinv) as H. destruct (cache_last c) as [v c']. cbn [fst snd] in *. exact H.
Qed.

Lemma cache_run_cons c o ops : cache_run c (o :: ops) = cache_run (fst (cache_step c o)) ops.
Proof. reflexivity. Qed.

Lemma cache_run_from ops : forall c,
  CInv c -> Forall (op_bounded (c_size c)) ops ->
  CInv (cache_run c ops) /\ c_size (cache_run c ops) = c_size c.
Proof.
  unfold cache_run. induction ops as [|o ops IH]; intros c Hinv Hops; cbn [fold_left]; [auto|].
  inversion Hops as [|? ? Ho Hops']; subst. destruct (cache_step_inv c o Hinv Ho) as [H1 H2].
  rewrite <- H2 in Hops'. destruct (IH _ H1 Hops') as [H3 H4]. split; [exact H3|congruence].
Qed.

Theorem cache_run_inv cap ops :
  cap < 4294967296 -> Forall (op_bounded cap) ops -> CInv (cache_run (new_cache cap) ops).
Proof. intros Hcap Hops. apply cache_run_from; [apply new_cache_inv; exact Hcap|exact Hops]. Qed.

(* including Update's internal blank-and-restore *)
Theorem cache_rejected_noop c o e :
  CInv c -> op_bounded (c_size c) o -> snd (cache_step c o) = RErr e -> fst (cache_step c o) = c.
Proof.
  intros Hinv Hb. destruct o as [k v l|k v|k| | | |]; cbn [cache_step op_bounded] in *.
  - destruct (cache_add c k v l); cbn; intros H; try discriminate; reflexivity.
  - pose proof (cache_update_raw_spec c k v Hinv ltac:(lia)) as H. cbv zeta in H.
    destruct (cache_update_raw c k v) as [c' [e'|]]; cbn [fst snd] in *; intros He; [|discriminate].
    apply H. discriminate.
  - destruct (cache_get c k); cbn; intros H; try discriminate; reflexivity.
  - cbn. discriminate.
  - destruct (cache_pop c); cbn; intros H; try discriminate; reflexivity.
  - cbn. discriminate.
  - destruct (cache_last c). cbn. discriminate.
Qed.

Theorem cache_step_no_panic c o : CInv c -> snd (cache_step c o) <> RPanic.
Proof.
  intros Hinv. destruct o as [k v l|k v|k| | | |]; cbn [cache_step].
  - pose proof (cache_add_cases c k v l) as C.
    destruct (cache_add c k v l); cbn; [discriminate|discriminate|destruct (inv_frames c Hinv C)].
  - destruct (cache_update_raw c k v) as [c' [e|]]; cbn; discriminate.
  - pose proof (cache_get_no_panic c k). destruct (cache_get c k); cbn; discriminate.
  - cbn. discriminate.
  - pose proof (pop_never_panics c). destruct (cache_pop c); cbn; discriminate.
  - cbn. discriminate.
  - destruct (cache_last c). cbn. discriminate.
Qed.

Theorem cache_add_get_lemma : forall c k v l c',
  CInv c -> cache_add c k v l = Ok c' ->
  cache_get c' k = Ok v
  /\ (forall k2, k2 <> k -> cache_get c' k2 = cache_get c k2)
  /\ cache_get c k = Err EGen.
Proof.
  intros c k v l c' _ H. pose proof (cache_add_cases c k v l) as C.
  rewrite H in C. destruct C as (pre & top & Hfs & Hnew & _ & _ & ->). apply (frame_of_from_none 0) in Hnew.
  unfold cache_get, frame_of. cbn [c_frames]. rewrite Hnew. rewrite Hfs in Hnew |- *.
  rewrite !frame_of_from_app. rewrite frame_of_from_app in Hnew.
  split; [|split; [|reflexivity]].
  - destruct (frame_of_from 0 pre k); [discriminate|]. cbn [frame_of_from]. unfold ahas.
    rewrite alookup_aset_same, N.add_0_l, frame_get_mid, alookup_aset_same. reflexivity.
  - intros k2 Hk2. rewrite !frame_of_from_app. destruct (frame_of_from 0 pre k2) as [j|] eqn:Ej.
    + apply frame_of_from_some in Ej as (p & f & q & -> & -> & _).
      rewrite <- !app_assoc, N.add_0_l. cbn [app]. rewrite !frame_get_mid. reflexivity.
    + cbn [frame_of_from]. unfold ahas. rewrite alookup_aset_other by exact Hk2.
      destruct (alookup k2 top); [|reflexivity].
      rewrite N.add_0_l, !frame_get_mid, alookup_aset_other by exact Hk2. reflexivity.
Qed.
