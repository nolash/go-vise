(* Lemmas for C05 (a loaded symbol lives exactly as long as its stack level) and C18 (the selected
   language reaches every lookup and survives the session); the theorems are in props/C05.v, C18.v.
   In this order.  For C05 the cache is looked at one symbol at a time: `lives c k` is the first scope that
   defines k, and each cache operation (lives_push .. lives_pops, keeps_scope_step) and each move (lives_move,
   lives_nav_run) is described by what it does to `lives`.  Then what both properties say of function calls
   (calls, has_func) and C18's vocabulary: how a log grows (grows, ev_ok, log_ext), when the session language
   may change (lang_step, new_lang); refresh in these terms (refresh_spec); one specification per instruction
   handler (run_*_spec, `moved`).  The run loop is looked at as an iterated step (`run_step`, `run_S`, `reaches`,
   run_result_fuel), and what every exit of one step keeps (`run_step_exits`) carries the facts about one
   instruction to whole runs (run_step_ok, lang_inv_step, run_events_lemma).  Then: renderer and run loop see the
   resource only through the lookups they are handed (page_render_ext, run_ext, vm_render_ext); the engine
   level of C18 (vm_render_events, exec_start, first_start, cfg_set_lang); the applications of the Examples. *)
From Coq Require Import Lia ZifyN ZifyNat.
From Vise Require Import Bytes Errors Consts EngConsts Codec CacheModel StateModel NavModel NavSpec
  RenderModel VmModel EngineModel BytesProofs CacheProofs NavProofs VmProofs RenderProofs.
From Vise Require EngineProofs.
Local Open Scope N_scope.

(* what each scope says about symbol k, outermost scope first *)
Definition kview (k : bytes) (fs : list (list (bytes * bytes))) : list (option bytes) := map (alookup k) fs.

Fixpoint first_some {A} (i : N) (l : list (option A)) : option (N * A) :=
  match l with
  | [] => None
  | Some v :: _ => Some (i, v)
  | None :: r => first_some (i + 1) r
  end.

(* "symbol k lives in scope number n with value v" *)
Definition lives (c : cache) (k : bytes) : option (N * bytes) := first_some 0 (kview k (c_frames c)).

Lemma frame_of_from_view i fs k :
  frame_of_from i fs k = option_map fst (first_some i (kview k fs)).
Proof.
  revert i. induction fs as [|f fs IH]; intro i; [reflexivity|].
  cbn [frame_of_from kview map first_some]. unfold ahas.
  destruct (alookup k f); [reflexivity|]. apply IH.
Qed.

Lemma first_some_nth {A} (l : list (option A)) : forall i j v,
  first_some i l = Some (j, v) -> i <= j /\ nth_error l (N.to_nat (j - i)) = Some (Some v).
Proof.
  induction l as [|[a|] l IH]; intros i j v H; cbn [first_some] in H; [discriminate| |].
  - injection H as <- <-. rewrite N.sub_diag. split; [lia|reflexivity].
  - destruct (IH _ _ _ H) as [Hle Hn]. split; [lia|].
    replace (N.to_nat (j - i)) with (S (N.to_nat (j - (i + 1)))) by lia. exact Hn.
Qed.

Lemma first_some_lt {A} (l : list (option A)) i j v :
  first_some i l = Some (j, v) -> i <= j /\ j < i + len l.
Proof.
  intros H. destruct (first_some_nth _ _ _ _ H) as [Hle Hn]. split; [exact Hle|].
  apply nth_error_lt_len in Hn. lia.
Qed.

Lemma first_some_shift {A} (l : list (option A)) : forall i d,
  first_some (i + d) l = option_map (fun p => (fst p + d, snd p)) (first_some i l).
Proof.
  induction l as [|x l IH]; intros i d; [reflexivity|].
  destruct x; cbn [first_some option_map fst snd]; [reflexivity|].
  replace (i + d + 1) with (i + 1 + d) by lia. apply IH.
Qed.

Lemma first_some_app {A} (a b : list (option A)) : forall i,
  first_some i (a ++ b) = match first_some i a with Some r => Some r | None => first_some (i + len a) b end.
Proof.
  induction a as [|x a IH]; intro i; cbn [List.app first_some].
  - rewrite len_nil, N.add_0_r. reflexivity.
  - destruct x; [reflexivity|]. rewrite IH, len_cons, N.add_assoc. reflexivity.
Qed.

Lemma cache_get_lives c k :
  cache_get c k = match lives c k with Some (_, v) => Ok v | None => Err EGen end.
Proof.
  unfold cache_get, frame_of, lives. rewrite frame_of_from_view.
  destruct (first_some 0 (kview k (c_frames c))) as [[j v]|] eqn:H; cbn [option_map fst]; [|reflexivity].
  apply first_some_nth in H as [_ H]. rewrite N.sub_0_r in H.
  unfold frame_get. unfold kview in H. rewrite nth_error_map in H.
  destruct (nth_error (c_frames c) (N.to_nat j)); [|discriminate]. injection H as ->. reflexivity.
Qed.

Lemma frame_of_lives c k : frame_of c k = option_map fst (lives c k).
Proof. apply frame_of_from_view. Qed.

Lemma cache_get_never_panics c k n : cache_get c k <> Panic n.
Proof. rewrite cache_get_lives. destruct (lives c k) as [[? ?]|]; discriminate. Qed.

Lemma lives_lt c k n v : lives c k = Some (n, v) -> n < cache_levels c.
Proof.
  unfold lives, cache_levels, kview, len. intros H. apply first_some_lt in H. unfold len in H. rewrite map_length in H. lia.
Qed.

Lemma lives_push c k : lives (cache_push c) k = lives c k.
Proof.
  unfold lives, cache_push, kview. cbn [c_frames]. rewrite map_app, first_some_app.
  destruct (first_some 0 _); reflexivity.
Qed.

Lemma first_some_absent k fs i : ~ In k (all_keys fs) -> first_some i (kview k fs) = None.
Proof.
  intros H. apply (frame_of_from_none i) in H. rewrite frame_of_from_view in H.
  destruct (first_some i (kview k fs)); [discriminate|reflexivity].
Qed.

Lemma kview_app k a b : kview k (a ++ b) = kview k a ++ kview k b.
Proof. apply map_app. Qed.
Lemma len_kview k fs : len (kview k fs) = len fs.
Proof. unfold len, kview. rewrite map_length. reflexivity. Qed.

Lemma lives_pop c c' k :
  cache_pop c = Ok c' ->
  lives c' k = match lives c k with
               | Some (n, v) => if n + 1 =? cache_levels c then None else Some (n, v)
               | None => None
               end.
Proof.
  intros H. pose proof (cache_pop_cases c) as C. rewrite H in C. destruct C as (pre & top & Hfs & ->).
  unfold lives, cache_levels. cbn [c_frames]. rewrite Hfs, kview_app, first_some_app, len_app, len_kview. change (len [top]) with 1.
  replace (kview k (keep1 pre)) with (kview k pre ++ match pre with [] => [None] | _ => [] end)
    by (destruct pre; [reflexivity|apply app_nil_r]).
  rewrite first_some_app. destruct (first_some 0 (kview k pre)) as [[n v]|] eqn:Hs.
  - apply first_some_lt in Hs. rewrite len_kview in Hs. destruct (N.eqb_spec (n + 1) (len pre + 1)); [lia|reflexivity].
  - replace (first_some _ (match pre with [] => [None] | _ => [] end)) with (@None (N * list N)) by (destruct pre; reflexivity).
    cbn [kview map first_some]. destruct (alookup k top); [|reflexivity]. rewrite N.eqb_refl. reflexivity.
Qed.

Lemma lives_reset c k :
  lives (cache_reset c) k = match lives c k with Some (0, v) => Some (0, v) | _ => None end.
Proof.
  unfold lives, cache_reset. destruct (c_frames c) as [|f0 fs] eqn:Hf; [rewrite Hf; reflexivity|].
  cbn [c_frames kview map first_some]. destruct (alookup k f0); [reflexivity|].
  destruct (first_some (0 + 1) _) as [[n v]|] eqn:H; [|reflexivity].
  apply first_some_lt in H. destruct n; [lia|reflexivity].
Qed.

Lemma top_index_nat c : c_frames c <> [] -> S (N.to_nat (top_index c)) = List.length (c_frames c).
Proof. intros H. unfold top_index, len. destruct (c_frames c); [congruence|]. cbn [List.length]. lia. Qed.

Lemma cache_add_lives c k v l c' :
  cache_add c k v l = Ok c' ->
  lives c k = None
  /\ lives c' k = Some (top_index c, v)
  /\ cache_levels c' = cache_levels c
  /\ cache_reserved c' k = Ok l
  /\ (0 < l -> len v <= l)
  /\ (forall k2, k2 <> k -> lives c' k2 = lives c k2).
Proof.
  intros H. pose proof (cache_add_cases c k v l) as C. rewrite H in C.
  destruct C as (pre & top & Hfs & Hnew & Hl & _ & ->).
  unfold lives, cache_levels, cache_reserved, top_index. cbn [c_frames c_sizes].
  rewrite (first_some_absent k _ 0 Hnew), Hfs, kview_app, first_some_app, !len_app.
  rewrite Hfs, all_keys_app, in_app_iff in Hnew. rewrite first_some_absent, len_kview by tauto.
  cbn [kview map first_some]. rewrite !alookup_aset_same.
  repeat split; try reflexivity; [f_equal; f_equal; change (len [top]) with 1; lia|exact Hl|].
  intros k2 Hk2. rewrite !kview_app. cbn [kview map]. rewrite alookup_aset_other by exact Hk2. reflexivity.
Qed.

(* in all three outcomes of Update: limit refusal, capacity refusal with roll-back, success *)
Lemma lives_update_other c k2 v k : k2 <> k -> lives (fst (cache_update_raw c k2 v)) k = lives c k.
Proof.
  intros Hk. pose proof (cache_update_cases c k2 v) as C. destruct (cache_update_raw c k2 v) as [c' [e|]]; cbn [fst].
  - destruct C as [->|(f & old & _ & _ & ->)]; reflexivity.
  - destruct C as (pre & f & post & old & Hfs & _ & _ & -> & _). unfold lives. cbn [c_frames].
    rewrite Hfs, !kview_app. cbn [kview map]. rewrite alookup_aset_other by congruence. reflexivity.
Qed.

Lemma cache_update_raw_ok c k v c' :
  cache_update_raw c k v = (c', None) ->
  exists n old, lives c k = Some (n, old) /\ lives c' k = Some (n, v)
    /\ cache_levels c' = cache_levels c /\ c_sizes c' = c_sizes c
    /\ (forall l, cache_reserved c k = Ok l -> 0 < l -> len v <= l)
    /\ (forall k2, k2 <> k -> lives c' k2 = lives c k2).
Proof.
  intros H. pose proof (cache_update_cases c k v) as C. pose proof (cache_update_levels c k v) as Hlv.
  pose proof (fun k2 => lives_update_other c k v k2) as Ho. rewrite H in C, Hlv, Ho. cbn [fst] in Hlv, Ho.
  destruct C as (pre & f & post & old & Hfs & Hpre & Hold & -> & Hlim & _). exists (len pre), old.
  unfold lives, cache_reserved. cbn [c_frames c_sizes].
  rewrite Hfs, !kview_app, !first_some_app, !(first_some_absent k pre 0 Hpre), len_kview. cbn [kview map first_some].
  rewrite Hold, alookup_aset_same. repeat split; auto.
  - intros l Hr. apply Hlim. destruct (alookup k (c_sizes c)); [congruence|discriminate].
  - intros k2 Hk2. rewrite <- Hfs. apply Ho. congruence.
Qed.

Lemma lives_update c k v n old :
  lives c k = Some (n, old) ->
  lives (fst (cache_update_raw c k v)) k
  = Some (n, match snd (cache_update_raw c k v) with None => v | Some _ => old end).
Proof.
  intros Hl. pose proof (cache_update_cases c k v) as C.
  destruct (cache_update_raw c k v) as [c' [e|]] eqn:E; cbn [fst snd].
  - destruct C as [->|(f & old' & _ & _ & ->)]; exact Hl.
  - destruct (cache_update_raw_ok _ _ _ _ E) as (n' & old' & H1 & H2 & _). congruence.
Qed.

(* the cleared entry is written back and the usage restored (property C09, the cache accounts for
   every byte, relies on the same roll-back) *)
Lemma cache_update_raw_failed c k v c' e :
  CInv c -> len v + c_size c < 4294967296 -> cache_update_raw c k v = (c', Some e) -> c' = c.
Proof.
  intros Hi Hb H. pose proof (cache_update_raw_spec c k v Hi Hb) as S. cbv zeta in S. rewrite H in S.
  apply S. discriminate.
Qed.

(* whatever the length (no 16-bit truncation), and with no invariant needed *)
Lemma cache_update_raw_over_limit c k v l :
  cache_reserved c k = Ok l -> 0 < l -> l < len v -> cache_update_raw c k v = (c, Some EGen).
Proof.
  unfold cache_reserved, cache_update_raw. intros Hr H0 H1. destruct (alookup k (c_sizes c)); [|discriminate].
  injection Hr as ->. destruct (N.ltb_spec 0 l); [|lia]. destruct (N.ltb_spec l (len v)); [|lia]. reflexivity.
Qed.

Lemma lives_pops k m : forall c, c_frames c <> [] ->
  lives (pops m c) k = match lives c k with
                       | Some (n, v) => if n + 1 + N.of_nat m <=? cache_levels c then Some (n, v) else None
                       | None => None
                       end.
Proof.
  induction m as [|m IH]; intros c Hne.
  - cbn [pops]. destruct (lives c k) as [[n v]|] eqn:Hl; [|reflexivity]. apply lives_lt in Hl.
    destruct (N.leb_spec (n + 1 + N.of_nat 0) (cache_levels c)); [reflexivity|lia].
  - cbn [pops]. destruct (pop_levels c Hne) as (c' & Hp & Hne' & Hlv). rewrite Hp, (IH c' Hne'), (lives_pop _ _ k Hp).
    destruct (lives c k) as [[n v]|] eqn:Hl; [|reflexivity]. apply lives_lt in Hl. rewrite Hlv.
    destruct (N.eqb_spec (n + 1) (cache_levels c)).
    + destruct (N.leb_spec (n + 1 + N.of_nat (S m)) (cache_levels c)); [lia|reflexivity].
    + destruct (N.eqb_spec (cache_levels c) 1); [lia|].
      destruct (N.leb_spec (n + 1 + N.of_nat m) (cache_levels c - 1)),
               (N.leb_spec (n + 1 + N.of_nat (S m)) (cache_levels c)); try reflexivity; lia.
Qed.

(* the histories that do not leave the scope of k: no Pop below scope n+1, no CROAK-style Reset
   unless k lives in scope 0, no Update (RELOAD) of k itself *)
Fixpoint keeps_scope (k : bytes) (n : N) (c : cache) (ops : list cop) : bool :=
  match ops with
  | [] => true
  | o :: r =>
    (match o with
     | OPop => n + 2 <=? cache_levels c
     | OReset => n =? 0
     | OUpdate k2 _ => negb (bytes_eqb k2 k)
     | _ => true
     end) && keeps_scope k n (fst (cache_step c o)) r
  end.

Lemma keeps_scope_step k n v c o r :
  lives c k = Some (n, v) -> keeps_scope k n c (o :: r) = true ->
  lives (fst (cache_step c o)) k = Some (n, v) /\ keeps_scope k n (fst (cache_step c o)) r = true.
Proof.
  intros Hl Hk. cbn [keeps_scope] in Hk. apply andb_prop in Hk as [Ho Hk]. split; [clear Hk|exact Hk].
  destruct o as [k2 v2 l|k2 v2|k2| | | |]; cbn [cache_step].
  - (* OAdd: refused, or of another symbol since k is defined *)
    destruct (cache_add c k2 v2 l) as [c'| |] eqn:Ha; cbn [fst]; try exact Hl.
    destruct (cache_add_lives _ _ _ _ _ Ha) as (Hn & _ & _ & _ & _ & Hoth). rewrite Hoth; congruence.
  - (* OUpdate, of another symbol *)
    apply negb_true_iff, beqb_false in Ho. rewrite <- (lives_update_other c k2 v2 k Ho) in Hl.
    destruct (cache_update_raw c k2 v2) as [c' [e|]]; exact Hl.
  - (* OGet *) destruct (cache_get c k2); exact Hl.
  - (* OPush *) cbn [fst]. rewrite lives_push. exact Hl.
  - (* OPop, from above scope n *)
    destruct (cache_pop c) as [c'| |] eqn:Hp; cbn [fst]; try exact Hl.
    rewrite (lives_pop _ _ _ Hp), Hl. apply N.leb_le in Ho. destruct (N.eqb_spec (n + 1) (cache_levels c)); [lia|reflexivity].
  - (* OReset, with n = 0 *) cbn [fst]. apply N.eqb_eq in Ho. subst n. rewrite lives_reset, Hl. reflexivity.
  - (* OLast *) exact Hl.
Qed.

Lemma lives_move t st ca st' ca' sym r k :
  nav_inv st ca -> apply_target t st ca = (st', ca', sym, r) ->
  lives ca' k = match lives ca k with
                | Some (n, v) => if n <=? len (s_path st') then Some (n, v) else None
                | None => None
                end.
Proof.
  intros Hi H. pose proof (nav_inv_frames _ _ Hi) as Hne. unfold nav_inv in Hi.
  assert (Hsame : len (s_path st) <= len (s_path st') -> lives ca k = match lives ca k with
            | Some (n, v) => if n <=? len (s_path st') then Some (n, v) else None | None => None end).
  { intros Hle. destruct (lives ca k) as [[n v]|] eqn:Hl; [|reflexivity]. apply lives_lt in Hl.
    destruct (N.leb_spec n (len (s_path st'))); [reflexivity|lia]. }
  destruct r as [|e m|p|];
    try (destruct (apply_fail_unchanged Hne H) as [-> ->]; [discriminate|apply Hsame; lia]).
  destruct (apply_ok_exact Hne H) as (Hnc & _ & _ & ->).
  apply nav_code_shape in Hnc. unfold pos_of in Hnc. cbn [fst] in Hnc. destruct (valid_sym_b t).
  - rewrite lives_push. apply Hsame. destruct Hnc as [-> _]. rewrite len_app. lia.
  - destruct Hnc as [Hlen _]. rewrite lives_pops by exact Hne. destruct (lives ca k) as [[n v]|]; [|reflexivity].
    unfold len in *.
    destruct (N.leb_spec (n + 1 + N.of_nat (List.length (s_path st) - List.length (s_path st'))) (cache_levels ca)),
             (N.leb_spec n (N.of_nat (List.length (s_path st')))); try reflexivity; lia.
Qed.

(* the stack never gets shorter than n along the way *)
Fixpoint stays_at_or_below (n : N) (st : state) (ca : cache) (ts : list bytes) : bool :=
  match ts with
  | [] => true
  | t :: ts' =>
    let '(st', ca', _, _) := apply_target t st ca in
    (n <=? len (s_path st')) && stays_at_or_below n st' ca' ts'
  end.

(* the lifetime over any sequence of moves (successful or refused), exactly: the symbol survives
   iff the stack never gets shorter than its scope on the way *)
Lemma lives_nav_run ts : forall st ca st2 ca2 log k,
  nav_inv st ca -> nav_run st ca ts = (st2, ca2, log) ->
  nav_inv st2 ca2
  /\ lives ca2 k = match lives ca k with
                   | Some (n, v) => if stays_at_or_below n st ca ts then Some (n, v) else None
                   | None => None
                   end.
Proof.
  induction ts as [|t ts IH]; intros st ca st2 ca2 log k Hi H; cbn [nav_run stays_at_or_below] in *.
  - injection H as <- <- _. split; [exact Hi|]. destruct (lives ca k) as [[n v]|]; reflexivity.
  - destruct (apply_target t st ca) as [[[st' ca'] sym] r] eqn:Ha.
    destruct (nav_run st' ca' ts) as [[st3 ca3] lg] eqn:Hr. injection H as <- <- _.
    destruct (apply_levels Hi Ha) as [Hi' _].
    destruct (IH _ _ _ _ _ k Hi' Hr) as [Hi3 ->]. split; [exact Hi3|].
    rewrite (lives_move _ _ _ _ _ _ _ k Hi Ha). destruct (lives ca k) as [[n v]|]; [|reflexivity].
    destruct (n <=? len (s_path st')); reflexivity.
Qed.

(* how often the world has seen symbol key called *)
Definition calls (key : bytes) (v : vmst) : N := match alookup key (v_w v) with Some n => n | None => 0 end.
(* the resource has a (non-empty) script for key: FuncFor succeeds *)
Definition has_func (rs : rsrc) (key : bytes) : bool :=
  match rs_func rs key with Some (_ :: _) => true | _ => false end.

Definition is_func_ev (e : ev) : bool := match e with EvFunc _ _ _ => true | _ => false end.
Definition func_count (l : list ev) : nat := List.length (filter is_func_ev l).

Definition grows (P : ev -> Prop) (l l' : list ev) : Prop := exists new, l' = new ++ l /\ Forall P new.

Lemma grows_refl P l : grows P l l.
Proof. exists []. split; [reflexivity|constructor]. Qed.
Lemma grows_cons (P : ev -> Prop) e l l' : P e -> grows P l l' -> grows P l (e :: l').
Proof. intros He [new [-> F]]. exists (e :: new). split; [reflexivity|constructor; assumption]. Qed.
Lemma grows_trans P a b c : grows P a b -> grows P b c -> grows P a c.
Proof.
  intros [n1 [-> F1]] [n2 [-> F2]]. exists (n2 ++ n1). split; [apply app_assoc|apply Forall_app; split; assumption].
Qed.
Lemma grows_impl (P Q : ev -> Prop) l l' : (forall e, P e -> Q e) -> grows P l l' -> grows Q l l'.
Proof. intros H [new [-> F]]. exists new. split; [reflexivity|eapply Forall_impl; eassumption]. Qed.

(* an event appended while the context language is L: a function call carries L; the run loop
   never renders *)
Definition ev_ok (L : option bytes) (e : ev) : Prop :=
  match e with EvFunc _ l _ => l = L | EvRender _ _ _ => False | _ => True end.
Definition log_ext (L : option bytes) (v v' : vmst) : Prop := grows (ev_ok L) (v_log v) (v_log v').
(* the session language changes only together with a set LANG flag *)
Definition lang_step (st st' : state) : Prop := s_lang st' = s_lang st \/ getf st' FLAG_LANG = true.

(* what the function result does to the session language, exactly *)
Definition new_lang (lookup : bytes -> option bytes) (cur : option bytes) (code : bytes) : option bytes :=
  match lookup code with
  | Some c3 => Some c3
  | None => match code with [] => None | _ => cur end
  end.

Lemma st_set_language_lang lk st code : s_lang (st_set_language lk st code) = new_lang lk (s_lang st) code.
Proof. unfold st_set_language, new_lang. destruct code; destruct (lk _); reflexivity. Qed.

Lemma nth_fres_some script n : script <> [] -> exists fr, nth_fres script n = Some fr.
Proof.
  intros Hne. unfold nth_fres. destruct script as [|x r] eqn:E; [congruence|]. rewrite <- E.
  assert (Hl : len script <> 0) by (subst script; unfold len; cbn [List.length]; lia).
  apply nth_error_below, N.mod_lt, Hl.
Qed.

(* a result that leaves LANG set switches the session language by SetLanguage(result), nothing else does *)
Lemma refresh_spec rs lang key v v' content s :
  refresh rs lang key v = (v', content, s) ->
  v_ca v' = v_ca v /\ v_pg v' = v_pg v
  /\ (if has_func rs key
      then v_log v' = EvFunc key lang (s_input (v_st v)) :: v_log v /\ v_w v' = aset key (calls key v + 1) (v_w v)
      else v' = v)
  /\ s_lang (v_st v') = match s with
                        | SOk => if getf (v_st v') FLAG_LANG then new_lang lang_lookup (s_lang (v_st v)) content
                                 else s_lang (v_st v)
                        | _ => s_lang (v_st v)
                        end.
Proof.
  unfold refresh, has_func, calls. intros H.
  destruct (rs_func rs key) as [[|x r]|]; try (injection H as <- _ <-; auto).
  destruct (nth_fres_some (x :: r) (match alookup key (v_w v) with Some n => n | None => 0 end)) as [fr Hfr]; [discriminate|].
  rewrite Hfr in H. destruct (fr_fail fr); [injection H as <- _ <-; auto|]. cbn [v_st vlog vset_w] in H.
  destruct (apply_flags false _ _) as [st1| |] eqn:H1; [|injection H as <- _ <-; auto..].
  destruct (apply_flags true _ st1) as [st2| |] eqn:H2; [|injection H as <- _ <-; auto..].
  injection H as <- <- <-. cbn [v_ca v_pg v_log v_w v_st vset_st vlog vset_w]. repeat split.
  destruct (apply_flags_reserved _ _ _ _ H1) as [_ S1]. destruct (apply_flags_reserved _ _ _ _ H2) as [_ S2].
  assert (E : s_lang st2 = s_lang (v_st v)) by (unfold same_but_flags in *; intuition congruence).
  destruct (getf st2 FLAG_LANG) eqn:Hl; [rewrite getf_set_language, Hl, st_set_language_lang, E; reflexivity|].
  rewrite Hl. exact E.
Qed.

Lemma refresh_frame rs lang key v v' content s :
  refresh rs lang key v = (v', content, s) -> v_ca v' = v_ca v /\ v_pg v' = v_pg v.
Proof. intros H. destruct (refresh_spec _ _ _ _ _ _ _ H) as (Hc & Hp & _). auto. Qed.

Lemma refresh_calls_once rs lang key v v' content s :
  has_func rs key = true -> refresh rs lang key v = (v', content, s) ->
  v_log v' = EvFunc key lang (s_input (v_st v)) :: v_log v
  /\ v_w v' = aset key (calls key v + 1) (v_w v).
Proof. intros Hf H. destruct (refresh_spec _ _ _ _ _ _ _ H) as (_ & _ & Hc & _). rewrite Hf in Hc. exact Hc. Qed.

Lemma refresh_no_func rs lang key v :
  has_func rs key = false -> refresh rs lang key v = (v, [], SErr EGen (Some (rs_nofunc rs key))).
Proof.
  unfold has_func, refresh. intros Hf. destruct (rs_func rs key) as [[|x r]|]; try discriminate; reflexivity.
Qed.

Lemma refresh_ok rs lang key v v' content s :
  refresh rs lang key v = (v', content, s) -> log_ext lang v v' /\ lang_step (v_st v) (v_st v').
Proof.
  intros H. destruct (refresh_spec _ _ _ _ _ _ _ H) as (_ & _ & Hc & Hs). split.
  - unfold log_ext. destruct (has_func rs key); [destruct Hc as [-> _]; apply grows_cons; [reflexivity|]|rewrite Hc]; apply grows_refl.
  - unfold lang_step. destruct s; auto. destruct (getf (v_st v') FLAG_LANG); auto.
Qed.

Lemma cache_add_dup c k v l : cache_add c k v l = Err EDup -> frame_of c k <> None.
Proof.
  unfold cache_add. destruct ((0 <? l) && (l <? len v)); [discriminate|].
  destruct (frame_of c k); [discriminate|]. destruct ((0 <? len v) && _); [discriminate|].
  destruct (c_frames c); discriminate.
Qed.

Lemma page_map_ok c pg k pg' :
  page_map c pg k = Ok pg' ->
  exists val, cache_get c k = Ok val /\ p_map pg' = aset k val (p_map pg).
Proof. intros H. destruct (page_map_page H) as (val & l & Hg & ->). eauto. Qed.

Lemma page_map_needs_cache c pg k e : cache_get c k = Err e -> page_map c pg k = Err e.
Proof. unfold page_map. intros ->. reflexivity. Qed.

Lemma page_reset_map pg : p_map (page_reset pg) = [].
Proof. reflexivity. Qed.
Lemma page_reset_sink pg : p_sink (page_reset pg) = None.
Proof. reflexivity. Qed.
Lemma vm_reset_map sep pg : p_map (vm_reset sep pg) = [].
Proof. reflexivity. Qed.

Lemma run_map_spec sym b v v' b' s :
  run_map sym b v = (v', b', s) ->
  b' = b /\ v_st v' = v_st v /\ v_ca v' = v_ca v /\ v_log v' = v_log v /\ v_w v' = v_w v
  /\ (s = SOk -> exists val, cache_get (v_ca v) sym = Ok val
                 /\ p_map (v_pg v') = aset sym val (p_map (v_pg v)))
  /\ (s <> SOk -> v_pg v' = v_pg v).
Proof.
  unfold run_map. intros H. destruct (page_map (v_ca v) (v_pg v) sym) as [pg'|e|p] eqn:Hm; injection H as <- <- <-;
    cbn [v_st v_ca v_log v_w v_pg vset_pg]; repeat split; try congruence.
  intros _. apply (page_map_ok _ _ _ _ Hm).
Qed.

(* after the function call and the update, RELOAD is MAP *)
Lemma run_reload_ok rs lang sym b v v1 content :
  refresh rs lang sym v = (v1, content, SOk) ->
  run_reload rs lang sym b v = run_map sym b (vset_ca v1 (fst (cache_update_raw (v_ca v) sym content))).
Proof.
  intros Hr. unfold run_reload. rewrite Hr. destruct (refresh_frame _ _ _ _ _ _ _ Hr) as [-> _].
  destruct (cache_update_raw _ _ _). reflexivity.
Qed.

(* what CATCH, MOVE and INCMP do to the machine besides the page: they log no call and no render,
   keep the session language, and leave stack and cache alone or make one move to their target
   (INCMP with other flags before and after) *)
Definition moved (L : option bytes) (t : bytes) (v v' : vmst) : Prop :=
  log_ext L v v' /\ s_lang (v_st v') = s_lang (v_st v)
  /\ (v_ca v' = v_ca v
      \/ exists st0 st' nsym r, apply_target t st0 (v_ca v) = (st', v_ca v', nsym, r)
           /\ s_path st0 = s_path (v_st v) /\ s_path (v_st v') = s_path st').

Lemma moved_by L t v st0 st' ca' nsym r v' :
  apply_target t st0 (v_ca v) = (st', ca', nsym, r) ->
  s_path st0 = s_path (v_st v) -> s_lang st0 = s_lang (v_st v) ->
  v_ca v' = ca' -> s_path (v_st v') = s_path st' -> s_lang (v_st v') = s_lang st' ->
  log_ext L v v' -> moved L t v v'.
Proof.
  intros Ha Hp Hl <- Hp' Hl' Hg. split; [exact Hg|]. split; [|right; exists st0, st', nsym, r; auto].
  destruct (apply_target_pos_only t st0 (v_ca v)) as (p & i & E). rewrite Ha in E. cbn [fst] in E.
  rewrite Hl', <- Hl, E. reflexivity.
Qed.

Lemma moved_not L t v v' :
  v_ca v' = v_ca v -> s_lang (v_st v') = s_lang (v_st v) -> log_ext L v v' -> moved L t v v'.
Proof. unfold moved. auto. Qed.

Lemma moved_lives L t v v' k n val :
  nav_inv (v_st v) (v_ca v) -> lives (v_ca v) k = Some (n, val) -> moved L t v v' ->
  lives (v_ca v') k = Some (n, val) \/ lives (v_ca v') k = None /\ len (s_path (v_st v')) < n.
Proof.
  intros Hi Hl (_ & _ & [->|(st0 & st' & nsym & r & Ha & Hp & Hp')]); [left; exact Hl|].
  unfold nav_inv in Hi. rewrite <- Hp in Hi. rewrite (lives_move _ _ _ _ _ _ _ k Hi Ha), Hl, Hp'.
  destruct (N.leb_spec n (len (s_path st'))); auto.
Qed.

(* closes log_ext L v v' when v' is v with some move, comparison and code-fetch events logged *)
Ltac quiet_log :=
  unfold log_ext; cbn [v_log vlog vset_st vset_ca vset_pg]; repeat (apply grows_cons; [exact I|]); apply grows_refl.

(* CATCH moves (applies its target, replaces the code) but does NOT reset the page: what was
   mapped before it is still mapped after it *)
Lemma run_catch_spec L rs sym sig mode b v v' b' s :
  run_catch rs sym sig mode b v = (v', b', s) -> v_pg v' = v_pg v /\ moved L sym v v'.
Proof.
  unfold run_catch, fetch_code. intros H.
  destruct (match_flag (v_st v) sig mode) as [[|]| |];
    try (injection H as <- _ _; split; [reflexivity|apply moved_not; [reflexivity..|quiet_log]]).
  destruct (apply_target sym (v_st v) (v_ca v)) as [[[st' ca'] nsym] r] eqn:Ha.
  destruct r; [destruct (rs_code rs nsym), (rs_observed rs)|..]; injection H as <- _ _;
    (split; [reflexivity|apply (moved_by _ _ _ _ _ _ _ _ _ Ha); [reflexivity..|quiet_log]]).
Qed.

Lemma run_move_spec L rs sep sym b v v' b' s :
  run_move rs sep sym b v = (v', b', s) ->
  ((s = SOk -> p_map (v_pg v') = []) /\ (s <> SOk -> v_pg v' = v_pg v)) /\ moved L sym v v'.
Proof.
  unfold run_move, fetch_code. intros H.
  destruct (apply_target sym (v_st v) (v_ca v)) as [[[st' ca'] nsym] r] eqn:Ha.
  destruct r; [destruct (rs_code rs nsym), (rs_observed rs)|..]; injection H as <- _ <-;
    (split; [split; [try discriminate|try congruence]; reflexivity|apply (moved_by _ _ _ _ _ _ _ _ _ Ha); [reflexivity..|quiet_log]]).
Qed.

Lemma run_incmp_spec L rs sep dest sel b v v' b' s :
  run_incmp rs sep dest sel b v = (v', b', s) ->
  ((v_pg v' = v_pg v /\ (v_log v' = v_log v \/ v_log v' = EvInCmp dest sel false :: v_log v))
   \/ (v_pg v' = vm_reset sep (v_pg v)
       /\ exists pre nsym, v_log v' = pre ++ EvMove 1 dest nsym :: EvInCmp dest sel true :: v_log v))
  /\ moved L dest v v'.
Proof.
  unfold run_incmp, fetch_code. intros H.
  assert (Hno : forall vx (Q : Prop), v_pg vx = v_pg v -> v_ca vx = v_ca v -> s_lang (v_st vx) = s_lang (v_st v) ->
            v_log vx = v_log v \/ v_log vx = EvInCmp dest sel false :: v_log v ->
            (v_pg vx = v_pg v /\ (v_log vx = v_log v \/ v_log vx = EvInCmp dest sel false :: v_log v) \/ Q) /\ moved L dest v vx).
  { intros vx Q Hp Hc Hs Hg. split; [left; auto|]. apply moved_not; [exact Hc|exact Hs|].
    unfold log_ext. destruct Hg as [->| ->]; [|apply grows_cons; [exact I|]]; apply grows_refl. }
  destruct (getf (v_st v) FLAG_INMATCH && getf (v_st v) FLAG_READIN); [injection H as <- _ _; apply Hno; auto|].
  cbn [v_st v_ca vset_st] in H. set (st0 := if getf (v_st v) FLAG_INMATCH then v_st v else setf (v_st v) FLAG_READIN) in H.
  assert (E0 : s_path st0 = s_path (v_st v) /\ s_lang st0 = s_lang (v_st v)) by (subst st0; destruct (getf _ _); auto).
  destruct E0 as [Ep El].
  destruct (s_input st0) as [input|]; [|injection H as <- _ _; apply Hno; auto].
  destruct ((negb _ && _) || _); [|injection H as <- _ _; apply Hno; auto].
  destruct (apply_target dest _ (v_ca v)) as [[[st' ca'] nsym] r] eqn:Ha.
  assert (Hmv : forall vx, v_ca vx = ca' -> s_path (v_st vx) = s_path st' -> s_lang (v_st vx) = s_lang st' ->
            log_ext L v vx -> moved L dest v vx).
  { intros vx. apply (moved_by _ _ _ _ _ _ _ _ _ Ha); assumption. }
  destruct r as [|e m|p|]; [|destruct e|..].
  1: { (* the move is made: the page is reset, comparison and move are logged, and so is the fetch of the node's code
          if the resource is observed *)
       destruct (rs_code rs nsym), (rs_observed rs); injection H as <- _ _;
         (split; [right; split; [reflexivity|]|apply Hmv; [reflexivity..|quiet_log]]);
         first [exists [EvCode nsym], nsym; reflexivity|exists [], nsym; reflexivity]. }
  (* the move is refused: an IndexError logs the comparison as failed, anything else logs nothing; the page stays *)
  all: injection H as <- _ _;
    (split; [left; cbn [v_pg v_log vlog vset_pg vset_ca vset_st]; auto|apply Hmv; [reflexivity..|quiet_log]]).
Qed.

Lemma run_croak_spec sep sig mode b v v' b' s :
  run_croak sep sig mode b v = (v', b', s) ->
  v_st v' = v_st v /\ v_log v' = v_log v
  /\ ((v_pg v' = v_pg v /\ v_ca v' = v_ca v) \/ (v_pg v' = vm_reset sep (v_pg v) /\ v_ca v' = cache_reset (v_ca v))).
Proof.
  unfold run_croak. intros H. destruct (match_flag (v_st v) sig mode) as [[|]| |]; injection H as <- _ _; cbn; auto.
Qed.

Lemma run_load_spec rs lang sym sz b v v' b' s :
  run_load rs lang sym sz b v = (v', b', s) ->
  v_pg v' = v_pg v /\ log_ext lang v v' /\ lang_step (v_st v) (v_st v')
  /\ (v_ca v' = v_ca v \/ exists content, cache_add (v_ca v) sym content (w16 sz) = Ok (v_ca v')).
Proof.
  unfold run_load. intros H.
  destruct (cache_get (v_ca v) sym); try (injection H as <- _ _; repeat split; [apply grows_refl|left; reflexivity|auto]).
  destruct (refresh rs lang sym v) as [[v1 content] s1] eqn:Hr.
  destruct (refresh_frame _ _ _ _ _ _ _ Hr) as [Hca Hpg]. destruct (refresh_ok _ _ _ _ _ _ _ Hr) as [Hl Hs].
  rewrite Hca in H.
  destruct s1; [destruct (cache_add (v_ca v) sym content (w16 sz)) as [ca'|[]|] eqn:Ha|..]; injection H as <- _ _;
    (split; [exact Hpg|split; [exact Hl|split; [exact Hs|]]]); [right; exists content; exact Ha|left; exact Hca..].
Qed.

Lemma run_reload_spec rs lang sym b v v' b' s :
  run_reload rs lang sym b v = (v', b', s) ->
  log_ext lang v v' /\ lang_step (v_st v) (v_st v')
  /\ (v_ca v' = v_ca v \/ exists content, v_ca v' = fst (cache_update_raw (v_ca v) sym content))
  /\ (p_map (v_pg v') = p_map (v_pg v)
      \/ exists val, cache_get (v_ca v') sym = Ok val /\ p_map (v_pg v') = aset sym val (p_map (v_pg v))).
Proof.
  intros H. destruct (refresh rs lang sym v) as [[v1 content] s1] eqn:Hr.
  destruct (refresh_frame _ _ _ _ _ _ _ Hr) as [Hca Hpg]. destruct (refresh_ok _ _ _ _ _ _ _ Hr) as [Hl Hs].
  destruct s1; try (unfold run_reload in H; rewrite Hr in H; injection H as <- _ _; rewrite Hpg; auto).
  rewrite (run_reload_ok _ _ _ _ _ _ _ Hr) in H.
  destruct (run_map_spec _ _ _ _ _ _ H) as (_ & Est & Eca & El & _ & Hok & Hne). cbn [v_st v_ca v_pg v_log vset_ca] in *.
  unfold log_ext. rewrite Est, Eca, El. repeat split; [exact Hl|exact Hs|eauto|].
  destruct s; try (left; rewrite Hne, Hpg by discriminate; reflexivity). right. rewrite <- Hpg. exact (Hok eq_refl).
Qed.

Lemma upd_menu_map f pg : p_map (upd_menu f pg) = p_map pg.
Proof. unfold upd_menu. destruct (p_menu pg); reflexivity. Qed.

Lemma exec_instr_ok rs sep lang i b v v' b' s :
  exec_instr rs sep lang i b v = (v', b', s) -> log_ext lang v v' /\ lang_step (v_st v) (v_st v').
Proof.
  assert (M : forall t, moved lang t v v' -> log_ext lang v v' /\ lang_step (v_st v) (v_st v')).
  { intros t (Hl & Hs & _). split; [exact Hl|left; exact Hs]. }
  unfold log_ext, lang_step in *.
  destruct i; cbn [exec_instr]; intros H; try (injection H as <- _ _; split; [apply grows_refl|left; reflexivity]).
  - apply (M _ (proj2 (run_catch_spec _ _ _ _ _ _ _ _ _ _ H))).
  - destruct (run_croak_spec _ _ _ _ _ _ _ _ H) as (-> & -> & _). split; [apply grows_refl|left; reflexivity].
  - apply run_load_spec in H. tauto.
  - apply run_reload_spec in H. tauto.
  - destruct (run_map_spec _ _ _ _ _ _ H) as (_ & -> & _ & -> & _). split; [apply grows_refl|left; reflexivity].
  - apply (M _ (proj2 (run_move_spec _ _ _ _ _ _ _ _ _ H))).
  - apply (M _ (proj2 (run_incmp_spec _ _ _ _ _ _ _ _ _ _ H))).
Qed.

Lemma exec_instr_map_lemma rs sep lang i b v v' b' s :
  exec_instr rs sep lang i b v = (v', b', s) ->
  p_map (v_pg v') = []
  \/ p_map (v_pg v') = p_map (v_pg v)
  \/ exists k val, (i = IMap k \/ i = IReload k) /\ cache_get (v_ca v') k = Ok val
                   /\ p_map (v_pg v') = aset k val (p_map (v_pg v)).
Proof.
  destruct i; cbn [exec_instr]; intros H;
    try (injection H as <- _ _; right; left; cbn [v_pg vset_pg vset_st]; first [reflexivity | apply upd_menu_map]).
  - destruct (run_catch_spec None _ _ _ _ _ _ _ _ _ H) as [-> _]. auto.
  - destruct (run_croak_spec _ _ _ _ _ _ _ _ H) as (_ & _ & [[-> _]|[-> _]]); auto.
  - destruct (run_load_spec _ _ _ _ _ _ _ _ _ H) as [-> _]. auto.
  - destruct (run_reload_spec _ _ _ _ _ _ _ _ H) as (_ & _ & _ & [E|(val & Hg & E)]); eauto 8.
  - destruct (run_map_spec _ _ _ _ _ _ H) as (_ & _ & Hca & _ & _ & Hok & Hne).
    destruct s; try (right; left; rewrite Hne by discriminate; reflexivity). rewrite Hca. destruct (Hok eq_refl) as (val & ?). eauto 8.
  - destruct (run_move_spec None _ _ _ _ _ _ _ _ H) as [[Hok Hne] _].
    destruct s; [left; auto|right; left; rewrite Hne by discriminate; reflexivity..].
  - destruct (run_incmp_spec None _ _ _ _ _ _ _ _ _ H) as [[[-> _]|[-> _]] _]; auto.
Qed.

(* one iteration either ends the run or hands over to the next instruction *)
Inductive step_out : Type :=
| Done (r : hres)
| Next (lang : option bytes) (b : bytes) (v : vmst).

(* the "Language" value of the context that the instruction about to run will see *)
Definition eff_lang (lang : option bytes) (st : state) : option bytes :=
  if getf st FLAG_LANG then match s_lang st with Some l => Some l | None => lang end else lang.

(* the prelude of every instruction; WAIT is set when execution resumes after a HALT *)
Definition run_prelude (v : vmst) : vmst :=
  let st := resetf (v_st v) FLAG_LANG in
  let wait := getf st FLAG_WAIT in
  let st := resetf st FLAG_WAIT in
  let st := if wait then resetf st FLAG_INMATCH else st in
  let pg := if wait then upd_menu menu_reset (page_reset (page_with_error (v_pg v) None)) else v_pg v in
  vset_pg (vset_st v (setf st FLAG_DIRTY)) pg.

Lemma prelude_log v : v_log (run_prelude v) = v_log v.
Proof. reflexivity. Qed.
Lemma prelude_ca v : v_ca (run_prelude v) = v_ca v.
Proof. reflexivity. Qed.
(* the state of run_prelude v is VmProofs.loop_st (v_st v), by conversion *)
Lemma prelude_lang v : s_lang (v_st (run_prelude v)) = s_lang (v_st v).
Proof. symmetry. apply (loop_st_sbf (v_st v)). Qed.
Lemma prelude_path v : s_path (v_st (run_prelude v)) = s_path (v_st v).
Proof. apply (loop_st_flagish (v_st v)). Qed.

Lemma prelude_resume_clears v : getf (v_st v) FLAG_WAIT = true -> p_map (v_pg (run_prelude v)) = [].
Proof.
  intros H. unfold run_prelude. rewrite getf_resetf_other, H by discriminate. cbn [v_pg vset_pg]. apply upd_menu_map.
Qed.

(* runErrCheck *)
Definition err_check (v1 : vmst) (b2 : bytes) (s : stat) : hres :=
  match s with
  | SErr e msg =>
    let v2 := set_page_err v1 msg in
    if getf (v_st v2) FLAG_LOADFAIL && negb (bytes_eqb (where_sym (v_st v2)) catch_sym)
    then (v2, move_catch_code, SOk) else (v2, b2, s)
  | _ => (v1, b2, s)
  end.

Definition step_exec (rs : rsrc) (sep : bytes) (lang : option bytes) (op : N) (b1 : bytes) (v : vmst) : hres :=
  match parse_args op b1 with
  | Ok (i, b2) => exec_instr rs sep lang i b2 (vlog v (EvInstr op))
  | _ => (v, b1, SErr EGen None)
  end.

Definition run_step (rs : rsrc) (sep : bytes) (lang : option bytes) (b : bytes) (v : vmst) : step_out :=
  if getf (v_st v) FLAG_TERMINATE then Done (v, [], SOk) else
  let lang := eff_lang lang (v_st v) in
  let v := run_prelude v in
  match op_split b with
  | Err e => Done (v, b, SErr e None)
  | Panic n => Done (v, b, SPanic n)
  | Ok (op, b1) =>
    match parse_args op b1 with
    | Panic n => Done (v, b1, SPanic n)
    | _ =>
      let '(v1, b2, s) := step_exec rs sep lang op b1 v in
      if op =? op_HALT then Done (v1, b2, s) else
      let '(v2, b3, s2) := err_check v1 b2 s in
      match s2 with
      | SOk =>
        match b3 with
        | [] =>
          let '(v3, b4, s3) := dead_check v2 in
          match s3 with
          | SOk => match b4 with [] => Done (v3, [], SOk) | _ => Next lang b4 v3 end
          | _ => Done (v3, b4, s3)
          end
        | _ => Next lang b3 v2
        end
      | _ => Done (v2, b3, s2)
      end
    end
  end.

Lemma run_S fuel rs sep lang b v :
  run (S fuel) rs sep lang b v =
  match run_step rs sep lang b v with
  | Done r => r
  | Next l b' v' => run fuel rs sep l b' v'
  end.
Proof.
  rewrite VmProofs.run_S. unfold run_step, step_exec. destruct (getf (v_st v) FLAG_TERMINATE); [reflexivity|]. cbv zeta.
  destruct (op_split b) as [[op b1]|e|n]; [|reflexivity..].
  change (loop_lang lang (v_st v)) with (eff_lang lang (v_st v)). change (loop_pre v) with (run_prelude v).
  (* what follows the handler, for any result of it: both sides are brought to the same variables first
     (destructing the handler's call itself makes every later step compare the two spellings of its arguments) *)
  destruct (parse_args op b1) as [[i b2]|e|n];
    [generalize (exec_instr rs sep (eff_lang lang (v_st v)) i b2 (vlog (run_prelude v) (EvInstr op))); intros [[v1 b3] s]
    |generalize (run_prelude v) as v1, b1 as b3, (SErr EGen None) as s; intros v1 b3 s|reflexivity].
  all: unfold loop_tail; cbv beta iota; (destruct (op =? op_HALT); [reflexivity|]);
    change (loop_errcheck (v1, b3, s)) with (err_check v1 b3 s);
    (destruct (err_check v1 b3 s) as [[v2 b4] []]; try reflexivity); cbn [loop_after]; (destruct b4; [|reflexivity]);
    (destruct (dead_check v2) as [[v3 b5] []]; try reflexivity); destruct b5; reflexivity.
Qed.

Definition step_machine (o : step_out) : vmst :=
  match o with Done (v, _, _) => v | Next _ _ v => v end.

(* one iteration is a run with fuel for one: what VmProofs says of the pieces of an iteration holds of run_step *)
Lemma run_step_machine rs sep lang b v : step_machine (run_step rs sep lang b v) = fst (fst (run 1 rs sep lang b v)).
Proof. rewrite run_S. destruct (run_step rs sep lang b v) as [[[? ?] ?]|]; reflexivity. Qed.

(* every exit of one iteration hands out the machine it was given, the machine after the prelude,
   after the instruction, after runErrCheck or after runDeadCheck *)
Lemma run_step_exits rs sep lang b v (Q : vmst -> Prop) :
  Q v -> Q (run_prelude v) ->
  (forall op b1, Q (fst (fst (step_exec rs sep (eff_lang lang (v_st v)) op b1 (run_prelude v))))) ->
  (forall v1 m, Q v1 -> Q (set_page_err v1 m)) ->
  (forall v2, Q v2 -> Q (fst (fst (dead_check v2)))) ->
  Q (step_machine (run_step rs sep lang b v)).
Proof.
  intros Q0 Qp Qx Qe Qd. rewrite run_step_machine, VmProofs.run_S. destruct (getf (v_st v) FLAG_TERMINATE); [exact Q0|]. cbv zeta.
  destruct (op_split b) as [[op b1]|e|n]; [|exact Qp..]. specialize (Qx op b1). unfold step_exec in Qx.
  destruct (parse_args op b1) as [[i b2]|e|n]; [| |exact Qp]; apply loop_tail_keeps; auto.
Qed.

Lemma run_step_lang rs sep lang b v l1 b1 v1 : run_step rs sep lang b v = Next l1 b1 v1 -> l1 = eff_lang lang (v_st v).
Proof.
  unfold run_step. destruct (getf (v_st v) FLAG_TERMINATE); [discriminate|]. cbv zeta.
  destruct (op_split b) as [[op b0]|e|n]; try discriminate.
  (* down every branch of run_step: those that end in Done go by discriminate; the two that end in Next (code left
     after runErrCheck, code handed out by runDeadCheck) carry eff_lang lang (v_st v) literally *)
  destruct (parse_args op b0) as [[i b2]|e|n]; try discriminate;
    (destruct (step_exec _ _ _ _ _ _) as [[v1' b3] s]; destruct (op =? op_HALT); [discriminate|];
     destruct (err_check v1' b3 s) as [[v2 b4] []]; try discriminate;
     (destruct b4; [destruct (dead_check v2) as [[v3 b5] []]; try discriminate; destruct b5; [discriminate|]|]);
     intros H; injection H as <- _ _; reflexivity).
Qed.

(* configurations (context language, pending code, machine) and the ones a run passes through *)
Notation conf := (option bytes * bytes * vmst)%type (only parsing).

Inductive reaches (rs : rsrc) (sep : bytes) : conf -> conf -> Prop :=
| reach_refl : forall c, reaches rs sep c c
| reach_step : forall lang b v l1 b1 v1 c,
    run_step rs sep lang b v = Next l1 b1 v1 -> reaches rs sep (l1, b1, v1) c -> reaches rs sep (lang, b, v) c.

Lemma reaches_trans rs sep c1 c2 c3 : reaches rs sep c1 c2 -> reaches rs sep c2 c3 -> reaches rs sep c1 c3.
Proof. induction 1; intros H3; [exact H3|]. eapply reach_step; [eassumption|auto]. Qed.

Lemma reaches_invariant rs sep (P : option bytes -> bytes -> vmst -> Prop) :
  (forall lang b v l1 b1 v1, P lang b v -> run_step rs sep lang b v = Next l1 b1 v1 -> P l1 b1 v1) ->
  forall lang b v l' b' v', P lang b v -> reaches rs sep (lang, b, v) (l', b', v') -> P l' b' v'.
Proof.
  intros Hstep lang b v l' b' v' HP H.
  enough (G : forall c c', reaches rs sep c c' ->
            P (fst (fst c)) (snd (fst c)) (snd c) -> P (fst (fst c')) (snd (fst c')) (snd c')) by exact (G _ _ H HP).
  induction 1 as [|? ? ? ? ? ? ? Hs _ IH]; [auto|]. intros HP0. apply IH, (Hstep _ _ _ _ _ _ HP0 Hs).
Qed.

Lemma run_result_fuel rs sep (P : option bytes -> bytes -> vmst -> Prop) (Q : hres -> Prop) :
  (forall lang b v l1 b1 v1, P lang b v -> run_step rs sep lang b v = Next l1 b1 v1 -> P l1 b1 v1) ->
  (forall lang b v r, P lang b v -> run_step rs sep lang b v = Done r -> Q r) ->
  (forall lang b v, P lang b v -> Q (v, b, SFuel)) ->
  forall fuel lang b v, P lang b v -> Q (run fuel rs sep lang b v).
Proof.
  intros Hn Hd Hf. induction fuel as [|fuel IH]; intros lang b v HP.
  - cbn [run]. apply (Hf lang b v HP).
  - rewrite run_S. destruct (run_step rs sep lang b v) as [r|l1 b1 v1] eqn:Hs.
    + eapply Hd; eassumption.
    + apply IH. eapply Hn; eassumption.
Qed.

(* iterating the step function: computable witnesses for `reaches` *)
Fixpoint iter_step (n : nat) (rs : rsrc) (sep : bytes) (c : conf) : option conf :=
  match n with
  | O => Some c
  | S n' =>
    let '(lang, b, v) := c in
    match run_step rs sep lang b v with
    | Next l1 b1 v1 => iter_step n' rs sep (l1, b1, v1)
    | Done _ => None
    end
  end.

Lemma iter_step_reaches n : forall rs sep c c', iter_step n rs sep c = Some c' -> reaches rs sep c c'.
Proof.
  induction n as [|n IH]; intros rs sep c c' H; cbn [iter_step] in H.
  - injection H as <-. apply reach_refl.
  - destruct c as [[lang b] v]. destruct (run_step rs sep lang b v) as [r|l1 b1 v1] eqn:Hs; [discriminate|].
    eapply reach_step; [exact Hs|apply IH; exact H].
Qed.

(* a run that stays at or below level n and keeps stack and cache in lock-step *)
Inductive reaches_within (rs : rsrc) (sep : bytes) (n : N) : conf -> conf -> Prop :=
| within_refl : forall c, reaches_within rs sep n c c
| within_step : forall lang b v l1 b1 v1 c,
    run_step rs sep lang b v = Next l1 b1 v1 ->
    n <= len (s_path (v_st v1)) -> nav_inv (v_st v1) (v_ca v1) ->
    reaches_within rs sep n (l1, b1, v1) c -> reaches_within rs sep n (lang, b, v) c.

Lemma reaches_within_reaches rs sep n c c' : reaches_within rs sep n c c' -> reaches rs sep c c'.
Proof. induction 1; [apply reach_refl|eapply reach_step; eassumption]. Qed.

(* computable witnesses for reaches_within *)
Definition nav_inv_b (st : state) (ca : cache) : bool := cache_levels ca =? len (s_path st) + 1.
Lemma nav_inv_b_sound st ca : nav_inv_b st ca = true -> nav_inv st ca.
Proof. unfold nav_inv_b, nav_inv. intros H. apply N.eqb_eq in H. exact H. Qed.

Fixpoint iter_within (m : nat) (n : N) (rs : rsrc) (sep : bytes) (c : conf) : option conf :=
  match m with
  | O => Some c
  | S m' =>
    let '(lang, b, v) := c in
    match run_step rs sep lang b v with
    | Next l1 b1 v1 =>
      if (n <=? len (s_path (v_st v1))) && nav_inv_b (v_st v1) (v_ca v1) then iter_within m' n rs sep (l1, b1, v1) else None
    | Done _ => None
    end
  end.

Lemma iter_within_sound m : forall n rs sep c c', iter_within m n rs sep c = Some c' -> reaches_within rs sep n c c'.
Proof.
  induction m as [|m IH]; intros n rs sep c c' H; cbn [iter_within] in H.
  - injection H as <-. apply within_refl.
  - destruct c as [[lang b] v]. destruct (run_step rs sep lang b v) as [r|l1 b1 v1] eqn:Hs; [discriminate|].
    destruct ((n <=? len (s_path (v_st v1))) && nav_inv_b (v_st v1) (v_ca v1)) eqn:Hc; [|discriminate].
    apply andb_prop in Hc as [H1 H2]. apply N.leb_le in H1. apply nav_inv_b_sound in H2.
    eapply within_step; [exact Hs|exact H1|exact H2|apply IH; exact H].
Qed.

Lemma run_step_ok rs sep lang b v :
  let vo := step_machine (run_step rs sep lang b v) in
  log_ext (eff_lang lang (v_st v)) v vo /\ lang_step (v_st v) (v_st vo).
Proof.
  apply run_step_exits; unfold log_ext, lang_step.
  - split; [apply grows_refl|left; reflexivity].
  - rewrite prelude_log, prelude_lang. split; [apply grows_refl|left; reflexivity].
  - intros op b1. unfold step_exec. destruct (parse_args op b1) as [[i b2]|e|n];
      try (cbn [fst]; rewrite prelude_log, prelude_lang; split; [apply grows_refl|left; reflexivity]).
    destruct (exec_instr rs sep _ i b2 (vlog (run_prelude v) (EvInstr op))) as [[v1 b3] s] eqn:Hx. destruct (exec_instr_ok _ _ _ _ _ _ _ _ _ Hx) as [Hl Hs].
    unfold log_ext, lang_step in Hl, Hs. cbn [fst v_st v_log vlog] in *. rewrite prelude_lang in Hs. split; [|exact Hs].
    eapply grows_trans; [|exact Hl]. apply grows_cons; [exact I|apply grows_refl].
  - intros v1 m. destruct m; auto.
  - intros v2 [Hl Hs]. destruct (dead_check_cases v2); auto. cbn [fst v_st vset_st]. rewrite getf_setf_other by discriminate. auto.
Qed.

(* lang_follows: the instruction's language is the session's, or the session has none;
   lang_inv: the same, once a pending LANG flag has been consumed *)
Definition lang_follows (l : option bytes) (st : state) : Prop := l = s_lang st \/ s_lang st = None.
Definition lang_inv (lang : option bytes) (st : state) : Prop :=
  getf st FLAG_LANG = true \/ lang_follows lang st.

Lemma lang_inv_start st : lang_inv (s_lang st) st.
Proof. right. left. reflexivity. Qed.

Lemma lang_inv_eff lang st : lang_inv lang st -> lang_follows (eff_lang lang st) st.
Proof.
  unfold lang_inv, lang_follows, eff_lang. intros [H|H].
  - rewrite H. destruct (s_lang st); [left; reflexivity|right; reflexivity].
  - destruct (getf st FLAG_LANG); [|exact H]. destruct (s_lang st); [left; reflexivity|right; reflexivity].
Qed.

Lemma lang_inv_step rs sep lang b v l1 b1 v1 :
  lang_inv lang (v_st v) -> run_step rs sep lang b v = Next l1 b1 v1 -> lang_inv l1 (v_st v1).
Proof.
  intros Hi Hs. destruct (run_step_ok rs sep lang b v) as [_ H]. rewrite Hs in H. rewrite (run_step_lang _ _ _ _ _ _ _ _ Hs).
  destruct H as [Hk|Hk]; [right|left; exact Hk].
  pose proof (lang_inv_eff _ _ Hi) as F. unfold lang_follows in *. cbn [step_machine] in Hk. rewrite Hk. exact F.
Qed.

(* whole run: every event it appends was appended by an instruction of a configuration it
   passed through, in that instruction's language; no render event *)
Definition ev_from (rs : rsrc) (sep : bytes) (c0 : conf) (e : ev) : Prop :=
  match e with
  | EvFunc _ l _ => exists l2 b2 v2, reaches rs sep c0 (l2, b2, v2) /\ l = eff_lang l2 (v_st v2)
  | EvRender _ _ _ => False
  | _ => True
  end.

Lemma run_events_lemma rs sep fuel lang b v :
  grows (ev_from rs sep (lang, b, v)) (v_log v) (v_log (fst (fst (run fuel rs sep lang b v)))).
Proof.
  set (c0 := (lang, b, v)).
  assert (Hone : forall l b1 v1 vo, reaches rs sep c0 (l, b1, v1) -> grows (ev_from rs sep c0) (v_log v) (v_log v1) ->
            log_ext (eff_lang l (v_st v1)) v1 vo -> grows (ev_from rs sep c0) (v_log v) (v_log vo)).
  { intros l b1 v1 vo Hr G Hl. eapply grows_trans; [exact G|]. eapply grows_impl; [|exact Hl].
    intros e He. destruct e; cbn in *; auto. subst. eauto. }
  apply (run_result_fuel rs sep
    (fun l b1 v1 => reaches rs sep c0 (l, b1, v1) /\ grows (ev_from rs sep c0) (v_log v) (v_log v1))
    (fun r => grows (ev_from rs sep c0) (v_log v) (v_log (fst (fst r))))).
  - intros l b1 v1 l2 b2 v2 [Hr G] Hs. destruct (run_step_ok rs sep l b1 v1) as [Hl _]. rewrite Hs in Hl.
    split; [|eapply Hone; eassumption].
    eapply reaches_trans; [exact Hr|]. eapply reach_step; [exact Hs|apply reach_refl].
  - intros l b1 v1 [[v' b'] s] [Hr G] Hs. destruct (run_step_ok rs sep l b1 v1) as [Hl _]. rewrite Hs in Hl.
    eapply Hone; eassumption.
  - intros l b1 v1 [_ G]. exact G.
  - split; [apply reach_refl|apply grows_refl].
Qed.

Definition not_render (e : ev) : Prop := match e with EvRender _ _ _ => False | _ => True end.
Lemma run_no_render rs sep fuel lang b v :
  grows not_render (v_log v) (v_log (fst (fst (run fuel rs sep lang b v)))).
Proof. eapply grows_impl; [|apply run_events_lemma]. intros e He. destruct e; exact He || exact I. Qed.

Lemma menu_loop_ext f g sep : (forall t, f t = g t) ->
  forall items r, menu_loop f sep items r = menu_loop g sep items r.
Proof.
  intros E. induction items as [|[sel title] rest IH]; intros r; cbn [menu_loop]; [reflexivity|].
  rewrite E. destruct (g title); [apply IH|reflexivity|reflexivity].
Qed.

Lemma menu_render_st_ext f g m idx : (forall t, f t = g t) -> menu_render_st f m idx = menu_render_st g m idx.
Proof.
  intros E. unfold menu_render_st. destruct (menu_apply_page m idx) as [m1|e|n]; try reflexivity.
  destruct (m_has_rs m1); [|reflexivity]. rewrite (menu_loop_ext f g _ E). reflexivity.
Qed.

Lemma page_render_inner_ext f g f' g' pg sym vals idx :
  (forall t, f t = f' t) -> (forall t, g t = g' t) ->
  page_render_inner f g pg sym vals idx = page_render_inner f' g' pg sym vals idx.
Proof.
  intros E1 E2. rewrite !inner_steps. apply sbind_ext; [unfold render_template; rewrite E1; reflexivity|intros pg0 s].
  apply sbind_ext; [|reflexivity]. unfold menu_step. destruct (p_menu pg0) as [m|]; [|reflexivity].
  rewrite (menu_render_st_ext g g' _ _ E2). reflexivity.
Qed.

Lemma page_render_ext c f g f' g' pg sym idx :
  (forall t, f t = f' t) -> (forall t, g t = g' t) ->
  page_render c f g pg sym idx = page_render c f' g' pg sym idx.
Proof.
  intros E1 E2. rewrite !page_render_steps. apply sbind_ext; [|intros; apply page_render_inner_ext; assumption].
  rewrite !page_prepare_steps. destruct (p_sizer pg); [|reflexivity].
  apply sbind_ext; [reflexivity|intros pg0 [[nsv0 sink0] svs0]]. cbv zeta.
  apply sbind_ext; [|intros pg1 [[nsv sink] svs]; apply sbind_ext; [apply page_render_inner_ext; assumption|reflexivity]].
  unfold prep_menu_sink. destruct (p_menu pg0) as [m|]; [|reflexivity]. destruct (m_sink m); [|reflexivity].
  destruct (negb _); [reflexivity|]. rewrite (menu_render_st_ext g g' _ _ E2). reflexivity.
Qed.

(* the run loop sees the resource only through code, functions and their error text *)
Definition rs_same_code (rs rs' : rsrc) : Prop :=
  (forall s, rs_code rs s = rs_code rs' s) /\ (forall s, rs_func rs s = rs_func rs' s)
  /\ (forall s, rs_nofunc rs s = rs_nofunc rs' s) /\ rs_observed rs = rs_observed rs'.

Lemma run_ext rs rs' sep : rs_same_code rs rs' ->
  forall fuel lang b v, run fuel rs sep lang b v = run fuel rs' sep lang b v.
Proof.
  intros (Ec & Ef & En & Eo). apply run_cong; intros; [unfold refresh; rewrite Ef, En|unfold fetch_code; rewrite Ec, Eo]; reflexivity.
Qed.

(* two resources that agree on everything but the entries of OTHER languages *)
Definition rs_agree_on (lang : option bytes) (rs rs' : rsrc) : Prop :=
  rs_same_code rs rs'
  /\ (forall s, rs_tpl rs lang s = rs_tpl rs' lang s)
  /\ (forall s, rs_menu rs lang s = rs_menu rs' lang s).

Lemma vm_render_ext fuel rs rs' sep lang v : rs_agree_on lang rs rs' ->
  vm_render fuel rs sep lang v = vm_render fuel rs' sep lang v.
Proof.
  intros [Ec [Et Em]]. apply vm_render_cong; [intros; apply page_render_ext; assumption|apply run_ext, Ec].
Qed.

Lemma eng_flush_noninterference fuel rs rs' c e :
  rs_agree_on (s_lang (v_st (e_v e))) rs rs' -> eng_flush fuel rs c e = eng_flush fuel rs' c e.
Proof.
  intros E. rewrite !EngineProofs.eng_flush_unfold. destruct (negb (e_execd e)); [reflexivity|].
  rewrite (vm_render_ext _ _ _ _ _ _ E). reflexivity.
Qed.

Definition app_agree_on (lang : option bytes) (a a' : app) : Prop :=
  a_code a = a_code a' /\ a_funcs a = a_funcs a'
  /\ (forall k, lookup_lang (a_tpl a) k lang = lookup_lang (a_tpl a') k lang)
  /\ (forall k, lookup_lang (a_menu a) k lang = lookup_lang (a_menu a') k lang).

Lemma app_agree_rs lang a a' : app_agree_on lang a a' -> rs_agree_on lang (app_rsrc a) (app_rsrc a').
Proof.
  intros [Ec [Ef [Et Em]]]. unfold rs_agree_on, rs_same_code, app_rsrc. cbn [rs_code rs_func rs_nofunc rs_observed rs_tpl rs_menu].
  rewrite Ec, Ef. repeat split; intros s; rewrite ?Et, ?Em; reflexivity.
Qed.

(* every render event of a Flush carries the session language at flush time *)
Definition render_in (lang : option bytes) (e : ev) : Prop :=
  match e with EvRender _ _ l => l = lang | _ => True end.

Lemma vm_render_events fuel rs sep lang v :
  grows (render_in lang) (v_log v) (v_log (fst (vm_render fuel rs sep lang v))).
Proof.
  (* nothing is asked of the result; clearing DIRTY and setting the page leave the log *)
  apply (vm_render_keeps (fun x => grows (render_in lang) (v_log v) (v_log x)) (fun _ => True));
    [auto|auto| | |exact I|exact I|intros; exact I|apply grows_refl].
  - intros x sym idx H. apply grows_cons; [reflexivity|exact H].
  - intros x H _. split; [|auto]. eapply grows_trans; [exact H|]. eapply grows_impl; [|apply run_no_render].
    intros e He. destruct e; exact I || destruct He.
Qed.

Lemma eng_reset_inner_log v : v_log (fst (eng_reset_inner v)) = v_log v.
Proof. rewrite EngineProofs.eng_reset_inner_sc. destruct (EngineProofs.reset_sc _ _) as [[st ca] s]. reflexivity. Qed.

(* the configuration eng_exec_inner hands to the run loop *)
Definition exec_start (c : config) (e : engine) : conf :=
  let v := vset_st (e_v e) (set_code (v_st (e_v e)) []) in
  (s_lang (v_st (e_v e)), s_code (v_st (e_v e)), v).

(* the entry function of WithFirst runs through the same loop: the configuration runFirst starts from *)
Definition first_start (lang : option bytes) (e : engine) : option conf :=
  match st_down (v_st (e_v e)) first_sym with
  | Ok st1 =>
    Some (lang, first_code,
          mkVm st1 (cache_push (v_ca (e_v e))) (page_with_menu (page_reset new_page) (vm_new_menu []))
               (v_w (e_v e)) (v_log (e_v e)) (v_taint (e_v e)))
  | _ => None
  end.

(* the configured language only matters for a session that does not exist yet *)
Definition cfg_set_lang (c : config) (l : bytes) : config :=
  mkCfg (c_out c) (c_root c) (c_flagcount c) (c_cachesize c) l (c_sep c) (c_reset_empty c) (c_first c).

Lemma eng_flush_cfg_lang fuel rs c l e : eng_flush fuel rs (cfg_set_lang c l) e = eng_flush fuel rs c e.
Proof. destruct c. reflexivity. Qed.
Lemma run_first_cfg_lang fuel c l lang e : run_first fuel (cfg_set_lang c l) lang e = run_first fuel c lang e.
Proof. destruct c. reflexivity. Qed.
Lemma eng_init_cfg_lang fuel rs c l e input : eng_init fuel rs (cfg_set_lang c l) e input = eng_init fuel rs c e input.
Proof. reflexivity. Qed.
Lemma eng_exec_cfg_lang fuel rs c l e input : eng_exec fuel rs (cfg_set_lang c l) e input = eng_exec fuel rs c e input.
Proof. reflexivity. Qed.

(* 2032 client flags is where the uint8 byte size of the flag field wraps to 0 *)
Lemma byte_size_small n : n <= 2032 -> 1 <= to_byte_size (w32 (n + 8)).
Proof. intros H. unfold w32. rewrite N.mod_small by lia. rewrite to_byte_size_eq by lia. lia. Qed.

(* The applications, configurations and drivers of the theorems by evaluation and the Examples of props/C05.v and
   props/C18.v; at each application, which of them run it. *)
Definition ex_fr (c : string) (set : list N) : fres := mkFres (s2b c) false 0 set [] false.
Definition ex_cfg : config := mkCfg 0 [] 2 0 [] [] false None.
Definition ex_catch_node : bytes * bytes := (s2b "_catch", encode_prog [IHalt; IInCmp (s2b "_") (s2b "*")]).
Definition ex_fuel : nat := 200.

(* long-lived engine over an input history: final engine, outputs *)
Fixpoint ex_long (rs : rsrc) (c : config) (e : engine) (ins : list bytes) : engine * list bytes :=
  match ins with
  | [] => (e, [])
  | i :: r => let '(e', resp) := request_long ex_fuel rs c e i in
              let '(e2, outs) := ex_long rs c e' r in (e2, r_out resp :: outs)
  end.
(* one engine per request over a store *)
Fixpoint ex_pers (rs : rsrc) (c : config) (p : pworld) (ins : list bytes) : pworld * list bytes :=
  match ins with
  | [] => (p, [])
  | i :: r => let '(p', resp) := request_persisted ex_fuel rs c p i in
              let '(p2, outs) := ex_pers rs c p' r in (p2, r_out resp :: outs)
  end.
Definition ex_calls (l : list ev) : list ev :=
  rev (filter (fun e => match e with EvFunc _ _ _ | EvRender _ _ _ => true | _ => false end) l).
Definition ex_e0 (c : config) : engine := new_engine c None [] [].
Definition ex_p0 : pworld := mkPw None [] [] false.

(* C05_history, C05_lifetime_hypotheses, C05_run_hypotheses: root -> foo (LOAD aa twice, MAP) -> bar (LOAD aa, MAP);
   the function answers one, two, three *)
Definition ex_app_scope : app := mkApp
  [ (s2b "root", encode_prog [IHalt; IInCmp (s2b "foo") (s2b "1")]);
    (s2b "foo", encode_prog [ILoad (s2b "aa") 5; ILoad (s2b "aa") 5; IMap (s2b "aa"); IHalt;
                             IInCmp (s2b "_") (s2b "0"); IInCmp (s2b "bar") (s2b "2")]);
    (s2b "bar", encode_prog [ILoad (s2b "aa") 5; IMap (s2b "aa"); IHalt; IInCmp (s2b "_") (s2b "0")]);
    ex_catch_node ]
  [ (s2b "root", s2b "root"); (s2b "foo", s2b "foo {{.aa}}"); (s2b "bar", s2b "bar {{.aa}}"); (s2b "_catch", s2b "catch") ]
  []
  [ (s2b "aa", [ex_fr "one" []; ex_fr "two" []; ex_fr "three" []]) ].

(* C05_reload_cases: RELOAD with a second answer `second` under limit 5 *)
Definition ex_app_reload (second : bytes) : app := mkApp
  [ (s2b "root", encode_prog [ILoad (s2b "aa") 5; IReload (s2b "aa"); IHalt; IInCmp (s2b "_") (s2b "0")]); ex_catch_node ]
  [ (s2b "root", s2b "root [{{.aa}}]"); (s2b "_catch", s2b "catch") ]
  []
  [ (s2b "aa", [ex_fr "one" []; mkFres second false 0 [] [] false]) ].

(* C05_map_until_next_move_refuted_catch: the node foo maps aa and leaves upwards, by `leave`; root (entered
   through CATCH foo 9 0, flag 9 being set by aa) shows {{.aa}} without mapping it *)
Definition ex_app_leave (leave : instr) : app := mkApp
  [ (s2b "root", encode_prog [ICatch (s2b "foo") 9 false; IHalt; IInCmp (s2b "foo") (s2b "1")]);
    (s2b "foo", encode_prog [ILoad (s2b "aa") 5; IMap (s2b "aa"); leave]);
    ex_catch_node ]
  [ (s2b "root", s2b "root {{.aa}}"); (s2b "foo", s2b "foo {{.aa}}"); (s2b "_catch", s2b "catch") ]
  []
  [ (s2b "aa", [ex_fr "one" [9]]) ].

(* C18_invalid_code_refuted_empty, C18_lang_reaches_lookups_refuted_emptylang: corpus case lang-empty (go/cmd/vh/engine.go)
   with one more function *)
Definition ex_app_lang : app := mkApp
  [ (s2b "root", encode_prog [ILoad (s2b "lang1") 0; IHalt; IInCmp (s2b "foo") (s2b "1")]);
    (s2b "foo", encode_prog [IReload (s2b "lang1"); ILoad (s2b "other") 0; IHalt; IInCmp (s2b "_") (s2b "0")]);
    ex_catch_node ]
  [ (s2b "root", s2b "root"); (s2b "foo", s2b "foo"); (s2b "_catch", s2b "catch");
    (s2b "root_nor", s2b "rot"); (s2b "foo_nor", s2b "fu") ]
  [ (s2b "back_menu", s2b "back"); (s2b "back_menu_nor", s2b "tilbake") ]
  [ (s2b "lang1", [ex_fr "nor" [7]; ex_fr "" [7]; ex_fr "xx" [7]]); (s2b "other", [ex_fr "o" []]) ].
Definition ex_cfg1 : config := mkCfg 0 [] 1 0 [] [] false None.

(* C18_switch_history, C18_run_hypotheses, C18_agree_example: switch, then a second function and a menu label in the
   same node; translations for a subset only; `swa` entries that must not matter *)
Definition ex_app_switch (swa_tpl swa_menu : bytes) : app := mkApp
  [ (s2b "root", encode_prog [ILoad (s2b "lang1") 0; ILoad (s2b "other") 0; IMOut (s2b "go") (s2b "1");
                              IMOut (s2b "stay") (s2b "2"); IHalt; IInCmp (s2b "foo") (s2b "1")]);
    (s2b "foo", encode_prog [ILoad (s2b "third") 0; IHalt; IInCmp (s2b "_") (s2b "0")]);
    ex_catch_node ]
  [ (s2b "root", s2b "root"); (s2b "foo", s2b "foo"); (s2b "_catch", s2b "catch");
    (s2b "root_nor", s2b "rot"); (s2b "root_swa", swa_tpl) ]
  [ (s2b "go_menu", s2b "go on"); (s2b "go_menu_nor", s2b "videre"); (s2b "go_menu_swa", swa_menu) ]
  [ (s2b "lang1", [ex_fr "no" [7]]); (s2b "other", [ex_fr "o" []]); (s2b "third", [ex_fr "t" []]) ].

(* C18_config_cases, C18_first_function: no switching function; the language comes from the configuration *)
Definition ex_cfg_lang (code : string) : config := mkCfg 0 [] 1 0 (s2b code) [] false None.
Definition ex_app_plain : app := mkApp
  [ (s2b "root", encode_prog [ILoad (s2b "other") 0; IMOut (s2b "go") (s2b "1"); IHalt; IInCmp (s2b "foo") (s2b "1")]);
    (s2b "foo", encode_prog [IHalt; IInCmp (s2b "_") (s2b "0")]); ex_catch_node ]
  [ (s2b "root", s2b "root"); (s2b "foo", s2b "foo"); (s2b "_catch", s2b "catch"); (s2b "root_nor", s2b "rot") ]
  [ (s2b "go_menu", s2b "go on"); (s2b "go_menu_nor", s2b "videre") ]
  [ (s2b "other", [ex_fr "o" []]) ].

(* C18_lang_reaches_lookups_refuted_emptylang: the machine after the first request of ex_app_lang (language nor
   selected, root shown), about to execute foo's code: RELOAD lang1 answers "" with LANG *)
Definition ex_lang_conf : conf :=
  let '(e, _) := request_long ex_fuel (app_rsrc ex_app_lang) ex_cfg1 (ex_e0 ex_cfg1) [] in
  (s_lang (v_st (e_v e)),
   encode_prog [IReload (s2b "lang1"); ILoad (s2b "other") 0; IHalt],
   vset_st (e_v e) (set_input_raw (v_st (e_v e)) (Some (s2b "1")))).

(* C05_run_hypotheses: the configuration Exec hands to the run loop for `input` on engine e (None when Exec stops before) *)
Definition ex_exec_conf (rs : rsrc) (c : config) (e : engine) (input : bytes) : option conf :=
  let '(e1, cont, s) := eng_init ex_fuel rs c e input in
  match s, cont, set_input (v_st (e_v e1)) (Some input) with
  | SOk, true, Ok st' => Some (exec_start c (eset_v e1 (vset_st (e_v e1) st')))
  | _, _, _ => None
  end.

(* C18_first_function *)
Definition ex_cfg_first : config := mkCfg 0 [] 1 0 (s2b "no") [] false (Some [ex_fr "hello" []]).
